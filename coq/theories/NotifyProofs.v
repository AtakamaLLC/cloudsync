(* NotifyProofs.v — C18, notifications: what one NotificationManager.run() delivers is the ids before the first stop
   marker, in order, whatever the handlers do; the queue splits into delivered / marker / rest. *)
From Coq Require Import QArith List Bool NArith.
From CS Require Import Sx LoopModel NotifyModel.
Import ListNotations.

Lemma delivered_spec : forall p q b, delivered (n_evs (nm_run p b q)) = before_marker q.
Proof.
  intros p q. induction q as [|[[n h]|] r IH]; intro b; cbn; auto.
  rewrite IH. reflexivity.
Qed.

Lemma rest_spec : forall p q b, n_rest (nm_run p b q) = after_marker q.
Proof.
  intros p q. induction q as [|[[n h]|] r IH]; intro b; cbn; auto.
Qed.

Lemma before_marker_ids : forall q q', ids q = ids q' -> before_marker q = before_marker q'.
Proof.
  induction q as [|[[n h]|] r IH]; intros [|[[n' h']|] r'] H; try discriminate; cbn in *; auto.
  injection H as -> H. f_equal. auto.
Qed.

Definition no_marker (q : list item) : Prop := Forall (fun i => i <> None) q.

Fixpoint all_ids (q : list item) : list N :=
  match q with [] => [] | None :: r => all_ids r | Some (n, _) :: r => n :: all_ids r end.

Lemma before_marker_all : forall q, no_marker q -> before_marker q = all_ids q.
Proof.
  induction q as [|[[n h]|] r IH]; intro H; cbn; auto.
  - inversion H; subst. rewrite IH; auto.
  - inversion H; subst. congruence.
Qed.

Lemma blocked_iff : forall p q b, n_blocked (nm_run p b q) = true <-> no_marker q.
Proof.
  intros p q. induction q as [|[[n h]|] r IH]; intro b; cbn.
  - split; [constructor|reflexivity].
  - rewrite IH. split; [constructor; [discriminate|assumption]|inversion 1; assumption].
  - split; [discriminate|inversion 1; congruence].
Qed.

Lemma marker_split : forall q, ~ no_marker q ->
  exists pre, q = pre ++ None :: after_marker q /\ no_marker pre /\ before_marker q = all_ids pre.
Proof.
  induction q as [|[[n h]|] r IH]; intros H.
  - destruct H. constructor.
  - destruct IH as [pre [E [Hn Hd]]].
    + intros Hr. apply H. constructor; [discriminate | exact Hr].
    + exists (Some (n, h) :: pre). split; [|split].
      * cbn. rewrite <- E. reflexivity.
      * constructor; [discriminate | exact Hn].
      * cbn. rewrite Hd. reflexivity.
  - exists []. repeat split. constructor.
Qed.

(* a marker-free prefix is run through, then the run goes on with the backoff it left *)
Lemma nm_run_app : forall p q1 q2 b, no_marker q1 ->
  n_evs (nm_run p b (q1 ++ q2)) = n_evs (nm_run p b q1) ++ n_evs (nm_run p (n_bk (nm_run p b q1)) q2).
Proof.
  intros p q1 q2. induction q1 as [|[[m g]|] r IH]; intros b H; inversion H; subst; [reflexivity| |congruence].
  cbn [app nm_run n_evs n_bk]. rewrite IH by assumption. reflexivity.
Qed.

