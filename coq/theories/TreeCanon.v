(* TreeCanon.v — the executable comparison [same_tree] (canonical sorted forms are equal) is
   exactly extensional equivalence [teq] on trees with unique keys. *)
From Coq Require Import NArith List Bool Permutation.
From CS Require Import Sx TreeModel TreePaths TreeLookup.
Import ListNotations.

Lemma path_leb_cons (x y : name) (a b : path) :
  path_leb (x :: a) (y :: b) = match (x ?= y)%N with Lt => true | Eq => path_leb a b | Gt => false end.
Proof. cbn [path_leb]. unfold N.ltb. rewrite N.eqb_compare. destruct (x ?= y)%N; reflexivity. Qed.

Lemma path_leb_total a b : path_leb a b = true \/ path_leb b a = true.
Proof.
  revert b; induction a as [|x a IH]; intros [|y b]; auto.
  rewrite !path_leb_cons, (N.compare_antisym x y). destruct (x ?= y)%N; cbn; auto.
Qed.

Lemma path_leb_antisym a b : path_leb a b = true -> path_leb b a = true -> a = b.
Proof.
  revert b; induction a as [|x a IH]; intros [|y b]; try discriminate; [reflexivity|].
  rewrite !path_leb_cons, (N.compare_antisym x y). destruct (x ?= y)%N eqn:E; try discriminate.
  apply N.compare_eq in E. subst y. intros H1 H2. f_equal. apply IH; assumption.
Qed.

Lemma path_leb_trans a b c : path_leb a b = true -> path_leb b c = true -> path_leb a c = true.
Proof.
  revert b c; induction a as [|x a IH]; intros [|y b] [|z c]; try discriminate; [reflexivity..|].
  rewrite !path_leb_cons.
  destruct (N.compare_spec x y) as [->|Hxy|_]; [|destruct (N.compare_spec y z) as [<-|Hyz|_]|]; try discriminate.
  - destruct (y ?= z)%N; [apply IH|reflexivity|discriminate].
  - rewrite (proj2 (N.compare_lt_iff x y) Hxy). reflexivity.
  - rewrite (proj2 (N.compare_lt_iff x z) (N.lt_trans _ _ _ Hxy Hyz)). reflexivity.
Qed.

Lemma insert_perm e t : Permutation (insert_sorted e t) (e :: t).
Proof.
  induction t as [|f t IH]; simpl; [apply Permutation_refl|].
  destruct (path_leb (fst e) (fst f)); [apply Permutation_refl|].
  eapply Permutation_trans; [apply perm_skip; exact IH|apply perm_swap].
Qed.

Lemma canon_perm t : Permutation (canon t) t.
Proof.
  induction t as [|e t IH]; simpl; [constructor|].
  eapply Permutation_trans; [apply insert_perm|apply perm_skip; exact IH].
Qed.

Lemma path_leb_flip a b : a <> b -> path_leb b a = negb (path_leb a b).
Proof.
  intros H. destruct (path_leb a b) eqn:E1, (path_leb b a) eqn:E2; try reflexivity.
  - destruct H. apply path_leb_antisym; assumption.
  - destruct (path_leb_total a b); congruence.
Qed.

Lemma insert_comm (e f : path * node) t :
  fst e <> fst f ->
  insert_sorted e (insert_sorted f t) = insert_sorted f (insert_sorted e t).
Proof.
  intros Hne. induction t as [|g t IH]; simpl.
  - rewrite (path_leb_flip _ _ Hne). destruct (path_leb (fst e) (fst f)); reflexivity.
  - destruct (path_leb (fst f) (fst g)) eqn:Efg; destruct (path_leb (fst e) (fst g)) eqn:Eeg;
      simpl; rewrite ?Efg, ?Eeg; [| | |rewrite IH; reflexivity].
    + rewrite (path_leb_flip _ _ Hne). destruct (path_leb (fst e) (fst f)); simpl; rewrite ?Efg, ?Eeg; reflexivity.
    + destruct (path_leb (fst e) (fst f)) eqn:E1; [rewrite (path_leb_trans _ _ _ E1 Efg) in Eeg; discriminate|].
      simpl. rewrite ?Efg, ?Eeg. reflexivity.
    + destruct (path_leb (fst f) (fst e)) eqn:E2; [rewrite (path_leb_trans _ _ _ E2 Eeg) in Efg; discriminate|].
      simpl. rewrite ?Efg, ?Eeg. reflexivity.
Qed.

Lemma canon_perm_eq a b : Permutation a b -> NoDup (map fst a) -> canon a = canon b.
Proof.
  intros H. induction H as [|x l l' H IH|x y l|l l' l'' H1 IH1 H2 IH2]; intros Hnd.
  - reflexivity.
  - simpl. inversion Hnd; subst. rewrite IH by assumption. reflexivity.
  - simpl. apply insert_comm. simpl in Hnd. inversion Hnd as [|k m Hnot _]; subst.
    intros Heq. apply Hnot. left. symmetry. exact Heq.
  - rewrite IH1 by exact Hnd. apply IH2.
    eapply Permutation_NoDup; [apply Permutation_map; exact H1|exact Hnd].
Qed.

Lemma node_eqb_eq n m : node_eqb n m = true <-> n = m.
Proof.
  destruct n as [|c], m as [|d]; simpl; split; intros H; try reflexivity; try discriminate.
  - apply N.eqb_eq in H. congruence.
  - inversion H. apply N.eqb_refl.
Qed.

Lemma tree_eqb_eq a b : tree_eqb a b = true <-> a = b.
Proof.
  revert b; induction a as [|[p n] a IH]; intros [|[q m] b]; simpl; split; intros H;
    try reflexivity; try discriminate.
  - apply andb_true_iff in H as [H H3]. apply andb_true_iff in H as [H1 H2].
    apply path_eqb_eq in H1. apply node_eqb_eq in H2. apply IH in H3. congruence.
  - inversion H; subst. rewrite path_eqb_refl. simpl.
    rewrite (proj2 (node_eqb_eq m m) eq_refl). simpl. apply IH. reflexivity.
Qed.

Lemma teq_In a b :
  NoDup (map fst a) -> NoDup (map fst b) -> teq a b -> forall e, In e a <-> In e b.
Proof.
  intros Ha Hb H [k n]. split; intros Hin.
  - apply lookup_In. rewrite <- H. apply In_lookup; assumption.
  - apply lookup_In. rewrite H. apply In_lookup; assumption.
Qed.

Lemma perm_teq a b : NoDup (map fst a) -> Permutation a b -> teq a b.
Proof.
  intros Ha Hp p.
  assert (Hb : NoDup (map fst b)) by (eapply Permutation_NoDup; [apply Permutation_map; exact Hp|exact Ha]).
  destruct (lookup a p) as [n|] eqn:Ea.
  - symmetry. apply In_lookup; [exact Hb|]. eapply Permutation_in; [exact Hp|]. apply lookup_In. exact Ea.
  - destruct (lookup b p) as [m|] eqn:Eb; [|reflexivity].
    assert (H : lookup a p = Some m).
    { apply In_lookup; [exact Ha|]. eapply Permutation_in; [apply Permutation_sym; exact Hp|].
      apply lookup_In. exact Eb. }
    congruence.
Qed.

Lemma same_tree_perm a b : same_tree a b = true -> Permutation a b.
Proof.
  unfold same_tree. rewrite tree_eqb_eq. intros H.
  eapply Permutation_trans; [apply Permutation_sym, canon_perm|]. rewrite H. apply canon_perm.
Qed.

Theorem same_tree_iff_teq a b :
  NoDup (map fst a) -> NoDup (map fst b) -> (same_tree a b = true <-> teq a b).
Proof.
  intros Ha Hb. split; intros H.
  - apply perm_teq; [exact Ha|apply same_tree_perm; exact H].
  - unfold same_tree. apply tree_eqb_eq, canon_perm_eq; [|exact Ha].
    apply NoDup_Permutation.
    + eapply NoDup_map_inv. exact Ha.
    + eapply NoDup_map_inv. exact Hb.
    + apply teq_In; assumption.
Qed.

(* same_tree is an equivalence (no well-formedness needed) *)
Lemma same_tree_refl a : same_tree a a = true.
Proof. unfold same_tree. apply tree_eqb_eq. reflexivity. Qed.

Lemma same_tree_sym a b : same_tree a b = true -> same_tree b a = true.
Proof. unfold same_tree. rewrite !tree_eqb_eq. congruence. Qed.

Lemma same_tree_trans a b c : same_tree a b = true -> same_tree b c = true -> same_tree a c = true.
Proof. unfold same_tree. rewrite !tree_eqb_eq. congruence. Qed.
