(* AlgoStep.v — assembly: SyncManager.sync / pre_sync / SyncState.change / SyncManager.do on fragment F1, from the leaf theorems
   of AlgoSyncEntry.v.  Each function is stated once, by what its call answers (AlgoInv.answers): the coupling invariant of an
   ROk result ([StepOk]) and the codes of an OutOfFragment one ([StopOk], under [TargetFree]), or outright "it answers ROk and ..."
   where nothing else can happen.  The ROk side also says who is called: only a side holding a user's object makes calls
   (AlgoCalls.CallsOk; which side they go to needs no invariant and is in AlgoCalls.v).  On the way, the facts of F1 about one
   entry (Section One: [side_paths] ... [hashdiff_owner]); at the end C03's no-echo statements ([quiescent_stable],
   [mirror_side_no_calls]). *)
From Coq Require Import NArith List Bool Arith Lia.
From CS Require SchedModel SchedProofs.
From CS Require Import StateModel StateProofs AlgoModel AlgoCheck AlgoState AlgoProv AlgoPath AlgoInv AlgoQuiet
     AlgoIntake AlgoSync AlgoLatest AlgoFinish AlgoSyncEntry AlgoCalls.
Import ListNotations.
Local Open Scope N_scope.

Lemma tstr_inv o : tstr o = true -> exists x, o = Some x.
Proof. destruct o; [eauto|discriminate]. Qed.

(* AlgoFinish.Just quantifies over (k, ob), but the side has one object: it suffices to show its conclusion for that one *)
Lemma Just_cell g w en s k ob : s_oid (gs en s) = Some (ostr_k k) -> obj_at w s k = Some ob ->
  (freshP (gs en s) ob -> s_oid (gs en (negb s)) <> None /\ ProvModel.o_exists ob = true /\ s_hash (gs en s) = s_shash (gs en s)) ->
  Just (real_evl w) g w en s.
Proof.
  intros Ho Hob H k0 ob0 cs0 Ho0 Hob0 _ Hfr _ _. destruct (same_object w s k k0 ob ob0 ltac:(congruence) Hob Hob0) as (-> & ->). apply H. exact Hfr.
Qed.

(* a live engine-made object has an entry, whose other side is a user-made object of the same name *)
Lemma mirror_entry g w sd k ob :
  Inv g w -> (2 <= k)%nat -> obj_at w sd k = Some ob -> ProvModel.o_exists ob = true -> g_get k (g_of g sd) = None ->
  exists x xn k' ob' cs', nth_error (ents (w_st w)) x = Some xn /\ s_oid (gs xn sd) = Some (ostr_k k) /\
    s_oid (gs xn (negb sd)) = Some (ostr_k k') /\ obj_at w (negb sd) k' = Some ob' /\ g_get k' (g_of g (negb sd)) = Some cs' /\
    leaf (ProvModel.o_path ob) = leaf (ProvModel.o_path ob').
Proof.
  intros I Hk Hob Hl Eg.
  pose proof (obj_at_lt _ _ _ _ Hob) as Hlt.
  destruct (i_cove I sd k Hk Hlt Eg) as (x & xn & Hxn & Hox).
  assert (Hx2: (2 <= x)%nat) by (apply (entry_ge2 _ _ _ _ _ _ _ I Hxn Hox Hk)).
  pose proof (proj2 (EntOk_full (i_ents I x xn Hx2 Hxn) Hox Hob)) as FOx.
  pose proof (live_not_disc _ _ _ _ _ _ _ _ FOx Hl) as Hnd.
  destruct (fo_mirror FOx Hnd Eg) as (_ & _ & _ & _ & _ & _ & (k' & ob' & G1 & G2 & G3 & G4)).
  destruct (g_get k' (g_of g (negb sd))) as [c2|] eqn:Eg2; [|contradiction].
  exists x, xn, k', ob', c2. auto 6.
Qed.

(* AlgoInv.NoTmp for one entry: inside a sync step the entry in progress is the only one that may hold a temp file *)
Definition notmp (w : world) (e : nat) : Prop := forall sd, x_tfile (getx w e sd) = None.

(* objects made by users are never touched by the engine *)
Definition OwnFrame (g : ghost) (w w' : world) : Prop :=
  forall sd k cs, g_get k (g_of g sd) = Some cs -> obj_at w' sd k = obj_at w sd k.
Lemma OwnFrame_refl g w : OwnFrame g w w. Proof. intros sd k cs _. reflexivity. Qed.
Lemma OwnFrame_trans g w w1 w2 : OwnFrame g w w1 -> OwnFrame g w1 w2 -> OwnFrame g w w2.
Proof. intros A B sd k cs H. rewrite (B sd k cs H). apply (A sd k cs H). Qed.
Lemma OwnFrame_prov g w w' : (forall sd, prov_of w' sd = prov_of w sd) -> OwnFrame g w w'.
Proof. intros H sd k cs _. apply obj_at_prov, H. Qed.

(* the translated path of a creation on side s is free on the other side; it is, when user-made objects have different
   names - proved where that is known *)
Definition TargetFree (g : ghost) (w : world) (en : StateModel.entry) (s : bool) : Prop :=
  forall k ob cs n, s_oid (gs en s) = Some (ostr_k k) -> obj_at w s k = Some ob -> g_get k (g_of g s) = Some cs ->
    s_oid (gs en (negb s)) = None -> ProvModel.o_path ob = [root_name s; n] ->
    ProvModel.info_path (prov_of w (negb s)) [root_name (negb s); n] = None.

(* what embrace_change and its parts leave behind for sync(); [F] is what they promise when they answer FINISHED *)
Definition StepOk (g : ghost) (w : world) (e : nat) (F : world -> StateModel.entry -> Prop) (r : world * list call * resp) : Prop :=
  let '(w1, _, rs) := r in
  exists en1, SCtx g w1 e en1 /\ (forall x sd0, x <> e -> getx w1 x sd0 = getx w x sd0) /\ OwnFrame g w w1 /\
    match rs with
    | Finished => F w1 en1
    | Punt => maxchg en1 <= now (w_st w1) /\ notmp w1 e
    | Requeue => False
    end.
(* ... and the codes with which they stop: a conflicting parent (level 3), handle_changed_is_missing, another entry on the
   translated path, another entry on the path of a delete *)
Definition stop_codes : list N := [X_LEVEL + 3; X_MISSING; X_PEERS; X_DELETE_OTHER].
Definition StopOk (g : ghost) (w : world) (en : StateModel.entry) (s : bool) (c : N) : Prop :=
  TargetFree g w en s -> In c stop_codes.

(* create and upload answer FINISHED, with what finished() then asks for *)
Lemma synced_step g w w3 e s k ob en3 calls :
  synced_ok g w w3 e s k en3 -> obj_at w s k = Some ob -> ProvModel.o_exists ob = true ->
  StepOk g w e (fun w1 en1 => Just (real_evl w1) g w1 en1 s /\ e_ign en1 = INone /\ s_hash (gs en1 s) = s_shash (gs en1 s))
         (w3, calls, Finished).
Proof.
  intros (SC3 & Ho3 & Hpeer3 & Hh3 & Hi3 & Hprov3 & Hgx3 & _ & Hown3) Hob El.
  exists en3. split; [exact SC3|]. split; [exact Hgx3|]. split; [exact Hown3|]. split; [|split; [exact Hi3|exact Hh3]].
  apply (Just_cell g w3 en3 s k ob Ho3); [rewrite (obj_at_prov _ _ _ _ Hprov3); exact Hob|auto].
Qed.

Lemma finished_run g w e en s : SCtx g w e en -> Just (real_evl w) g w en s ->
  exists w', AlgoModel.finished w e s = ROk w' /\
    Inv g w' /\ (forall x sd0, x <> e -> getx w' x sd0 = getx w x sd0) /\ notmp w' e /\ OwnFrame g w w'.
Proof.
  intros [I He Hn Hr Hsh] HJ.
  destruct (finished_run0 g w e en s I He Hn (fun _ => Hr) (fun _ => Hsh) HJ) as (w' & H & A & B & C & P & _).
  exists w'. split; [exact H|]. auto using OwnFrame_prov.
Qed.

Section One.
Variables (g : ghost) (w : world) (e : nat) (en : StateModel.entry).
Hypothesis SC : SCtx g w e en.
Hypothesis Hign : e_ign en = INone.

Let I := sc_inv _ _ _ _ SC.
Let EO : EntOk (real_evl w) g w e en := i_ents I e en (sc_e _ _ _ _ SC) (sc_en _ _ _ _ SC).

Lemma nd : is_discarded (e_ign en) = false.
Proof. rewrite Hign. reflexivity. Qed.

Lemma side_obj s o : s_oid (gs en s) = Some o ->
  exists k ob n, o = ostr_k k /\ obj_at w s k = Some ob /\ (2 <= k)%nat /\ FullOk (real_evl w) g w e en s k ob /\
    ProvModel.o_kind ob = ProvModel.KFile /\ ProvModel.o_path ob = [root_name s; n] /\ name_ok n = true.
Proof.
  intros Ho. destruct (so_full (eo_side EO s) _ Ho) as (k & ob & Hk & Hob & Hk2 & FO).
  destruct (sh_files (i_shape I s) k ob Hk2 Hob) as (Hkf & n & Hp & Hnok).
  exists k, ob, n. auto 10.
Qed.

Lemma needs_sync_parts s : needs_sync (cfg_std 1) s (gs en s) = true ->
  tchg (s_chg (gs en s)) = true /\ exists o, s_oid (gs en s) = Some o.
Proof.
  intros H. rewrite (needs_sync_eq (real_evl w) g w e en EO) in H.
  apply andb_prop in H as [H _]. apply andb_prop in H as [H1 H2]. split; [exact H1|apply tstr_inv; exact H2].
Qed.

(* both markers and the path agree once a sync path is set: no path change in F1 *)
Lemma side_paths s q : s_spath (gs en s) = Some q -> s_path (gs en s) = Some q.
Proof.
  intros Hq. destruct (s_oid (gs en s)) as [o|] eqn:Eo.
  - destruct (side_obj s o Eo) as (k & ob & n & -> & Hob & Hk2 & FO & _).
    assert (Hqq: q = pstr (ProvModel.o_path ob)).
    { destruct (fo_spath FO) as [X|X]; congruence. }
    assert (Hp: s_path (gs en s) <> None).
    { destruct (opt_dec (g_get k (g_of g s))) as [(cs & Eg)|Eg].
      - destruct (fo_owner2 FO nd cs Eg) as (_ & X). apply X. congruence.
      - destruct (fo_mirror FO nd Eg) as (_ & _ & _ & _ & _ & X & _). congruence. }
    destruct (fo_path FO) as [X|X]; [contradiction|congruence].
  - destruct (so_empty (eo_side EO s) Eo) as (_ & _ & _ & X & _). congruence.
Qed.

Lemma no_path_change s : is_path_change (cfg_std 1) en s = false.
Proof.
  unfold is_path_change. destruct (s_spath (gs en s)) as [q|] eqn:Eq; [|reflexivity].
  rewrite (paths_differ_same _ s (gs en s) q Eq (side_paths s q Eq)). apply andb_false_r.
Qed.

(* a mirror side never needs sync *)
Lemma mirror_idle s k ob : FullOk (real_evl w) g w e en s k ob -> g_get k (g_of g s) = None -> needs_sync (cfg_std 1) s (gs en s) = false.
Proof.
  intros FO Eg. destruct (fo_mirror FO nd Eg) as (M1 & M2 & M3 & M4 & M5 & M6 & _).
  rewrite (needs_sync_eq (real_evl w) g w e en EO). rewrite M3, M4, M2, (paths_differ_same _ s (gs en s) _ M5 M6), oN_eqb_refl.
  cbn [negb orb]. apply andb_false_r.
Qed.
Lemma mirror_no_sync s k ob : s_oid (gs en s) = Some (ostr_k k) -> obj_at w s k = Some ob ->
  FullOk (real_evl w) g w e en s k ob -> g_get k (g_of g s) = None -> needs_sync (cfg_std 1) s (gs en s) = false.
Proof. intros _ _. apply mirror_idle. Qed.

(* a creation: the other side is empty and this side's object is a user's *)
Lemma creation_owner s k ob : is_creation (cfg_std 1) en s = true ->
  s_oid (gs en s) = Some (ostr_k k) -> obj_at w s k = Some ob -> FullOk (real_evl w) g w e en s k ob ->
  s_oid (gs en (negb s)) = None /\ exists cs, g_get k (g_of g s) = Some cs.
Proof.
  intros Hc Ho Hob FO. unfold is_creation in Hc. apply andb_prop in Hc as [Hc Hy]. apply andb_prop in Hc as [_ Hns].
  (* a mirror would not need sync; and the peer of a user's object is a mirror, which exists *)
  destruct (opt_dec (g_get k (g_of g s))) as [(cs & Eg)|Eg]; [|rewrite (mirror_idle s k ob FO Eg) in Hns; discriminate].
  split; [|eauto]. destruct (s_oid (gs en (negb s))) as [o'|] eqn:Eo'; [exfalso|reflexivity].
  destruct (side_obj (negb s) o' Eo') as (k' & ob' & n' & -> & Hob' & _ & FO' & _).
  rewrite tstr_ostr in Hy. cbn [negb orb] in Hy.
  destruct (fo_mirror FO' nd (owner_peer _ g w e en s k ob cs k' nd FO Eg Eo')) as (_ & M2 & _). rewrite M2 in Hy. discriminate.
Qed.

(* hash differs from sync hash: the object is a user's *)
Lemma hashdiff_user s k ob : s_hash (gs en s) <> s_shash (gs en s) -> FullOk (real_evl w) g w e en s k ob ->
  exists cs, g_get k (g_of g s) = Some cs.
Proof.
  intros Hd FO. destruct (opt_dec (g_get k (g_of g s))) as [(cs & Eg)|Eg]; [eauto|].
  destruct (fo_mirror FO nd Eg) as (_ & _ & M3 & M4 & _). congruence.
Qed.
Lemma hashdiff_owner s k ob : s_hash (gs en s) <> s_shash (gs en s) ->
  s_oid (gs en s) = Some (ostr_k k) -> FullOk (real_evl w) g w e en s k ob -> exists cs, g_get k (g_of g s) = Some cs.
Proof. intros Hd _. apply hashdiff_user. exact Hd. Qed.

(* sync() on behalf of side s makes calls only for a user's object of side s *)
Lemma sync_side_owner s w' cs fl :
  sync_side w e s = ROk (w', cs, fl) -> cs <> [] ->
  exists k c0, s_oid (gs en s) = Some (ostr_k k) /\ g_get k (g_of g s) = Some c0.
Proof.
  intros H Hcs. destruct (needs_sync (cfg_std 1) s (gs en s)) eqn:Hns.
  - destruct (needs_sync_parts s Hns) as (_ & o & Ho).
    destruct (side_obj s o Ho) as (k & ob & n & -> & Hob & _ & FO & _).
    destruct (opt_dec (g_get k (g_of g s))) as [(c0 & Eg)|Eg]; [eauto|].
    rewrite (mirror_idle s k ob FO Eg) in Hns. discriminate.
  - (* no sync needed: at most the change stamp is cleared *)
    exfalso. apply Hcs. unfold sync_side in H. rewrite (get_e_nth _ _ _ (sc_en _ _ _ _ SC)) in H. cbn [rbind] in H.
    rewrite (i_cfg (sc_inv _ _ _ _ SC)), Hns in H. cbn [negb] in H.
    destruct (tchg (s_chg (gs en s))); [destruct (set_changed w e s (CNum 0)); [cbn [rbind] in H|discriminate]|]; injection H as <- <- <-; reflexivity.
Qed.

Lemma sync_side_user_calls s w' cs fl :
  sync_side w e s = ROk (w', cs, fl) ->
  Forall (fun c => cl_side c = negb s /\ exists k c0, s_oid (gs en s) = Some (ostr_k k) /\ g_get k (g_of g s) = Some c0) cs.
Proof.
  intros H. destruct cs as [|c r]; [constructor|].
  pose proof (sync_side_owner s w' _ fl H ltac:(discriminate)) as X.
  eapply Forall_impl; [|exact (answers_ok _ _ _ _ (sync_side_calls w e s) H)]. intros c0 Hc. split; [exact Hc|exact X].
Qed.

Lemma sync_side_CallsOk s : on_res (fun r => CallsOk g (snd (fst r))) (sync_side w e s).
Proof.
  destruct (sync_side w e s) as [[[w' cs] fl]|c] eqn:H; [|exact Logic.I].
  cbn. unfold CallsOk. eapply Forall_impl; [|exact (sync_side_user_calls s w' cs fl H)].
  intros c (Hc & k & c0 & _ & Hg). rewrite Hc, negb_involutive. eauto.
Qed.

(* the download finds the object gone: the side is marked missing, nothing else happens *)
Lemma dead_download_run s k ob p :
  notmp w e -> maxchg en <= now (w_st w) -> s_path (gs en s) = Some p ->
  s_oid (gs en s) = Some (ostr_k k) -> obj_at w s k = Some ob -> ProvModel.o_exists ob = false -> ProvModel.o_kind ob = ProvModel.KFile ->
  exists w2 en2, download_changed w e s = ROk (w2, false) /\ SCtx g w2 e en2 /\
    (forall x sd0, x <> e -> getx w2 x sd0 = getx w x sd0) /\ OwnFrame g w w2 /\ maxchg en2 <= now (w_st w2) /\ notmp w2 e.
Proof.
  intros Htmp Hmax Hps Ho Hob El Hkf.
  rewrite (download_spec w e s en p k ob (i_cfg I) (i_pwf I s) (Htmp s) (sc_en _ _ _ _ SC) Hps Ho Hob Hkf), El.
  destruct (tname_world_facts w e s en p (Htmp s)) as (_ & TS & TC & _).
  destruct (plain_w (tname_world w e s en p) e s (fun y => w_ex y ExMissing) en) as (w2 & -> & We);
    [rewrite TS; exact (sc_en _ _ _ _ SC)|intros; split; reflexivity|].
  destruct (missing_pres g w e en s k ob _ w2 SC Ho Hob El (Htmp s) We) as (SC2 & Hm2 & Hnow2 & Hgx2 & Ht2 & Hgo2).
  exists w2. eexists. split; [reflexivity|]. split; [exact SC2|]. split; [exact Hgx2|].
  split; [apply OwnFrame_prov; intros sd; rewrite (weff_prov sd We); apply TC|]. split; [rewrite Hm2; lia|].
  intros sd. destruct (side_cases s sd) as [->| ->]; [exact Ht2|rewrite Hgo2; apply Htmp].
Qed.

(* embrace_change on behalf of side s, which needs sync: the side holds object k = ob, a file named n directly below the root *)
Section Side.
Variables (s : bool) (k : nat) (ob : ProvModel.obj) (n : ProvModel.name).
Hypothesis Hns : needs_sync (cfg_std 1) s (gs en s) = true.
Hypothesis Htmp : notmp w e.
Hypothesis Hmax : maxchg en <= now (w_st w).
Hypothesis Hc : tchg (s_chg (gs en s)) = true.
Hypothesis Ho : s_oid (gs en s) = Some (ostr_k k).
Hypothesis Hob : obj_at w s k = Some ob.
Hypothesis FO : FullOk (real_evl w) g w e en s k ob.
Hypothesis Hkf : ProvModel.o_kind ob = ProvModel.KFile.
Hypothesis Hp : ProvModel.o_path ob = [root_name s; n].
Hypothesis Hnok : name_ok n = true.

Let Hn := sc_en _ _ _ _ SC.

(* handle_hash_diff on an entry that is not a creation: there is a peer, the engine's own and alive, and the upload goes through *)
Lemma hash_diff_spec :
  ex_in_gone (s_ex (gs en s)) = false -> s_hash (gs en s) <> s_shash (gs en s) -> is_creation (cfg_std 1) en s = false ->
  exists r, handle_hash_diff w e s = ROk r /\ StepOk g w e (fun w1 en1 => Just (real_evl w1) g w1 en1 s) r.
Proof.
  intros Hex Hdiff Hncr.
  unfold handle_hash_diff. rewrite (get_e_nth _ _ _ Hn). cbn [rbind].
  (* the side is not gone, so it has its path *)
  destruct (sc_shape _ _ _ _ SC s) as [(Hexx & Hpne)|X]; [rewrite Ho; discriminate| |congruence].
  destruct (fo_path FO) as [Hpn|Hps]; [contradiction|rewrite Hps].
  - destruct (hashdiff_user s k ob Hdiff FO) as (csg & Hg).
    destruct (s_oid (gs en (negb s))) as [o'|] eqn:Ho'.
    2:{ (* no peer: then the entry is a creation *)
        exfalso. unfold is_creation in Hncr. rewrite Hps, Hexx, Hns, Ho' in Hncr. rewrite tstr_pstr in Hncr. cbn in Hncr. discriminate. }
    destruct (side_obj (negb s) o' Ho') as (k' & ob' & n' & -> & Hob' & Hk2' & FO' & _).
    destruct (fo_mirror FO' nd (owner_peer _ g w e en s k ob csg k' nd FO Hg Ho')) as (_ & M2 & _).
    rewrite M2, tstr_ostr. cbn [ex_in_gone negb orb].
    rewrite Hp in Hps.
    destruct (ProvModel.o_exists ob) eqn:El.
    + rewrite (download_spec w e s en _ k ob (i_cfg I) (i_pwf I s) (Htmp s) Hn Hps Ho Hob Hkf), El. cbn [rbind negb].
      assert (Hpeer: s_oid (gs en (negb s)) <> None) by congruence.
      destruct (upload_run g w e en s k ob csg n SC Hign Ho Hob Hg Hpeer Hp Hps Hc (Htmp s))
        as (w3 & calls & Eu & en3 & R).
      rewrite Eu. cbn [rbind]. eexists. split; [reflexivity|].
      destruct (synced_step g w w3 e s k ob en3 calls R Hob El) as (en1 & SC1 & Hgx1 & Hown1 & HJ & _). exists en1. auto.
    + destruct (dead_download_run s k ob _ Htmp Hmax Hps Ho Hob El Hkf) as (w2 & en2 & Ed & R).
      rewrite Ed. cbn [rbind negb]. eexists. split; [reflexivity|]. exists en2. exact R.
Qed.

(* a creation stops only when another entry sits on the translated path, provided that path is free on the provider *)
Lemma creation_spec :
  is_creation (cfg_std 1) en s = true ->
  answers (handle_path_change_or_creation w e s)
    (StepOk g w e (fun w1 en1 => Just (real_evl w1) g w1 en1 s /\ e_ign en1 = INone /\ s_hash (gs en1 s) = s_shash (gs en1 s)))
    (fun c => TargetFree g w en s -> c = X_PEERS).
Proof.
  intros Hcr.
  destruct (creation_owner s k ob Hcr Ho Hob FO) as (Hyn & csg & Hg).
  assert (Hexy: s_ex (gs en (negb s)) = ExUnknown).
  { apply (so_empty_ex (eo_side EO (negb s)) Hyn). rewrite Hign. reflexivity. }
  pose proof Hcr as Hcr'. unfold is_creation in Hcr'. apply andb_prop in Hcr' as [Hcr' _]. apply andb_prop in Hcr' as [Hcr' _].
  apply andb_prop in Hcr' as [Hpt Hexx].
  assert (Hps: s_path (gs en s) = Some (pstr [root_name s; n])).
  { destruct (fo_path FO) as [X|X]; [rewrite X in Hpt; discriminate|rewrite X, Hp; reflexivity]. }
  unfold handle_path_change_or_creation. rewrite (get_e_nth _ _ _ Hn). cbn [rbind].
  rewrite (i_cfg I), Hps.
  pose proof (translate_file (negb s) n Hnok) as Htr. rewrite negb_involutive in Htr. rewrite Htr.
  rewrite Hexy, Hcr. cbn [ex_is andb]. rewrite !andb_false_r.
  unfold check_disjoint_create. rewrite (get_e_nth _ _ _ Hn). cbn [rbind].
  unfold is_file, is_dir. rewrite (ent_file _ _ _ _ _ EO s). cbn [otype_eqb negb].
  destruct (others e (lookup_path (w_st w) (negb s) (Some (pstr [root_name (negb s); n])))) as [|z zs]; [|intros _; reflexivity].
  cbn [rbind].
  destruct (ProvModel.o_exists ob) eqn:El.
  - rewrite (download_spec w e s en _ k ob (i_cfg I) (i_pwf I s) (Htmp s) Hn Hps Ho Hob Hkf), El. cbn [rbind negb].
    pose proof (create_answers g w e en s k ob csg n SC Hign Ho Hob Hg Hyn Hp Hnok Hps Hc (Htmp s)) as A.
    match goal with |- answers ?C _ _ => destruct C as [[[w1 cs] rs]|c] end; cbn [answers fst snd] in A |- *.
    + destruct A as (-> & en3 & R). exact (synced_step g w w1 e s k ob en3 cs R Hob El).
    + (* the provider accepts a create on a free path *)
      intros TF. destruct (A (TF k ob csg n Ho Hob Hg Hyn Hp)).
  - destruct (dead_download_run s k ob _ Htmp Hmax Hps Ho Hob El Hkf) as (w2 & en2 & Ed & R).
    rewrite Ed. cbn [rbind negb answers]. exists en2. exact R.
Qed.

Lemma embrace_spec :
  answers (embrace_change w e s) (StepOk g w e (fun w1 en1 => Just (real_evl w1) g w1 en1 s)) (StopOk g w en s).
Proof.
  unfold embrace_change. rewrite (get_e_nth _ _ _ Hn). cbn [rbind].
  rewrite (i_cfg I).
  (* the path translates *)
  match goal with |- answers (rbind ?A _) _ _ => destruct A as [[]|c0] eqn:E0 end.
  2:{ exfalso. destruct (fo_path FO) as [Hpn|Hps].
      - rewrite Hpn in E0. cbn [tstr orb] in E0.
        destruct (sc_shape _ _ _ _ SC s) as [(_ & X)|X]; [rewrite Ho; discriminate|contradiction|].
        destruct (s_ex (gs en s)); simpl in X, E0; discriminate.
      - rewrite Hps, Hp in E0. pose proof (translate_file (negb s) n Hnok) as Htr. rewrite negb_involutive in Htr. rewrite Htr in E0.
        destruct (_ || _)%bool in E0; discriminate. }
  cbn [rbind]. clear E0.
  rewrite Hign. cbn [is_discarded is_conflicted].
  (* looking for a conflicting parent always answers; finding one is beyond level 1 *)
  match goal with |- answers (rbind ?A _) _ _ => destruct A as [pc|c0] eqn:Epc end.
  2:{ destruct (s_path (gs en s)); [destruct (_ && _)%bool in Epc|]; discriminate. }
  cbn [rbind]. clear Epc.
  destruct pc as [ce|].
  { unfold gate, lvl. rewrite (i_cfg I). cbn. intros _. left. reflexivity. }
  rewrite oip_std.
  destruct (ex_is (s_ex (gs en s)) ExTrashed) eqn:Et.
  - (* deleted on this side *)
    assert (Ex: s_ex (gs en s) = ExTrashed) by (destruct (s_ex (gs en s)); simpl in Et; congruence).
    assert (Hnc: is_creation (cfg_std 1) en (negb s) = false).
    { destruct (is_creation (cfg_std 1) en (negb s)) eqn:Ec; [exfalso|reflexivity].
      pose proof Ec as Ec'. unfold is_creation in Ec'. apply andb_prop in Ec' as [Ec' _]. apply andb_prop in Ec' as [_ Hns'].
      destruct (needs_sync_parts (negb s) Hns') as (_ & o' & Ho').
      destruct (side_obj (negb s) o' Ho') as (k' & ob' & n' & -> & Hob' & _ & FO' & _).
      destruct (creation_owner (negb s) k' ob' Ec Ho' Hob' FO') as (X & _).
      rewrite negb_involutive in X. congruence. }
    rewrite Hnc. cbn [andb].
    destruct (delete_run g w e en s k SC Hign Ex Ho) as [E|(w3 & calls & E & en3 & SC3 & Hd3 & Hgx3 & Hown3)]; rewrite E; cbn [answers].
    + intros _. cbn [In stop_codes]. auto.
    + exists en3. split; [exact SC3|]. split; [intros; apply Hgx3|]. split; [exact Hown3|].
      intros k0 ob0 cs0 _ _ _ _ Hd _. rewrite Hd in Hd3. discriminate.
  - destruct (ex_is (s_ex (gs en s)) ExMissing) eqn:Em; [intros _; cbn [In stop_codes]; auto|].
    assert (Hgone: ex_in_gone (s_ex (gs en s)) = false) by (destruct (s_ex (gs en s)); simpl in *; congruence).
    rewrite (no_path_change s). cbn [orb].
    destruct (is_creation (cfg_std 1) en s) eqn:Ecr.
    + pose proof (creation_spec Ecr) as S.
      destruct (handle_path_change_or_creation w e s) as [[[wa csa] rsa]|c0]; cbn [answers rbind] in S |- *.
      * destruct S as (en1 & SC1 & Hgx1 & Hown1 & Hres). destruct rsa.
        -- destruct Hres as (HJ & Hi1 & Hh1). rewrite (get_e_nth _ _ _ (sc_en _ _ _ _ SC1)). cbn [rbind].
           rewrite Hi1. cbn [is_discarded rbind]. rewrite (get_e_nth _ _ _ (sc_en _ _ _ _ SC1)). cbn [rbind].
           rewrite Hh1, oN_eqb_refl. cbn [negb answers]. exists en1. auto.
        -- cbn [rbind answers]. exists en1. auto.
        -- destruct Hres.
      * intros TF. rewrite (S TF). cbn [In stop_codes]. auto.
    + cbn [rbind]. rewrite (get_e_nth _ _ _ Hn). cbn [rbind].
      destruct (oN_eqb (s_hash (gs en s)) (s_shash (gs en s))) eqn:Eh; cbn [negb].
      * cbn [answers]. exists en. split; [exact SC|]. split; [auto|]. split; [apply OwnFrame_refl|].
        apply (Just_cell g w en s k ob Ho Hob). intros Hfr.
        unfold freshP in Hfr. destruct (ProvModel.o_exists ob) eqn:El; [|congruence].
        destruct Hfr as (Fe & Fh & Fp).
        split; [|split; [reflexivity|apply oN_eqb_eq; exact Eh]].
        unfold is_creation in Ecr. rewrite Fp, tstr_pstr, Fe, Hns in Ecr. cbn [ex_is andb] in Ecr.
        apply orb_false_elim in Ecr as [Ecr _]. apply negb_false_iff in Ecr. destruct (tstr_inv _ Ecr) as (x & Hx). congruence.
      * assert (Hd: s_hash (gs en s) <> s_shash (gs en s)) by (intros X; rewrite X, oN_eqb_refl in Eh; discriminate).
        destruct (hash_diff_spec Hgone Hd Ecr) as ([[w2 cs2] rs2] & Ed & R).
        rewrite Ed. cbn [rbind answers]. exact R.
Qed.
End Side.

Lemma hash_conflict_false : hash_conflict en = false.
Proof.
  destruct (hash_conflict en) eqn:E; [exfalso|reflexivity]. unfold hash_conflict in E.
  apply andb_prop in E as [E Hr]. apply andb_prop in E as [E Hl]. apply andb_prop in E as [E Hpr]. apply andb_prop in E as [_ Hpl].
  apply negb_true_iff in Hr, Hl.
  (* a side with a path whose hash differs from its sync hash holds a user-made object; an entry has one such side *)
  assert (Hside: forall sd, tstr (s_path (gs en sd)) = true -> oN_eqb (s_hash (gs en sd)) (s_shash (gs en sd)) = false ->
                 exists k ob cs, s_oid (gs en sd) = Some (ostr_k k) /\ FullOk (real_evl w) g w e en sd k ob /\ g_get k (g_of g sd) = Some cs).
  { intros sd Hp Hh. destruct (s_oid (gs en sd)) as [o|] eqn:Eo.
    - destruct (side_obj sd o Eo) as (k & ob & n & -> & Hob & _ & FO & _).
      assert (Hd: s_hash (gs en sd) <> s_shash (gs en sd)) by (intros X; rewrite X, oN_eqb_refl in Hh; discriminate).
      destruct (hashdiff_user sd k ob Hd FO) as (cs & Hg). exists k, ob, cs. auto.
    - destruct (so_empty (eo_side EO sd) Eo) as (_ & X & _). rewrite X in Hp. discriminate. }
  destruct (Hside false Hpl Hl) as (kl & obl & csl & Hol & FOl & Hgl).
  destruct (Hside true Hpr Hr) as (kr & obr & csr & Hor & _ & Hgr).
  pose proof (owner_peer _ g w e en false kl obl csl kr nd FOl Hgl Hor) as X. cbn [negb] in X. congruence.
Qed.

Lemma path_conflict_false : path_conflict (cfg_std 1) en = false.
Proof.
  unfold path_conflict.
  destruct (s_spath (e_l en)) as [q|] eqn:Eq.
  - change (e_l en) with (gs en false) in *. rewrite (paths_differ_same _ false (gs en false) q Eq (side_paths false q Eq)).
    rewrite !andb_false_r. reflexivity.
  - cbn [tstr]. rewrite !andb_false_r. reflexivity.
Qed.

Lemma sync_side_spec s :
  notmp w e -> maxchg en <= now (w_st w) ->
  answers (sync_side w e s)
    (fun '(w', _, fl) =>
       (forall x sd0, x <> e -> getx w' x sd0 = getx w x sd0) /\ notmp w' e /\ OwnFrame g w w' /\
       match fl with
       | Continue => exists en', SCtx g w' e en' /\ e_ign en' = INone /\ maxchg en' <= now (w_st w')
       | Break _ => Inv g w'
       end)
    (StopOk g w en s).
Proof.
  intros Htmp Hmax. pose proof (sc_en _ _ _ _ SC) as Hn.
  unfold sync_side. rewrite (get_e_nth _ _ _ Hn). cbn [rbind].
  rewrite (i_cfg I).
  destruct (needs_sync (cfg_std 1) s (gs en s)) eqn:Hns; cbn [negb].
  2:{ destruct (tchg (s_chg (gs en s))) eqn:Hc.
      - destruct (set_changed_w w (i_cfg I) e s (CNum 0) en Hn) as (wa & Ha & Wa).
        rewrite Ha. cbn [rbind answers].
        pose proof (clear_changed_pres g w e en s wa SC Hns Hc Ha) as SC1.
        pose proof (weff_now Wa) as Wnow.
        assert (Hgx: forall x sd0, getx wa x sd0 = getx w x sd0) by (intros; apply (weff_getx x sd0 Wa)).
        split; [intros; apply Hgx|]. split; [intros sd; rewrite Hgx; apply Htmp|].
        split; [apply OwnFrame_prov; intros sd; apply (weff_prov sd Wa)|].
        exists (clr en s). split; [exact SC1|]. split; [unfold clr; rewrite ign_ss; exact Hign|].
        pose proof (maxchg_clr en s). lia.
      - cbn [answers]. split; [auto|]. split; [exact Htmp|]. split; [apply OwnFrame_refl|]. exists en. auto. }
  destruct (needs_sync_parts s Hns) as (Hc & o & Ho).
  destruct (side_obj s o Ho) as (k & ob & n & -> & Hob & Hk2 & FO & Hkf & Hp & Hnok).
  destruct (negb (thash (s_hash (gs en s))) && is_file (gs en s) && ex_is (s_ex (gs en s)) ExExists)%bool eqn:Enh.
  { (* a file without a hash: finished *)
    apply andb_prop in Enh as [Enh Eex]. apply andb_prop in Enh as [Eh _]. apply negb_true_iff in Eh.
    assert (HJ: Just (real_evl w) g w en s).
    { apply (Just_cell g w en s k ob Ho Hob). intros Hfr. exfalso.
      unfold freshP in Hfr. destruct (ProvModel.o_exists ob).
      - destruct Hfr as (_ & Fh & _). rewrite Fh in Eh. discriminate.
      - destruct (s_ex (gs en s)); simpl in Hfr, Eex; discriminate. }
    destruct (finished_run g w e en s SC HJ) as (wa & Ef & Ia & Hgxa & Hta & Oa). rewrite Ef. cbn [rbind answers]. auto. }
  rewrite Ho. cbn [negb andb].
  match goal with |- answers (if ?B then _ else _) _ _ => destruct B end.
  { cbn [answers]. split; [auto|]. split; [exact Htmp|]. split; [apply OwnFrame_refl|]. exists en. auto. }
  rewrite path_conflict_false.
  apply (answers_bind _ _ _ _ _ _ (embrace_spec s k ob n Hns Htmp Hmax Hc Ho Hob FO Hkf Hp Hnok) (fun c H => H)).
  intros [[w1 cs1] rs] (en1 & SC1 & Hgx1 & Hown1 & Hres).
  destruct rs.
  - destruct (finished_run g w1 e en1 s SC1 Hres) as (wa & Ef & Ia & Hgxa & Hta & Oa). rewrite Ef. cbn [rbind answers].
    split; [intros x sd0 Hne; rewrite Hgxa by exact Hne; apply Hgx1; exact Hne|]. split; [exact Hta|].
    split; [apply (OwnFrame_trans g w w1 wa Hown1 Oa)|exact Ia].
  - destruct Hres as (Hm1 & Ht1).
    destruct (punt_run g w1 e en1 SC1 Hm1) as (wa & Epu & Ia & Hgxa & Pa). rewrite Epu. cbn [rbind answers].
    pose proof (OwnFrame_prov g w1 wa Pa) as Oa.
    split; [intros x sd0 Hne; rewrite Hgxa; apply Hgx1; exact Hne|]. split; [intros sd; rewrite Hgxa; apply Ht1|].
    split; [apply (OwnFrame_trans g w w1 wa Hown1 Oa)|exact Ia].
  - destruct Hres.
Qed.

End One.

Lemma split_guard_false g w e en sd : SCtx g w e en -> split_guard (cfg_std 1) en sd = false.
Proof.
  intros SC. unfold split_guard, moved_out_of_root.
  destruct (s_oid (gs en (negb sd))) as [o|] eqn:Eo; [|cbn [tstr andb]; apply andb_false_r].
  destruct (side_obj g w e en SC (negb sd) o Eo) as (k & ob & n & -> & Hob & Hk2 & FO & Hkf & Hp & Hnok).
  destruct (fo_path FO) as [X|X]; rewrite X; [cbn [tstr andb]; rewrite !andb_false_r; reflexivity|].
  rewrite Hp, negb_involutive, (translate_file sd n Hnok). rewrite !andb_false_r. reflexivity.
Qed.

(* the second side runs in the world the first one left: the creation target has to be free there too *)
Lemma sync_entry_spec g w e en :
  SCtx g w e en -> e_ign en = INone -> notmp w e -> maxchg en <= now (w_st w) ->
  answers (sync_entry w e)
    (fun '(w', cs) => Inv g w' /\ (forall x sd0, x <> e -> getx w' x sd0 = getx w x sd0) /\ notmp w' e /\ OwnFrame g w w' /\ CallsOk g cs)
    (fun c => (forall w1 en1 s, OwnFrame g w w1 -> SCtx g w1 e en1 -> e_ign en1 = INone -> TargetFree g w1 en1 s) ->
              In c stop_codes).
Proof.
  intros SC Hign Htmp Hmax. pose proof (sc_en _ _ _ _ SC) as Hn.
  unfold sync_entry. rewrite (get_e_nth _ _ _ Hn). cbn [rbind].
  rewrite (i_cfg (sc_inv _ _ _ _ SC)), (split_guard_false g w e en false SC), (split_guard_false g w e en true SC).
  cbn [orb]. rewrite (hash_conflict_false g w e en SC Hign).
  set (first := N.ltb _ _).
  apply (answers_bind _ _ _ _ _ _ (answers_and _ _ _ _ (sync_side_spec g w e en SC Hign first Htmp Hmax) (sync_side_CallsOk g w e en SC Hign first))).
  { intros c0 S1 TF. apply S1, (TF w en first (OwnFrame_refl g w) SC Hign). }
  intros [[w1 cs1] f1] ((Hgx1 & Ht1 & Hown1 & Hres1) & C1).
  destruct f1; [|cbn [answers]; auto 6].
  destruct Hres1 as (en1 & SC1 & Hi1 & Hm1).
  apply (answers_bind _ _ _ _ _ _ (answers_and _ _ _ _ (sync_side_spec g w1 e en1 SC1 Hi1 (negb first) Ht1 Hm1) (sync_side_CallsOk g w1 e en1 SC1 Hi1 (negb first)))).
  { intros c1 S2 TF. apply S2, (TF w1 en1 (negb first) Hown1 SC1 Hi1). }
  intros [[w2 cs2] f2] ((Hgx2 & Ht2 & Hown2 & Hres2) & C2). cbn [answers].
  split; [|split; [intros x sd0 Hne; rewrite Hgx2 by exact Hne; apply Hgx1; exact Hne|split; [exact Ht2|split; [apply (OwnFrame_trans g w w1 w2 Hown1 Hown2)|apply CallsOk_app; assumption]]]].
  destruct f2; [destruct Hres2 as (en2 & SC2 & _); exact (sc_inv _ _ _ _ SC2)|exact Hres2].
Qed.

(* steps that touch the clock or the dirty set only *)
Lemma Inv_st g w s' :
  ents s' = ents (w_st w) -> oidsL s' = oidsL (w_st w) -> oidsR s' = oidsR (w_st w) ->
  pathsL s' = pathsL (w_st w) -> pathsR s' = pathsR (w_st w) -> cset s' = cset (w_st w) ->
  now (w_st w) <= now s' -> lastch s' = lastch (w_st w) -> tape s' = tape (w_st w) ->
  Inv g w -> Inv g (with_st w s').
Proof.
  intros Hents HoL HoR HpL HpR Hcs Hnow Hlast Htape I.
  apply (InvP_frame (real_evl w) _ g w _ I); auto.
  - cbn [with_st w_st]. unfold iview. rewrite Hents, HoL, HoR, HpL, HpR. reflexivity.
  - intros sd. rewrite prov_of_with_st. apply (i_pwf I).
Qed.

Lemma Inv_commit g w : Inv g w -> Inv g (commit w).
Proof. intros I. unfold commit. apply Inv_st; (reflexivity || exact I). Qed.

Lemma Inv_at_clock g w clk : Inv g w -> Inv g (at_clock w clk).
Proof. intros I. unfold at_clock. apply Inv_st; try reflexivity; [cbn [st_now now]; lia|exact I]. Qed.

Lemma Inv_tick g w : Inv g w -> Inv g (fst (tick w)).
Proof. intros I. unfold tick. cbn [fst]. apply Inv_st; try reflexivity; [cbn [st_now now]; lia|exact I]. Qed.

(* finished() on a discarded entry: nothing is asked of the caller (the side conditions of finished_run0 speak of entries
   that are not discarded), and the entry stays discarded *)
Lemma finished_disc g w e en side :
  Inv g w -> (2 <= e)%nat -> nth_error (ents (w_st w)) e = Some en -> is_discarded (e_ign en) = true ->
  exists w', AlgoModel.finished w e side = ROk w' /\
    Inv g w' /\ (forall x sd0, x <> e -> getx w' x sd0 = getx w x sd0) /\ notmp w' e /\ (forall sd0, prov_of w' sd0 = prov_of w sd0) /\
    exists en', nth_error (ents (w_st w')) e = Some en' /\ is_discarded (e_ign en') = true.
Proof.
  intros I He Hn Hd.
  destruct (finished_run0 g w e en side I He Hn) as (w' & H & Ia & Hgxa & Hta & Hpa & ena & Hna & (_ & _ & S3));
    [congruence|congruence|intros; congruence|].
  exists w'. repeat (split; [assumption|]). exists ena. split; [exact Hna|]. unfold clr in S3. rewrite ign_ss in S3. congruence.
Qed.

Lemma revivify_total g w e en sd : Inv g w -> (2 <= e)%nat -> nth_error (ents (w_st w)) e = Some en -> revivify_side w e sd = ROk tt.
Proof.
  intros I He Hn. pose proof (i_ents I e en He Hn) as EO. unfold revivify_side. rewrite (get_e_nth _ _ _ Hn). cbn [rbind].
  assert (Hir: ign_eqb (e_ign en) IIrrelevant = false) by (destruct (eo_ign EO) as [X|X]; rewrite X; reflexivity).
  rewrite Hir. destruct (_ || _)%bool; [reflexivity|].
  destruct (lookup_oid (w_st w) sd (s_oid (gs en sd))) as [e'|]; [destruct (Nat.eqb e' e); reflexivity|reflexivity].
Qed.

(* pre_sync always answers: a live entry is refreshed from both sides, a discarded one is finished on both *)
Lemma pre_sync_run g w e en :
  Inv g w -> (2 <= e)%nat -> nth_error (ents (w_st w)) e = Some en ->
  exists w' done, pre_sync w e = ROk (w', done) /\
    (notmp w e -> maxchg en <= now (w_st w) ->
     (forall x sd0, x <> e -> getx w' x sd0 = getx w x sd0) /\ notmp w' e /\ (forall sd, prov_of w' sd = prov_of w sd) /\
     if done then Inv g w' else exists en', SCtx g w' e en' /\ e_ign en' = INone /\ maxchg en' <= now (w_st w')).
Proof.
  intros I He Hn. pose proof (i_ents I e en He Hn) as EO.
  unfold pre_sync. rewrite (get_e_nth _ _ _ Hn). cbn [rbind].
  destruct (eo_ign EO) as [Hi|Hi]; rewrite Hi; cbn [is_discarded].
  - destruct (get_latest_run (real_evl w) g w e false [false; true] en I He Hn) as (w1 & Eg & _ & _ & _ & _ & Htf & _).
    rewrite Eg. cbn [rbind]. exists w1, false. split; [reflexivity|]. intros Htmp Hmax.
    assert (Hnd: forall en0, nth_error (ents (w_st w)) e = Some en0 -> is_discarded (e_ign en0) = false).
    { intros en0 H0. assert (en0 = en) by congruence. subst en0. rewrite Hi. reflexivity. }
    destruct (get_latest_both (real_evl w) g w e w1 I He Hnd Eg) as (I1 & R1 & R2 & Hp & Hgx & (en0 & en1 & Hn0 & Hn1 & Hi1 & Hm1) & Hnow & Hshp).
    assert (en0 = en) by congruence. subst en0.
    split; [exact Hgx|]. split; [intros sd; rewrite Htf; apply Htmp|]. split; [exact Hp|].
    exists en1. split; [|split; [congruence|lia]].
    constructor; [|exact He|exact Hn1| |intros sd0; apply (Hshp en1 sd0 Hn1)].
    + apply (Inv_same_prov g w w1 Hp I1).
    + intros sd0 k ob Ho Hob.
      assert (Hpd: pd (real_evl w1) sd0 k = pd (real_evl w) sd0 k) by (unfold pd, real_evl; rewrite Hp; reflexivity).
      rewrite Hpd. destruct sd0; [apply (R2 en1 k ob Hn1 Ho Hob)|apply (R1 en1 k ob Hn1 Ho Hob)].
  - rewrite (revivify_total g w e en false I He Hn), (revivify_total g w e en true I He Hn). cbn [rbind].
    assert (Hd: is_discarded (e_ign en) = true) by (rewrite Hi; reflexivity).
    destruct (finished_disc g w e en false I He Hn Hd) as (wa & Efa & Ia & Hgxa & _ & Hpa & ena & Hna & Hda).
    rewrite Efa. cbn [rbind].
    destruct (finished_disc g wa e ena true Ia He Hna Hda) as (wb & Efb & Ib & Hgxb & Htb & Hpb & _).
    rewrite Efb. cbn [rbind].
    exists wb, true. split; [reflexivity|]. intros _ _.
    split; [intros x sd0 Hne; rewrite Hgxb by exact Hne; apply Hgxa; exact Hne|]. split; [exact Htb|].
    split; [intros sd; rewrite Hpb; apply Hpa|exact Ib].
Qed.

(* norm_order order cs lists exactly the members of cs *)
Lemma norm_order_mem order cs x : In x (norm_order order cs) -> set_mem x cs = true.
Proof.
  unfold norm_order. intros H. apply in_app_or in H as [H|H]; apply filter_In in H as [H1 H2]; [exact H2|apply set_mem_In; exact H1].
Qed.

Lemma norm_order_in order cs x : In x cs -> In x (norm_order order cs).
Proof.
  intros Hx. unfold norm_order. apply in_or_app.
  destruct (existsb (Nat.eqb x) (filter (fun e => set_mem e cs) (nodup_nat order))) eqn:Ex.
  - left. apply existsb_exists in Ex as (y & Hy & Ey). apply Nat.eqb_eq in Ey. subst y. exact Hy.
  - right. apply filter_In. rewrite Ex. auto.
Qed.

(* the two root entries are never pending *)
Lemma cset_ge2 g w x : Inv g w -> set_mem x (cset (w_st w)) = true -> (2 <= x)%nat.
Proof.
  intros I Hx. destruct (roots_not_pending _ (i_roots I)) as (M0 & M1).
  destruct x as [|[|x]]; [congruence|congruence|lia].
Qed.

Lemma norm_order_members g w order : Inv g w ->
  Forall (fun e => (2 <= e)%nat /\ set_mem e (cset (w_st w)) = true) (norm_order order (cset (w_st w))).
Proof. intros I. apply Forall_forall. intros x Hx. apply norm_order_mem in Hx. split; [apply (cset_ge2 g w x I Hx)|exact Hx]. Qed.

(* the "fill in path" loop of SyncState.change runs over members of the change set; filling a path takes nothing out of it *)
Lemma fill_one_run g w e sd : Inv g w -> (2 <= e)%nat -> set_mem e (cset (w_st w)) = true ->
  exists w', fill_one w e sd = ROk w' /\
    Inv g w' /\ (forall x sd0, x_tfile (getx w' x sd0) = x_tfile (getx w x sd0)) /\ (forall sd0, prov_of w' sd0 = prov_of w sd0) /\
    (forall x, set_mem x (cset (w_st w)) = true -> set_mem x (cset (w_st w')) = true).
Proof.
  intros I He Hm. pose proof (i_csb I e Hm) as Hlt.
  destruct (nth_error (ents (w_st w)) e) as [en|] eqn:Hn; [|apply nth_error_None in Hn; lia].
  unfold fill_one. rewrite (get_e_nth _ _ _ Hn). cbn [rbind].
  match goal with |- exists _, (if ?B then _ else _) = _ /\ _ => destruct B end.
  - destruct (get_latest_run (real_evl w) g w e false [sd] en I He Hn) as (w' & E & I1 & Hp & Hgx & _ & Htf & _ & Hmono).
    exists w'. split; [exact E|]. split; [apply (Inv_same_prov g w w' Hp I1)|]. split; [|split; [exact Hp|exact Hmono]].
    intros x sd0. destruct (Nat.eq_dec x e) as [->|Hne]; [apply Htf|rewrite Hgx by exact Hne; reflexivity].
  - exists w. auto.
Qed.

Lemma fill_paths_run g : forall order w, Inv g w ->
  Forall (fun e => (2 <= e)%nat /\ set_mem e (cset (w_st w)) = true) order ->
  exists w', fill_paths w order = ROk w' /\
    Inv g w' /\ (forall x sd0, x_tfile (getx w' x sd0) = x_tfile (getx w x sd0)) /\ (forall sd0, prov_of w' sd0 = prov_of w sd0) /\
    (forall x, set_mem x (cset (w_st w)) = true -> set_mem x (cset (w_st w')) = true).
Proof.
  induction order as [|e r IH]; intros w I Hall; simpl.
  - exists w. auto.
  - inversion Hall as [|? ? (He & Hm) Hr]; subst.
    destruct (fill_one_run g w e false I He Hm) as (w1 & E1 & I1 & T1 & P1 & M1). rewrite E1. cbn [rbind].
    destruct (fill_one_run g w1 e true I1 He (M1 e Hm)) as (w2 & E2 & I2 & T2 & P2 & M2). rewrite E2. cbn [rbind].
    destruct (IH w2 I2) as (w3 & E3 & I3 & T3 & P3 & M3); [eapply Forall_impl; [|exact Hr]; intros x (A & B); auto|].
    exists w3. split; [exact E3|]. split; [exact I3|]. split; [intros x sd0; rewrite T3, T2, T1; reflexivity|].
    split; [intros sd0; rewrite P3, P2, P1; reflexivity|]. intros x Hx. apply M3, M2, M1. exact Hx.
Qed.

Lemma pick_in s order t e : pick s order t = Some e -> In e order.
Proof.
  unfold pick. intros H. destruct (SchedModel.pick_sorted _ (tagged s order)) as [[i x]|] eqn:E; [|discriminate].
  simpl in H. injection H as <-. destruct (SchedProofs.picked_is_eligible _ _ _ E) as (Hin & _).
  unfold tagged in Hin. apply in_map_iff in Hin as (j & Hj & Hin). injection Hj as <- _. exact Hin.
Qed.

Lemma OwnFrame_commit g w w1 : OwnFrame g w w1 -> OwnFrame g w (commit w1).
Proof. intros O. apply (OwnFrame_trans g w w1 _ O). apply OwnFrame_prov. intros sd. apply prov_of_with_st. Qed.

(* SyncManager.do up to sync(): SyncState.change with its provider calls, the pick and pre_sync always answer, and lead
   either to a step without calls or to sync() on one entry refreshed from both sides *)
Lemma sync_step_run g w order : Inv g w -> NoTmp w ->
  (exists w', sync_step w order = ROk (w', []) /\ Inv g w' /\ NoTmp w' /\ OwnFrame g w w') \/
  exists w3 e en3, SCtx g w3 e en3 /\ e_ign en3 = INone /\ maxchg en3 <= now (w_st w3) /\ NoTmp w3 /\ OwnFrame g w w3 /\
    sync_step w order = ('(w4, cs) <- sync_entry w3 e ;; ROk (commit w4, cs)).
Proof.
  intros I T. unfold sync_step.
  destruct (cset (w_st w)) as [|c0 cr] eqn:Ecs; [left; exists w; auto using OwnFrame_refl|]. rewrite <- Ecs.
  pose proof (norm_order_members g w order I) as Hord. set (ord := norm_order order (cset (w_st w))) in *.
  destruct (fill_paths_run g ord w I Hord) as (w1 & Ef & I1 & T1 & P1 & M1). rewrite Ef. cbn [rbind].
  pose proof (Inv_tick g w1 I1) as I2. set (w2 := fst (tick w1)) in *.
  change (tick w1) with (w2, now (w_st w1) + 1000). cbv iota.
  assert (O2: OwnFrame g w w2) by (apply OwnFrame_prov; intros sd; unfold w2, tick; cbn [fst]; rewrite prov_of_with_st; apply P1).
  assert (T2: NoTmp w2) by (intros x sd0; change (getx w2 x sd0) with (getx w1 x sd0); rewrite T1; apply T).
  destruct (pick (w_st w2) ord (now (w_st w1) + 1000)) as [e|] eqn:Ep; [|left; exists w2; auto].
  destruct (proj1 (Forall_forall _ _) Hord e (pick_in _ _ _ _ Ep)) as (He & Hm).
  destruct (nth_error (ents (w_st w2)) e) as [en|] eqn:Hn.
  2:{ exfalso. apply nth_error_None in Hn. pose proof (i_csb I1 e (M1 e Hm)). change (ents (w_st w2)) with (ents (w_st w1)) in Hn. lia. }
  assert (Hmax: maxchg en <= now (w_st w2)).
  { destruct (i_clke I1 e en Hn) as (A & _). change (now (w_st w2)) with (now (w_st w1) + 1000). lia. }
  destruct (pre_sync_run g w2 e en I2 He Hn) as (w3 & done & Eps & F). rewrite Eps. cbn [rbind].
  destruct (F (T2 e) Hmax) as (Hgx3 & Ht3 & P3 & Hres).
  assert (O3: OwnFrame g w w3) by (apply (OwnFrame_trans g w w2 w3 O2); apply OwnFrame_prov; exact P3).
  assert (T3: NoTmp w3).
  { intros x sd0. destruct (Nat.eq_dec x e) as [->|Hne]; [apply Ht3|rewrite Hgx3 by exact Hne; apply T2]. }
  destruct done.
  - left. exists (commit w3). split; [reflexivity|]. split; [apply Inv_commit; exact Hres|]. split; [exact T3|apply OwnFrame_commit; exact O3].
  - destruct Hres as (en3 & SC3 & Hi3 & Hm3). right. exists w3, e, en3. auto 10.
Qed.

Lemma sync_step_spec g w order :
  Inv g w -> NoTmp w ->
  answers (sync_step w order)
    (fun '(w', cs) => Inv g w' /\ NoTmp w' /\ OwnFrame g w w' /\ CallsOk g cs)
    (fun c => (forall w1 e en1 s, OwnFrame g w w1 -> SCtx g w1 e en1 -> e_ign en1 = INone -> TargetFree g w1 en1 s) -> In c stop_codes).
Proof.
  intros I T.
  destruct (sync_step_run g w order I T) as [(w1 & E & A & B & O)|(w3 & e & en3 & SC3 & Hi3 & Hm3 & T3 & O3 & E)]; rewrite E; [cbn; auto using CallsOk_nil|].
  apply (answers_bind _ _ _ _ _ _ (sync_entry_spec g w3 e en3 SC3 Hi3 (T3 e) Hm3)).
  - intros c H TF. apply H. intros w1 en1 s O1. apply TF. exact (OwnFrame_trans g w w3 w1 O3 O1).
  - intros [w4 cs] (I4 & Hgx4 & Ht4 & O4 & Cc). cbn [answers].
    split; [apply Inv_commit; exact I4|]. split; [|split; [apply OwnFrame_commit; exact (OwnFrame_trans g w w3 w4 O3 O4)|exact Cc]].
    intros x sd0. change (getx (commit w4) x sd0) with (getx w4 x sd0).
    destruct (Nat.eq_dec x e) as [->|Hne]; [apply Ht4|rewrite Hgx4 by exact Hne; apply T3].
Qed.

Theorem sync_step_pres g w order w' cs :
  Inv g w -> NoTmp w -> sync_step w order = ROk (w', cs) -> Inv g w' /\ NoTmp w' /\ OwnFrame g w w'.
Proof.
  intros I T H.
  destruct (answers_ok _ _ _ _ (sync_step_spec g w order I T) H) as (A & B & O & _).
  auto.
Qed.

Theorem engine_step_pres g w a w' cs :
  Inv g w -> NoTmp w -> (forall sd o, a <> AUser sd o) -> algo_step w a = ROk (w', cs) -> Inv g w' /\ NoTmp w' /\ OwnFrame g w w'.
Proof.
  intros I T Ha H. destruct a as [sd o|sd clk|order clk]; [exfalso; apply (Ha sd o); reflexivity| |].
  - simpl in H. destruct (intake_run g _ sd (Inv_at_clock g w clk I)) as (w1 & Ei & I1 & Hx & Hheap). rewrite Ei in H. cbn [rbind] in H. injection H as <- <-.
    split; [exact I1|]. split.
    + intros x sd0. unfold getx. rewrite Hx. apply (T x sd0).
    + intros sd0 k cs0 _. unfold obj_at. rewrite Hheap. unfold at_clock. rewrite prov_of_with_st. reflexivity.
  - simpl in H. destruct (sync_step_pres g _ order w' cs (Inv_at_clock g w clk I)) with (2 := H) as (A & B & C); [intros x sd0; apply T|].
    split; [exact A|]. split; [exact B|]. intros sd k cs0 Hg. rewrite (C sd k cs0 Hg). unfold obj_at, at_clock. rewrite prov_of_with_st. reflexivity.
Qed.

(* in a quiescent world an engine action issues no provider call, changes neither provider's objects nor any entry,
   and leaves the world quiescent: nothing happens after quiet until a user acts (C03: no echo after quiet) *)
Theorem quiescent_stable g w a w' cs :
  Inv g w -> quiescent w = true -> (forall sd o, a <> AUser sd o) -> algo_step w a = ROk (w', cs) ->
  cs = [] /\ quiescent w' = true /\ ents (w_st w') = ents (w_st w) /\
  (forall sd, ProvModel.p_heap (prov_of w' sd) = ProvModel.p_heap (prov_of w sd)).
Proof.
  intros I Hq Ha H. destruct (proj1 (quiescent_iff w) Hq) as (Hev & Hcs).
  destruct a as [sd o|sd clk|order clk]; [exfalso; apply (Ha sd o); reflexivity| |]; simpl in H.
  - unfold intake, at_clock in H. rewrite prov_of_with_st, (read_events_all _ (i_pwf I sd)), Hev in H. simpl in H. injection H as <- <-.
    (* the cursor of side sd has moved to the end of its log; nothing else has changed *)
    match goal with |- context [with_prov ?a sd ?b] => set (w1 := with_prov a sd b) end.
    assert (Hsame: prov_of w1 sd = ProvModel.with_cursor (prov_of w sd) (length (ProvModel.p_log (prov_of w sd)))) by apply prov_with_same.
    assert (Hoth: prov_of w1 (negb sd) = prov_of w (negb sd)) by (unfold w1; rewrite prov_with_other; apply prov_of_with_st).
    assert (Hst: w_st w1 = w_st (at_clock w clk)) by apply st_with_prov.
    split; [reflexivity|]. split; [apply quiescent_iff; split|split].
    + intros sd0. destruct (side_cases sd sd0) as [->| ->]; [rewrite Hsame; apply events_from_read|rewrite Hoth; apply Hev].
    + rewrite Hst. exact Hcs.
    + rewrite Hst. reflexivity.
    + intros sd0. destruct (side_cases sd sd0) as [->| ->]; [rewrite Hsame|rewrite Hoth]; reflexivity.
  - unfold sync_step in H. change (cset (w_st (at_clock w clk))) with (cset (w_st w)) in H. rewrite Hcs in H. injection H as <- <-.
    split; [reflexivity|]. unfold at_clock. split; [apply quiescent_iff; split; [intros sd; rewrite prov_of_with_st; apply Hev|exact Hcs]|].
    split; [reflexivity|intros sd; rewrite prov_of_with_st; reflexivity].
Qed.

Theorem engine_step_calls g w a w' cs :
  Inv g w -> NoTmp w -> algo_step w a = ROk (w', cs) -> CallsOk g cs.
Proof.
  intros I T H. destruct a as [sd o|sd clk|order clk]; simpl in H.
  - injection H as <- <-. apply CallsOk_nil.
  - destruct (intake (at_clock w clk) sd) as [w1|c]; [|discriminate]. cbn [rbind] in H. injection H as <- <-. apply CallsOk_nil.
  - destruct (answers_ok _ _ _ _ (sync_step_spec g (at_clock w clk) order (Inv_at_clock g w clk I) T) H) as (_ & _ & _ & C). exact C.
Qed.

(* sync() on behalf of a side whose object the engine made itself (a mirror: its events are the echo of the engine's
   own create / upload) issues no provider call *)
Theorem mirror_side_no_calls g w e en s k w' cs fl :
  SCtx g w e en -> e_ign en = INone -> s_oid (gs en s) = Some (ostr_k k) -> g_get k (g_of g s) = None ->
  sync_side w e s = ROk (w', cs, fl) -> cs = [].
Proof.
  intros SC Hign Ho Hg H. destruct cs as [|c r]; [reflexivity|exfalso].
  destruct (sync_side_owner g w e en SC Hign s w' _ fl H ltac:(discriminate)) as (k1 & c0 & Ho1 & Hg1).
  assert (k1 = k) by (apply ostr_k_inj; congruence). congruence.
Qed.
