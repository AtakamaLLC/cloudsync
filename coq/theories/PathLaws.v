(* PathLaws.v — lemmas about PathModel.  The helpers are read through the components of a path: [pc cv p] (alt separators
   replaced, blanks dropped) and the canonical string [render cv l] of a component list; normalize_path is [render (pc p)],
   case-folded as the convention asks, and the laws of join, split, paths_match and translate follow from that.
   is_subpath and replace_path compare strings, not components (nps leaves "a//b" alone): their laws go through [inside].
   The short names (pc, key, lowk, relpart, ...) are glossed in the head of PropC13.v. *)
From Coq Require Import NArith List Bool Lia Arith.
From CS Require Import Sx Str PathModel.
From CS Require Export StrLemmas.
Import ListNotations.

(* what the laws need of str.lower(), read one character at a time: it is idempotent, maps exactly the separator to
   the separator, exactly the alt separator to the alt separator and (with win_paths) exactly ':' to ':', so that
   folding neither makes nor unmakes a separator or a drive-letter colon.  Str.fold_std satisfies it (fold_std_ok,
   below); the harness compares fold_std with str.lower() on its alphabet and checks per-character folding on
   all code points (U+0130 fails). *)
Record fold_ok (cv : conv) : Prop := {
  fo_idem : forall c, cv_fold cv (cv_fold cv c) = cv_fold cv c;
  fo_sep : forall c, cv_fold cv c = cv_sep cv <-> c = cv_sep cv;
  fo_alt : forall a, cv_alt cv = Some a -> forall c, cv_fold cv c = a <-> c = a;
  fo_colon : cv_win cv = true -> forall c, cv_fold cv c = 58%N <-> c = 58%N
}.

Definition conv_ok (cv : conv) : Prop := cv_cs cv = false -> fold_ok cv.

Definition rp (cv : conv) (p : str) : str :=
  match cv_alt cv with Some a => replace_char a (cv_sep cv) p | None => p end.

Definition noalt (cv : conv) (s : str) : Prop :=
  forall a, cv_alt cv = Some a -> a <> cv_sep cv -> ~ In a s.

Definition pc (cv : conv) (p : str) : list str := comps (cv_sep cv) (rp cv p).

Definition gcomp (cv : conv) (q : str) : Prop := good (cv_sep cv) q /\ noalt cv q.

Lemma rp_noalt cv s : noalt cv s -> rp cv s = s.
Proof.
  unfold rp, noalt. intros H. destruct (cv_alt cv) as [a|]; [|reflexivity].
  destruct (N.eq_dec a (cv_sep cv)) as [->|Hne]; [apply replace_char_same|].
  apply replace_char_no. apply (H a eq_refl Hne).
Qed.

Lemma noalt_rp cv s : noalt cv (rp cv s).
Proof.
  unfold rp, noalt. intros a Ha Hne. rewrite Ha. apply replace_char_out. exact Hne.
Qed.

Lemma noalt_incl cv s t : incl t s -> noalt cv s -> noalt cv t.
Proof. intros Hi Hs a Ha Hne Hin. apply (Hs a Ha Hne). apply Hi. exact Hin. Qed.

Lemma noalt_app cv a b : noalt cv (a ++ b) <-> noalt cv a /\ noalt cv b.
Proof.
  split.
  - intros H. split; eapply noalt_incl; try exact H; [apply incl_appl|apply incl_appr]; apply incl_refl.
  - intros [Ha Hb] x Hx Hne Hin. apply in_app_or in Hin as [Hin|Hin]; [apply (Ha x Hx Hne Hin)|apply (Hb x Hx Hne Hin)].
Qed.

Lemma noalt_sep cv : noalt cv [cv_sep cv].
Proof. intros a Ha Hne [H|[]]. congruence. Qed.

Lemma noalt_nil cv : noalt cv [].
Proof. intros a Ha Hne []. Qed.

Lemma noalt_cons_sep cv s : noalt cv s -> noalt cv (cv_sep cv :: s).
Proof. intros Hs. apply (proj2 (noalt_app cv [cv_sep cv] s)). split; [apply noalt_sep|exact Hs]. Qed.

Lemma rp_app cv a b : rp cv (a ++ b) = rp cv a ++ rp cv b.
Proof. unfold rp. destruct (cv_alt cv); [apply map_app|reflexivity]. Qed.

Lemma rp_idem cv s : rp cv (rp cv s) = rp cv s.
Proof. apply rp_noalt. apply noalt_rp. Qed.

Lemma rp_nil cv : rp cv [] = [].
Proof. unfold rp. destruct (cv_alt cv); reflexivity. Qed.

Lemma rp_length cv s : length (rp cv s) = length s.
Proof. unfold rp. destruct (cv_alt cv); [apply map_length|reflexivity]. Qed.

Lemma nps_eq cv p :
  nps cv p = if str_eqb (rp cv p) [cv_sep cv] then [cv_sep cv] else rstrip (cv_sep cv) (rp cv p).
Proof.
  destruct p as [|x p].
  - rewrite rp_nil. reflexivity.
  - unfold nps. fold (rp cv (x :: p)).
    destruct (str_eqb_spec (rp cv (x :: p)) [cv_sep cv]) as [E|E]; [exact E|reflexivity].
Qed.

Lemma nps_noalt cv p : noalt cv (nps cv p).
Proof.
  rewrite nps_eq. destruct (str_eqb (rp cv p) [cv_sep cv]); [apply noalt_sep|].
  eapply noalt_incl; [apply rstrip_incl|apply noalt_rp].
Qed.

Lemma nps_shape cv p : nps cv p = [cv_sep cv] \/ rstrip (cv_sep cv) (nps cv p) = nps cv p.
Proof.
  rewrite nps_eq. destruct (str_eqb (rp cv p) [cv_sep cv]); [left; reflexivity|right; apply rstrip_idem].
Qed.

Lemma nps_fix cv x : noalt cv x -> (x = [cv_sep cv] \/ rstrip (cv_sep cv) x = x) -> nps cv x = x.
Proof.
  intros Hn Hs. rewrite nps_eq, (rp_noalt cv x Hn).
  destruct (str_eqb_spec x [cv_sep cv]) as [E|E]; [symmetry; exact E|].
  destruct Hs as [Hs|Hs]; [contradiction|exact Hs].
Qed.

Lemma nps_app_keep cv a b : noalt cv a -> rstrip (cv_sep cv) (rp cv b) <> [] ->
  nps cv (a ++ b) = a ++ rstrip (cv_sep cv) (rp cv b).
Proof.
  intros Ha Hb. rewrite nps_eq, rp_app, (rp_noalt cv a Ha), rstrip_app_keep by exact Hb.
  destruct (str_eqb_spec (a ++ rp cv b) [cv_sep cv]) as [E|_]; [|reflexivity].
  (* the whole can be the bare separator only if a is empty or is the separator itself and b adds nothing *)
  exfalso. apply Hb. destruct a as [|x [|y a]]; [|injection E as _ E|discriminate]; simpl in E; rewrite E.
  - apply rstrip_single.
  - reflexivity.
Qed.

Lemma nps_idem cv p : nps cv (nps cv p) = nps cv p.
Proof. apply nps_fix; [apply nps_noalt|apply nps_shape]. Qed.

Lemma nps_sep cv : nps cv [cv_sep cv] = [cv_sep cv].
Proof. apply nps_fix; [apply noalt_sep|left; reflexivity]. Qed.

Lemma comps_nps cv p : comps (cv_sep cv) (nps cv p) = pc cv p.
Proof.
  unfold pc. rewrite nps_eq. destruct (str_eqb_spec (rp cv p) [cv_sep cv]) as [E|E].
  - rewrite E. reflexivity.
  - apply comps_rstrip.
Qed.

Lemma pc_nps cv p : pc cv (nps cv p) = pc cv p.
Proof. unfold pc at 1. rewrite (rp_noalt cv _ (nps_noalt cv p)). apply comps_nps. Qed.

Lemma pc_noalt cv s : noalt cv s -> pc cv s = comps (cv_sep cv) s.
Proof. intros H. unfold pc. rewrite (rp_noalt cv s H). reflexivity. Qed.

Lemma pc_nil cv : pc cv [] = [].
Proof. unfold pc. rewrite rp_nil. reflexivity. Qed.

Lemma pc_app_sep cv a b : pc cv (a ++ cv_sep cv :: b) = pc cv a ++ pc cv b.
Proof.
  unfold pc. change (cv_sep cv :: b) with ([cv_sep cv] ++ b).
  rewrite !rp_app, (rp_noalt cv _ (noalt_sep cv)). apply comps_app_sep.
Qed.

Lemma pc_cons_sep cv b : pc cv (cv_sep cv :: b) = pc cv b.
Proof. change (pc cv ([] ++ cv_sep cv :: b) = pc cv b). rewrite pc_app_sep, pc_nil. reflexivity. Qed.

Lemma pc_sep cv : pc cv [cv_sep cv] = [].
Proof. rewrite pc_cons_sep. apply pc_nil. Qed.

Lemma pc_gcomp cv p : Forall (gcomp cv) (pc cv p).
Proof.
  unfold pc. apply Forall_forall. intros q Hq. split.
  - exact (proj1 (Forall_forall _ _) (comps_good _ _) q Hq).
  - eapply noalt_incl; [apply (comps_incl _ _ _ Hq)|apply noalt_rp].
Qed.

Lemma gcomp_good cv l : Forall (gcomp cv) l -> Forall (good (cv_sep cv)) l.
Proof. apply Forall_impl. intros q [H _]. exact H. Qed.

Lemma gcomp_noalt cv l : Forall (gcomp cv) l -> Forall (noalt cv) l.
Proof. apply Forall_impl. intros q [_ H]. exact H. Qed.

Lemma nps_gcomp cv q : gcomp cv q -> nps cv q = q.
Proof. intros [[_ Hs] Hn]. apply nps_fix; [exact Hn|right; apply rstrip_no; exact Hs]. Qed.

Lemma noalt_intercalate cv L : Forall (noalt cv) L -> noalt cv (intercalate (cv_sep cv) L).
Proof.
  induction 1 as [|p l Hp Hl IH]; [apply noalt_nil|].
  rewrite intercalate_cons. destruct l as [|q l]; [exact Hp|].
  apply noalt_app. split; [exact Hp|]. apply noalt_cons_sep. exact IH.
Qed.

(* the drive-letter test of Provider.join: win_paths and joined_path[1:2] == ':' *)
Definition dl (cv : conv) (j : str) : bool :=
  cv_win cv && match j with _ :: y :: _ => N.eqb y 58 | _ => false end.

Definition fin (cv : conv) (j : str) : str := if dl cv j then j else add_sep cv j.

(* the canonical string of a list of pieces; join is [render] of its cleaned arguments *)
Definition render (cv : conv) (l : list str) : str :=
  match l with [] => [cv_sep cv] | _ => fin cv (intercalate (cv_sep cv) l) end.

Lemma join_eq cv paths : join cv paths = render cv (strip_list cv (norm_list cv paths)).
Proof.
  unfold join, render, fin, dl. destruct (strip_list cv (norm_list cv paths)) as [|p l]; [reflexivity|].
  generalize (intercalate (cv_sep cv) (p :: l)). intros j.
  destruct (cv_win cv); [|reflexivity]. destruct j as [|x [|y j]]; reflexivity.
Qed.

Lemma fin_sep cv j : fin cv (cv_sep cv :: j) = cv_sep cv :: j.
Proof. unfold fin. destruct (dl cv (cv_sep cv :: j)); [reflexivity|]. simpl. rewrite N.eqb_refl. reflexivity. Qed.

Lemma comps_fin cv j : comps (cv_sep cv) (fin cv j) = comps (cv_sep cv) j.
Proof.
  unfold fin, add_sep. destruct (dl cv j), j as [|x j]; try reflexivity.
  destruct (N.eqb x (cv_sep cv)); [reflexivity|apply comps_cons_sep].
Qed.

Lemma noalt_fin cv j : noalt cv j -> noalt cv (fin cv j).
Proof.
  intros H. unfold fin, add_sep. destruct (dl cv j), j as [|x j]; try exact H.
  destruct (N.eqb x (cv_sep cv)); [exact H|]. apply noalt_cons_sep. exact H.
Qed.

Lemma strip_list_comps cv L :
  concat (map (comps (cv_sep cv)) (strip_list cv L)) = concat (map (comps (cv_sep cv)) L).
Proof.
  destruct L as [|p r]; [reflexivity|]. unfold strip_list.
  rewrite map_app, concat_app, !filter_nonempty_comps. cbn [map concat]. rewrite app_nil_r, comps_rstrip. f_equal.
  induction r as [|q r IH]; [reflexivity|]. cbn [map concat]. rewrite comps_strip, IH. reflexivity.
Qed.

Lemma norm_list_comps cv l :
  concat (map (comps (cv_sep cv)) (norm_list cv l)) = concat (map (pc cv) l).
Proof.
  unfold norm_list. rewrite filter_nonempty_comps.
  induction l as [|p l IH]; [reflexivity|]. simpl. rewrite comps_nps, IH. reflexivity.
Qed.

Lemma noalt_strip_list cv L : Forall (noalt cv) L -> Forall (noalt cv) (strip_list cv L).
Proof.
  intros [|p r Hp Hr]; [constructor|]. unfold strip_list.
  apply Forall_app. split; apply (incl_Forall (incl_filter _ _)).
  - constructor; [|constructor]. exact (noalt_incl cv _ _ (rstrip_incl _ _) Hp).
  - apply Forall_map. revert Hr. apply Forall_impl. intros q. exact (noalt_incl cv _ _ (strip_incl _ _)).
Qed.

Lemma noalt_norm_list cv l : Forall (noalt cv) (norm_list cv l).
Proof.
  unfold norm_list. apply (incl_Forall (incl_filter _ _)), Forall_map, Forall_forall.
  intros p _. apply nps_noalt.
Qed.

Lemma noalt_render cv l : Forall (noalt cv) l -> noalt cv (render cv l).
Proof.
  intros H. unfold render. destruct l; [apply noalt_sep|]. apply noalt_fin, noalt_intercalate, H.
Qed.

Lemma noalt_join cv l : noalt cv (join cv l).
Proof. rewrite join_eq. apply noalt_render, noalt_strip_list, noalt_norm_list. Qed.

Lemma pc_join cv l : pc cv (join cv l) = concat (map (pc cv) l).
Proof.
  rewrite (pc_noalt cv _ (noalt_join cv l)). rewrite join_eq.
  rewrite <- norm_list_comps, <- strip_list_comps. unfold render.
  destruct (strip_list cv _); [apply (comps_cons_sep _ [])|]. rewrite comps_fin. apply comps_intercalate.
Qed.

Lemma strip_list_good cv l : Forall (good (cv_sep cv)) l -> strip_list cv l = l.
Proof.
  intros [|p r [Hp1 Hp2] Hr]; [reflexivity|]. unfold strip_list. rewrite (rstrip_no _ _ Hp2).
  destruct p; [contradiction|]. simpl. f_equal.
  induction Hr as [|q r [Hq1 Hq2] _ IH]; [reflexivity|]. simpl. rewrite (strip_no _ _ Hq2), IH.
  destruct q; [contradiction|reflexivity].
Qed.

Lemma pc_render cv l : Forall (gcomp cv) l -> pc cv (render cv l) = l.
Proof.
  intros H. rewrite (pc_noalt cv _ (noalt_render cv l (gcomp_noalt cv l H))). unfold render.
  destruct l as [|p r]; [apply (comps_cons_sep _ [])|].
  rewrite comps_fin. apply comps_intercalate_good, gcomp_good, H.
Qed.

Lemma norm_list_split_runs cv s : noalt cv s ->
  norm_list cv (split_runs (cv_sep cv) s) = comps (cv_sep cv) s.
Proof.
  intros Hn. pose proof (pc_gcomp cv s) as Hg. rewrite (pc_noalt cv s Hn), <- split_runs_comps in *.
  unfold norm_list. f_equal. rewrite <- (map_id (split_runs _ s)) at 2. apply map_ext_in.
  intros [|x q] Hq; [reflexivity|]. apply nps_gcomp, (proj1 (Forall_forall _ _) Hg), filter_In. auto.
Qed.

Lemma lower_app cv a b : lower cv (a ++ b) = lower cv a ++ lower cv b.
Proof. apply map_app. Qed.

Lemma lower_idem cv (Hf : fold_ok cv) s : lower cv (lower cv s) = lower cv s.
Proof. unfold lower. rewrite map_map. apply map_ext, (fo_idem cv Hf). Qed.

Lemma fold_sep cv (Hf : fold_ok cv) : cv_fold cv (cv_sep cv) = cv_sep cv.
Proof. apply (fo_sep cv Hf). reflexivity. Qed.

Lemma gcomp_lower cv (Hf : fold_ok cv) q : gcomp cv q -> gcomp cv (lower cv q).
Proof.
  intros [[H1 H2] H3]. repeat split.
  - destruct q; [contradiction|discriminate].
  - intros Hin. apply in_map_iff in Hin as [x [Hx Hin]]. apply (proj1 (fo_sep cv Hf _)) in Hx. subst. contradiction.
  - intros a Ha Hne Hin. apply in_map_iff in Hin as [x [Hx Hin]]. apply (proj1 (fo_alt cv Hf a Ha _)) in Hx. subst.
    exact (H3 a Ha Hne Hin).
Qed.

Lemma gcomp_map_lower cv (Hf : fold_ok cv) l : Forall (gcomp cv) l -> Forall (gcomp cv) (map (lower cv) l).
Proof. intros H. apply Forall_map. revert H. apply Forall_impl, gcomp_lower, Hf. Qed.

Lemma rp_lower cv (Hf : fold_ok cv) s : rp cv (lower cv s) = lower cv (rp cv s).
Proof.
  unfold rp. destruct (cv_alt cv) as [a|] eqn:Ea; [|reflexivity].
  unfold replace_char, lower. rewrite !map_map. apply map_ext. intros x.
  rewrite (eqb_exactly_fixed _ a (fo_alt cv Hf a Ea)). destruct (N.eqb x a); [|reflexivity].
  symmetry. apply (fold_sep cv Hf).
Qed.

Lemma pc_lower cv (Hf : fold_ok cv) s : pc cv (lower cv s) = map (lower cv) (pc cv s).
Proof. unfold pc. rewrite rp_lower by exact Hf. apply comps_map. intros x. apply (fo_sep cv Hf). Qed.

(* the test looks at the second character only: folding a prefix does not change it, whatever follows *)
Lemma dl_lower_pre cv (Hf : fold_ok cv) X Y : dl cv (lower cv X ++ Y) = dl cv (X ++ Y).
Proof.
  unfold dl. destruct (cv_win cv) eqn:Ew; [|reflexivity].
  destruct X as [|x [|y X]]; [reflexivity..|]. apply (eqb_exactly_fixed _ 58%N (fo_colon cv Hf Ew)).
Qed.

Lemma dl_lower cv (Hf : fold_ok cv) j : dl cv (lower cv j) = dl cv j.
Proof. rewrite <- (app_nil_r (lower cv j)), (dl_lower_pre cv Hf), app_nil_r. reflexivity. Qed.

Lemma fin_lower cv (Hf : fold_ok cv) j : lower cv (fin cv j) = fin cv (lower cv j).
Proof.
  unfold fin, add_sep. rewrite dl_lower by exact Hf. destruct (dl cv j), j as [|x j]; try reflexivity.
  simpl. rewrite (eqb_exactly_fixed _ _ (fo_sep cv Hf)). destruct (N.eqb x (cv_sep cv)); [reflexivity|].
  simpl. rewrite (fold_sep cv Hf). reflexivity.
Qed.

Lemma lower_intercalate cv (Hf : fold_ok cv) l :
  lower cv (intercalate (cv_sep cv) l) = intercalate (cv_sep cv) (map (lower cv) l).
Proof. unfold lower. rewrite intercalate_map. rewrite (fold_sep cv Hf). reflexivity. Qed.

Lemma lower_render cv (Hf : fold_ok cv) l : lower cv (render cv l) = render cv (map (lower cv) l).
Proof.
  destruct l as [|p l]; [simpl; rewrite (fold_sep cv Hf); reflexivity|].
  unfold render. simpl map at 2. rewrite fin_lower, lower_intercalate by exact Hf. reflexivity.
Qed.

Lemma nps_app_intercalate cv a L : noalt cv a -> Forall (gcomp cv) L -> L <> [] ->
  nps cv (a ++ intercalate (cv_sep cv) L) = a ++ intercalate (cv_sep cv) L.
Proof.
  intros Ha H Hne. destruct (intercalate_good_fix _ L (gcomp_good cv L H) Hne) as [H1 H2].
  apply nps_fix; [apply noalt_app; split; [exact Ha|apply noalt_intercalate, gcomp_noalt, H]|].
  right. apply rstrip_app_fix; assumption.
Qed.

(* the optional leading separator of a rendered list; the drive-letter test reads the whole joined string, also where
   only a part of it is kept (split_render) *)
Definition lead (cv : conv) (L : list str) : str :=
  if dl cv (intercalate (cv_sep cv) L) then [] else [cv_sep cv].

Lemma noalt_lead cv L : noalt cv (lead cv L).
Proof. unfold lead. destruct (dl cv _); [apply noalt_nil|apply noalt_sep]. Qed.

Lemma lower_lead cv (Hf : fold_ok cv) L : lower cv (lead cv L) = lead cv L.
Proof. unfold lead. destruct (dl cv _); [reflexivity|]. simpl. rewrite (fold_sep cv Hf). reflexivity. Qed.

Lemma lead_snoc_lower cv (Hf : fold_ok cv) l b : lead cv (map (lower cv) l ++ [b]) = lead cv (l ++ [b]).
Proof.
  unfold lead. destruct l as [|p l]; [reflexivity|].
  rewrite !intercalate_snoc, <- lower_intercalate, dl_lower_pre by (exact Hf || discriminate). reflexivity.
Qed.

Lemma render_pre cv L : Forall (gcomp cv) L -> render cv L = lead cv L ++ intercalate (cv_sep cv) L.
Proof.
  intros H. destruct L as [|p L]; [unfold lead, dl; cbn; rewrite andb_false_r; reflexivity|].
  apply gcomp_good in H. destruct (intercalate_good_head _ _ H) as [x [j [E Hx]]]; [discriminate|].
  unfold render, lead, fin, add_sep. rewrite E.
  destruct (dl cv _); [reflexivity|]. destruct (N.eqb_spec x (cv_sep cv)); [contradiction|reflexivity].
Qed.

Lemma nps_render cv l : Forall (gcomp cv) l -> nps cv (render cv l) = render cv l.
Proof.
  intros H. destruct l as [|p l]; [apply nps_sep|].
  rewrite render_pre by assumption.
  apply nps_app_intercalate; [apply noalt_lead|exact H|discriminate].
Qed.

Lemma split_nosep cv s : nps cv s = s -> ~ In (cv_sep cv) s -> split cv s = ([], s).
Proof. intros Hn Hs. unfold split. rewrite Hn, (rfind_none _ _ Hs). reflexivity. Qed.

Lemma split_at cv a b : nps cv (a ++ cv_sep cv :: b) = a ++ cv_sep cv :: b -> ~ In (cv_sep cv) b ->
  split cv (a ++ cv_sep cv :: b) = (match a with [] => [cv_sep cv] | _ => a end, b).
Proof.
  intros Hn Hb. unfold split. rewrite Hn, (rfind_last _ a b Hb).
  destruct a as [|x a]; [reflexivity|]. cbn [length].
  rewrite <- (firstn_len_app (x :: a) (cv_sep cv :: b)) at 3. rewrite (skipn_S_len_app (x :: a) b). reflexivity.
Qed.

Lemma split_sep cv : split cv [cv_sep cv] = ([cv_sep cv], []).
Proof. apply (split_at cv [] []); [apply nps_sep|intros []]. Qed.

Lemma split_render cv l b : Forall (gcomp cv) l -> gcomp cv b ->
  split cv (render cv (l ++ [b])) = (lead cv (l ++ [b]) ++ intercalate (cv_sep cv) l, b).
Proof.
  intros Hl Hb.
  assert (Hall : Forall (gcomp cv) (l ++ [b])) by (apply Forall_app; auto).
  pose proof (nps_render cv _ Hall) as Hn. destruct Hb as [[_ Hb] _].
  rewrite (render_pre cv _ Hall) in *.
  destruct l as [|p l].
  - unfold lead in *. cbn [app intercalate] in *. destruct (dl cv b).
    + apply split_nosep; assumption.
    + apply (split_at cv [] b); assumption.
  - destruct (intercalate_good_fix _ _ (gcomp_good cv _ Hl)) as [_ HX]; [discriminate|].
    rewrite intercalate_snoc, app_assoc in * by discriminate. rewrite split_at by assumption.
    destruct (_ ++ intercalate _ (p :: l)) eqn:E; [|reflexivity].
    apply app_eq_nil in E as [_ E]. contradiction.
Qed.

Lemma basename_render cv l b : Forall (gcomp cv) l -> gcomp cv b ->
  basename cv (render cv (l ++ [b])) = b.
Proof. intros Hl Hb. unfold basename. rewrite split_render by assumption. reflexivity. Qed.

Lemma join_pair cv d b : gcomp cv b ->
  join cv [d; b] = render cv (filter nonempty [rstrip (cv_sep cv) (nps cv d)] ++ [b]).
Proof.
  intros Hb. rewrite join_eq. unfold norm_list. cbn [map]. rewrite (nps_gcomp cv b Hb).
  destruct Hb as [[Hb1 Hb2] _]. destruct b as [|y b]; [contradiction|].
  unfold strip_list. destruct (nps cv d) as [|x d']; cbn [filter nonempty map app].
  - rewrite rstrip_no by exact Hb2. reflexivity.
  - rewrite strip_no by exact Hb2. reflexivity.
Qed.

(* join_pair asks the second argument to be a component; this one only asks the first not to normalise to nothing *)
Lemma join_two cv f r : nps cv f <> [] ->
  join cv [f; r] = render cv (filter nonempty [rstrip (cv_sep cv) (nps cv f); strip (cv_sep cv) (nps cv r)]).
Proof.
  intros Hf. rewrite join_eq. unfold norm_list. cbn [map]. destruct (nps cv f) as [|x ff]; [contradiction|].
  unfold strip_list. destruct (nps cv r); cbn [filter nonempty map app].
  - rewrite app_nil_r. reflexivity.
  - destruct (nonempty (rstrip _ _)); reflexivity.
Qed.

(* the directory part of a rendered list, as split_render gives it, joined with the leaf *)
Lemma join_dir_leaf cv l b : Forall (gcomp cv) l -> gcomp cv b ->
  join cv [lead cv (l ++ [b]) ++ intercalate (cv_sep cv) l; b] = render cv (l ++ [b]).
Proof.
  intros Hl Hb. rewrite join_pair by exact Hb. destruct l as [|p l].
  - unfold lead. cbn [intercalate app]. rewrite app_nil_r.
    replace (rstrip (cv_sep cv) (nps cv _)) with (@nil N); [reflexivity|].
    destruct (dl cv b); [reflexivity|]. rewrite nps_sep. symmetry. apply rstrip_single.
  - destruct (intercalate_good_fix _ _ (gcomp_good cv _ Hl)) as [H1 H2]; [discriminate|].
    rewrite nps_app_intercalate, rstrip_app_fix by (assumption || discriminate || apply noalt_lead).
    destruct (_ ++ intercalate _ (p :: l)) as [|y t] eqn:E; [apply app_eq_nil in E as [_ E]; contradiction|].
    cbn [filter nonempty]. rewrite <- E. clear y t E.
    rewrite (render_pre cv ((p :: l) ++ [b])) by (apply Forall_app; auto).
    unfold lead. rewrite intercalate_snoc by discriminate. cbn [app].
    change (render cv [?x; ?y]) with (fin cv (x ++ cv_sep cv :: y)). rewrite <- app_assoc.
    destruct (dl cv _) eqn:E; [unfold fin; cbn [app]; rewrite E; reflexivity|apply fin_sep].
Qed.

(* normalize_path in display mode folds the directory part and keeps the leaf; the optional leading separator is the
   same on both sides (lead_snoc_lower) *)
Lemma display_join cv (Hf : fold_ok cv) l b : Forall (gcomp cv) l -> gcomp cv b ->
  join cv [lower cv (dirname cv (render cv (l ++ [b]))); basename cv (render cv (l ++ [b]))] =
  render cv (map (lower cv) l ++ [b]).
Proof.
  intros Hl Hb. unfold dirname, basename. rewrite split_render by assumption. cbn [fst snd].
  rewrite lower_app, lower_intercalate, lower_lead, <- lead_snoc_lower by assumption.
  apply join_dir_leaf; [apply gcomp_map_lower|]; assumption.
Qed.

Lemma normalize_eq cv p d :
  normalize_path cv p d =
  if cv_cs cv then render cv (pc cv p)
  else if d then join cv [lower cv (dirname cv (render cv (pc cv p))); basename cv (render cv (pc cv p))]
  else lower cv (render cv (pc cv p)).
Proof.
  unfold normalize_path. rewrite join_eq, (norm_list_split_runs cv _ (nps_noalt cv p)), comps_nps.
  rewrite (strip_list_good cv _ (gcomp_good cv _ (pc_gcomp cv p))). reflexivity.
Qed.

Lemma normalize_cs cv p d : cv_cs cv = true -> normalize_path cv p d = render cv (pc cv p).
Proof. intros H. rewrite normalize_eq. rewrite H. reflexivity. Qed.

Lemma normalize_ci cv (Hf : fold_ok cv) p : cv_cs cv = false ->
  normalize_path cv p false = render cv (map (lower cv) (pc cv p)).
Proof. intros H. rewrite normalize_eq. rewrite H. apply lower_render. exact Hf. Qed.

(* display form of a component list: everything but the leaf is folded (the proofs use only disp_snoc and
   [disp cv [] = []], never removelast / last) *)
Definition disp (cv : conv) (l : list str) : list str :=
  match l with [] => [] | _ => map (lower cv) (removelast l) ++ [last l []] end.

Lemma disp_snoc cv l b : disp cv (l ++ [b]) = map (lower cv) l ++ [b].
Proof.
  unfold disp. destruct (l ++ [b]) eqn:E; [destruct l; discriminate|]. rewrite <- E.
  rewrite removelast_last, last_last. reflexivity.
Qed.

Lemma basename_disp cv (Hf : fold_ok cv) l : Forall (gcomp cv) l ->
  basename cv (render cv (disp cv l)) = basename cv (render cv l).
Proof.
  destruct l as [|b l _] using rev_ind; [reflexivity|]. rewrite disp_snoc, Forall_app. intros [Hl Hb].
  inversion Hb as [|b' r Hb' _]; subst. rewrite !basename_render; auto using gcomp_map_lower.
Qed.

Lemma normalize_disp cv (Hf : fold_ok cv) p : cv_cs cv = false ->
  normalize_path cv p true = render cv (disp cv (pc cv p)).
Proof.
  intros Hc. rewrite normalize_eq. rewrite Hc. generalize (pc_gcomp cv p).
  destruct (pc cv p) as [|b l _] using rev_ind; intros Hg.
  - cbn [render disp]. unfold dirname, basename. rewrite split_sep. cbn [fst snd lower map].
    rewrite (fold_sep cv Hf), join_two, nps_sep, rstrip_single; [reflexivity|].
    rewrite nps_sep. discriminate.
  - apply Forall_app in Hg as [Hl Hb]. inversion Hb as [|b' r Hb' _]; subst.
    rewrite disp_snoc. apply (display_join cv Hf l b Hl Hb').
Qed.

Definition key (cv : conv) (d : bool) (l : list str) : list str :=
  if cv_cs cv then l else if d then disp cv l else map (lower cv) l.

Lemma normalize_render cv (Hok : conv_ok cv) p d :
  normalize_path cv p d = render cv (key cv d (pc cv p)).
Proof.
  unfold key. destruct (cv_cs cv) eqn:Hc; [apply normalize_cs; exact Hc|].
  destruct d; [apply normalize_disp|apply normalize_ci]; auto.
Qed.

Lemma gcomp_disp cv (Hf : fold_ok cv) l : Forall (gcomp cv) l -> Forall (gcomp cv) (disp cv l).
Proof.
  destruct l as [|b l _] using rev_ind; [constructor|]. rewrite disp_snoc, !Forall_app.
  intros [Hl Hb]. split; [apply gcomp_map_lower|]; assumption.
Qed.

Lemma gcomp_key cv (Hok : conv_ok cv) d l : Forall (gcomp cv) l -> Forall (gcomp cv) (key cv d l).
Proof.
  intros H. unfold key. destruct (cv_cs cv) eqn:Hc; [exact H|].
  destruct d; [apply gcomp_disp|apply gcomp_map_lower]; auto.
Qed.

Lemma map_lower_idem cv (Hf : fold_ok cv) l : map (lower cv) (map (lower cv) l) = map (lower cv) l.
Proof. rewrite map_map. apply map_ext, lower_idem, Hf. Qed.

Lemma disp_idem cv (Hf : fold_ok cv) l : disp cv (disp cv l) = disp cv l.
Proof.
  destruct l as [|b l _] using rev_ind; [reflexivity|].
  rewrite !disp_snoc. rewrite map_lower_idem by exact Hf. reflexivity.
Qed.

Lemma key_idem cv (Hok : conv_ok cv) d l : key cv d (key cv d l) = key cv d l.
Proof.
  unfold key. destruct (cv_cs cv) eqn:Hc; [reflexivity|].
  destruct d; [apply disp_idem|apply map_lower_idem]; auto.
Qed.

Lemma match_iff_norm cv a b d :
  paths_match cv a b d = true <-> normalize_path cv a d = normalize_path cv b d.
Proof. unfold paths_match. apply str_eqb_eq. Qed.

Lemma match_refl cv a d : paths_match cv a a d = true.
Proof. apply match_iff_norm. reflexivity. Qed.

Lemma match_iff_key cv (Hok : conv_ok cv) a b d :
  paths_match cv a b d = true <-> key cv d (pc cv a) = key cv d (pc cv b).
Proof.
  rewrite match_iff_norm, !(normalize_render cv Hok). split; [|congruence].
  intros E. apply (f_equal (pc cv)) in E.
  rewrite !pc_render in E by (apply gcomp_key; [exact Hok|apply pc_gcomp]). exact E.
Qed.

Lemma lower_disp cv (Hf : fold_ok cv) l : map (lower cv) (disp cv l) = map (lower cv) l.
Proof.
  destruct l as [|b l _] using rev_ind; [reflexivity|].
  rewrite disp_snoc, !map_app, map_lower_idem by exact Hf. reflexivity.
Qed.

Definition cs_twin (cv : conv) : conv :=
  {| cv_sep := cv_sep cv; cv_alt := cv_alt cv; cv_cs := true; cv_win := cv_win cv; cv_fold := cv_fold cv |}.

Lemma basename_cs_twin cv s : basename (cs_twin cv) s = basename cv s.
Proof. reflexivity. Qed.

Definition lowc (cv : conv) (s : str) : str := if cv_cs cv then s else lower cv s.

Lemma lowc_length cv s : length (lowc cv s) = length s.
Proof. unfold lowc. destruct (cv_cs cv); [reflexivity|apply map_length]. Qed.

Lemma lowc_app cv a b : lowc cv (a ++ b) = lowc cv a ++ lowc cv b.
Proof. unfold lowc. destruct (cv_cs cv); [reflexivity|apply lower_app]. Qed.

Lemma lowc_sep_iff cv (Hok : conv_ok cv) s : lowc cv s = [cv_sep cv] <-> s = [cv_sep cv].
Proof.
  unfold lowc. destruct (cv_cs cv) eqn:Hc; [reflexivity|]. pose proof (Hok Hc) as Hf.
  destruct s as [|x [|y s]]; simpl; split; intros H; try discriminate; injection H as H.
  - apply (proj1 (fo_sep cv Hf _)) in H. subst. reflexivity.
  - subst. rewrite (fold_sep cv Hf). reflexivity.
Qed.

Lemma is_subpath_eq cv f t st : f <> [] -> t <> [] ->
  is_subpath cv f t st =
  let ff := nps cv f in
  let tf := nps cv t in
  let fc := lowc cv ff in
  let tc := lowc cv tf in
  if str_eqb fc tc then (if st then NotSub else Rel [cv_sep cv])
  else if (str_eqb fc [cv_sep cv] && str_eqb (firstn 1 tc) [cv_sep cv])%bool then Rel tf
  else if Nat.ltb (length ff) (length tf) then
    match nth_error tf (length ff) with
    | Some y => if N.eqb y (cv_sep cv)
                then (if startswith tc fc then Rel (skipn (length ff) tf) else NotSub)
                else NotSub
    | None => NotSub
    end
  else NotSub.
Proof. intros Hf Ht. destruct f; [contradiction|]. destruct t; [contradiction|]. reflexivity. Qed.

Lemma is_subpath_nil_l cv t st : is_subpath cv [] t st = NotSub.
Proof. reflexivity. Qed.

Lemma is_subpath_nil_r cv f st : is_subpath cv f [] st = NotSub.
Proof. destruct f; reflexivity. Qed.

Lemma is_subpath_args cv f t st : is_subpath cv f t st <> NotSub -> f <> [] /\ t <> [].
Proof. intros H. split; intros ->; apply H; [apply is_subpath_nil_l|apply is_subpath_nil_r]. Qed.

Lemma is_subpath_strict cv f t :
  is_subpath cv f t true =
  if str_eqb (lowc cv (nps cv f)) (lowc cv (nps cv t)) then NotSub else is_subpath cv f t false.
Proof.
  destruct f as [|x f], t as [|y t]; cbn [is_subpath]; destruct (str_eqb _ _); reflexivity.
Qed.

(* what a positive answer says of the two normal forms: the same path; below the root; the folder, a separator, the rest *)
Inductive inside (cv : conv) (st : bool) (ff tf : str) : str -> Prop :=
| in_same : st = false -> lowc cv ff = lowc cv tf -> inside cv st ff tf [cv_sep cv]
| in_root x r : lowc cv ff <> lowc cv tf -> lowc cv ff = [cv_sep cv] -> tf = x :: r -> lowc cv [x] = [cv_sep cv] ->
    inside cv st ff tf tf
| in_below a r : lowc cv ff <> lowc cv tf -> tf = a ++ cv_sep cv :: r ->
    lowc cv a = lowc cv ff -> inside cv st ff tf (cv_sep cv :: r).

Lemma is_subpath_inv cv f t st r : is_subpath cv f t st = Rel r -> inside cv st (nps cv f) (nps cv t) r.
Proof.
  intros H. assert (Hne : is_subpath cv f t st <> NotSub) by (rewrite H; discriminate).
  apply is_subpath_args in Hne as [Hf Ht]. rewrite is_subpath_eq in H by assumption. cbv zeta in H.
  destruct (str_eqb_spec (lowc cv (nps cv f)) (lowc cv (nps cv t))) as [Eq|Eq].
  - destruct st; [discriminate|]. injection H as <-. apply in_same; auto.
  - destruct (andb _ _) eqn:E in H.
    + injection H as <-. apply andb_true_iff in E as [E1 E2]. apply str_eqb_eq in E1, E2.
      destruct (nps cv t) as [|x r'] eqn:Et; [unfold lowc in E2; destruct (cv_cs cv); discriminate|].
      apply (in_root cv st _ _ x r'); auto. unfold lowc in *. destruct (cv_cs cv); exact E2.
    + destruct (Nat.ltb _ _); [|discriminate].
      destruct (nth_error (nps cv t) (length (nps cv f))) as [y|] eqn:En; [|discriminate].
      destruct (N.eqb_spec y (cv_sep cv)) as [->|]; [|discriminate].
      destruct (startswith _ _) eqn:Es; [|discriminate]. injection H as <-.
      apply nth_error_split in En as [a [r' [Et El]]].
      apply startswith_firstn in Es.
      rewrite lowc_length, <- El, Et, lowc_app, <- (lowc_length cv a), firstn_len_app in Es.
      replace (skipn _ _) with (cv_sep cv :: r') by (rewrite <- El, Et, skipn_len_app; reflexivity).
      apply (in_below cv st _ _ a r'); auto.
Qed.

(* the relative part is never the empty string (so Python's truthiness test is exact) *)
Lemma is_subpath_rel_nonempty cv f t st r : is_subpath cv f t st = Rel r -> r <> [].
Proof. intros H. destruct (is_subpath_inv _ _ _ _ _ H) as [| ? ? _ _ -> |]; discriminate. Qed.

(* what is_subpath returns besides the bare separator (is_subpath_rel_shape) *)
Definition relpart (cv : conv) (rel : str) : Prop :=
  exists r', rel = cv_sep cv :: r' /\ r' <> [] /\ noalt cv rel /\ rstrip (cv_sep cv) rel = rel.

Lemma relpart_intro cv x : x <> [] -> noalt cv x -> rstrip (cv_sep cv) x = x -> relpart cv (cv_sep cv :: x).
Proof.
  intros Hx Hn Hs. exists x. repeat split; [exact Hx|apply noalt_cons_sep; exact Hn|].
  apply (rstrip_app_fix _ [_]); assumption.
Qed.

Lemma relpart_nps cv rel : relpart cv rel -> nps cv rel = rel.
Proof. intros [r' [_ [_ [Hna Hrs]]]]. apply nps_fix; [exact Hna|right; exact Hrs]. Qed.

Lemma is_subpath_rel_shape cv (Hok : conv_ok cv) f t st rel :
  is_subpath cv f t st = Rel rel -> rel = [cv_sep cv] \/ relpart cv rel.
Proof.
  intros H. pose proof (nps_noalt cv t) as Hn. pose proof (nps_shape cv t) as Hs.
  destruct (is_subpath_inv _ _ _ _ _ H) as [|x r' Hne E1 Er Ex|a r' _ Et _].
  - left. reflexivity.
  - right. apply (proj1 (lowc_sep_iff cv Hok _)) in Ex. injection Ex as ->. exists r'.
    assert (Hr' : r' <> []) by (intros ->; apply Hne; rewrite E1, Er; symmetry; apply (lowc_sep_iff cv Hok); reflexivity).
    repeat split; try assumption. destruct Hs as [Hs|Hs]; [|exact Hs]. rewrite Er in Hs. injection Hs as ->. contradiction.
  - destruct r' as [|z r'']; [left; reflexivity|right]. exists (z :: r''). rewrite Et in *. apply noalt_app in Hn as [_ Hn].
    repeat split; try assumption; try discriminate. destruct Hs as [Hs|Hs].
    + destruct a as [|? [|]]; discriminate.
    + exact (rstrip_suffix_fix _ _ _ Hs).
Qed.

Lemma is_subpath_app cv (Hok : conv_ok cv) f t y s st :
  f <> [] -> nps cv f <> [cv_sep cv] -> nps cv t = nps cv f ++ y :: s ->
  is_subpath cv f t st = if N.eqb y (cv_sep cv) then Rel (y :: s) else NotSub.
Proof.
  intros Hf Hroot Ht. rewrite is_subpath_eq; [|exact Hf|intros ->; destruct (nps cv f); discriminate]. cbv zeta.
  rewrite Ht, lowc_app.
  destruct (str_eqb_spec (lowc cv (nps cv f)) (lowc cv (nps cv f) ++ lowc cv (y :: s))) as [Eq|_];
    [exfalso; revert Eq; apply app_neq_self; unfold lowc; destruct (cv_cs cv); discriminate|].
  destruct (str_eqb_spec (lowc cv (nps cv f)) [cv_sep cv]) as [Eq|_];
    [destruct Hroot; apply (lowc_sep_iff cv Hok), Eq|].
  cbn [andb]. replace (Nat.ltb _ _) with true
    by (symmetry; apply Nat.ltb_lt; rewrite app_length; apply Nat.lt_add_pos_r, Nat.lt_0_succ).
  rewrite nth_error_mid, startswith_app, skipn_len_app. reflexivity.
Qed.

Lemma is_subpath_sibling cv (Hok : conv_ok cv) f c s st :
  nps cv f <> [cv_sep cv] -> c <> cv_sep cv -> noalt cv [c] ->
  is_subpath cv f (nps cv f ++ c :: s) st = NotSub.
Proof.
  intros Hroot Hc Hcn. destruct f as [|x0 f0]; [reflexivity|].
  assert (Hk : rstrip (cv_sep cv) (rp cv (c :: s)) = c :: rstrip (cv_sep cv) (rp cv s))
    by (change (c :: s) with ([c] ++ s); rewrite rp_app, (rp_noalt cv _ Hcn); apply rstrip_head, Hc).
  rewrite (is_subpath_app cv Hok _ _ c (rstrip (cv_sep cv) (rp cv s)) st); [|discriminate|exact Hroot|].
  - destruct (N.eqb_spec c (cv_sep cv)); [contradiction|reflexivity].
  - rewrite nps_app_keep, Hk; [reflexivity|apply nps_noalt|rewrite Hk; discriminate].
Qed.

Lemma is_subpath_under cv (Hok : conv_ok cv) f rel st :
  f <> [] -> nps cv f <> [cv_sep cv] -> relpart cv rel ->
  is_subpath cv f (nps cv f ++ rel) st = Rel rel.
Proof.
  intros Hf Hroot [r' [-> [_ [Hna Hrs]]]]. rewrite (is_subpath_app cv Hok f _ (cv_sep cv) r' st Hf Hroot), N.eqb_refl; [reflexivity|].
  apply nps_fix; [apply noalt_app; split; [apply nps_noalt|exact Hna]|]. right. apply rstrip_app_fix; [discriminate|exact Hrs].
Qed.

Lemma is_subpath_root cv (Hok : conv_ok cv) f rel st :
  nps cv f = [cv_sep cv] -> relpart cv rel -> is_subpath cv f rel st = Rel rel.
Proof.
  intros Hroot Hrel. pose proof (relpart_nps cv rel Hrel) as Hn. destruct Hrel as [r' [-> [Hr _]]].
  rewrite is_subpath_eq; [|intros ->; discriminate|discriminate]. cbv zeta.
  rewrite Hroot, Hn. change (cv_sep cv :: r') with ([cv_sep cv] ++ r').
  rewrite lowc_app, (proj2 (lowc_sep_iff cv Hok _) eq_refl).
  destruct (str_eqb_spec [cv_sep cv] ([cv_sep cv] ++ lowc cv r')) as [Eq|_].
  { exfalso. revert Eq. apply app_neq_self. intros E. apply (f_equal (@length N)) in E. rewrite lowc_length in E.
    destruct r'; [contradiction|discriminate]. }
  cbn [firstn app]. rewrite !str_eqb_refl. reflexivity.
Qed.

Lemma relpart_cons_sep cv rel : relpart cv rel -> relpart cv (cv_sep cv :: rel).
Proof.
  intros [r' [E [_ [Hna Hrs]]]]. apply relpart_intro; [subst rel; discriminate|exact Hna|exact Hrs].
Qed.

Lemma is_subpath_self cv f : nps cv f <> [] -> is_subpath cv f (nps cv f) false = Rel [cv_sep cv].
Proof.
  intros Hn. rewrite is_subpath_eq by (assumption || intros ->; apply Hn; reflexivity). cbv zeta. rewrite nps_idem, str_eqb_refl. reflexivity.
Qed.

(* the relative part is never empty, so the test on it only asks whether there is one *)
Lemma replace_path_eq cv p f t :
  replace_path cv p f t =
  match is_subpath cv f p false with
  | NotSub => RepValueError
  | Rel r => RepOk (nps cv t ++ (if str_eqb r [cv_sep cv] then [] else r))
  end.
Proof.
  unfold replace_path. destruct (is_subpath cv f p false) as [|[|x r]] eqn:H; try reflexivity.
  apply is_subpath_rel_nonempty in H. contradiction.
Qed.

Lemma replace_lands cv (Hok : conv_ok cv) f p t rel out :
  is_subpath cv f p false = Rel rel -> rel <> [cv_sep cv] -> t <> [] ->
  replace_path cv p f t = RepOk out ->
  is_subpath cv t out false = Rel (if str_eqb (nps cv t) [cv_sep cv] then cv_sep cv :: rel else rel).
Proof.
  intros H Hrel Ht Hrep. rewrite replace_path_eq, H in Hrep. injection Hrep as <-.
  destruct (str_eqb_spec rel [cv_sep cv]) as [E|_]; [contradiction|].
  destruct (is_subpath_rel_shape cv Hok _ _ _ _ H) as [E|Hs]; [contradiction|].
  destruct (str_eqb_spec (nps cv t) [cv_sep cv]) as [Hroot|Hroot].
  - rewrite Hroot. apply is_subpath_root, relpart_cons_sep; assumption.
  - apply is_subpath_under; assumption.
Qed.

Definition abs_path (cv : conv) (f : str) : Prop := exists g, nps cv f = cv_sep cv :: g.

(* join of an absolute folder and one more argument, by what is left of the argument and by the folder being the root *)
Lemma join_abs cv f r : abs_path cv f ->
  join cv [f; r] =
  match strip (cv_sep cv) (nps cv r) with
  | [] => nps cv f
  | r' => if str_eqb (nps cv f) [cv_sep cv] then fin cv r' else nps cv f ++ cv_sep cv :: r'
  end.
Proof.
  intros [g Hg]. rewrite join_two, Hg by (rewrite Hg; discriminate).
  destruct (nps_shape cv f) as [Hs|Hs]; rewrite Hg in Hs.
  - injection Hs as ->. rewrite rstrip_single, str_eqb_refl. destruct (strip _ _); reflexivity.
  - rewrite Hs. destruct (str_eqb_spec (cv_sep cv :: g) [cv_sep cv]) as [E|_].
    { rewrite E, rstrip_single in Hs. discriminate. }
    destruct (strip _ _); apply fin_sep.
Qed.

Lemma relpart_of_strip cv r : strip (cv_sep cv) (nps cv r) <> [] ->
  relpart cv (cv_sep cv :: strip (cv_sep cv) (nps cv r)).
Proof.
  intros Hr. apply relpart_intro; [exact Hr| |apply rstrip_idem].
  eapply noalt_incl; [apply strip_incl|apply nps_noalt].
Qed.

Lemma join_inside_eq cv (Hok : conv_ok cv) f r st :
  abs_path cv f -> strip (cv_sep cv) (nps cv r) <> [] -> dl cv (join cv [f; r]) = false ->
  is_subpath cv f (join cv [f; r]) st = Rel (cv_sep cv :: strip (cv_sep cv) (nps cv r)).
Proof.
  intros Ha Hr Hdl. pose proof (relpart_of_strip cv r Hr) as Hrel.
  pose proof (strip_head_ne (cv_sep cv) (nps cv r)) as Hh.
  rewrite (join_abs cv f r Ha) in *. destruct (strip _ _) as [|x r'] eqn:Er; [contradiction|].
  destruct (str_eqb_spec (nps cv f) [cv_sep cv]) as [Hroot|Hroot].
  - unfold fin in *. destruct (dl cv (x :: r')) eqn:Ed; [congruence|]. unfold add_sep.
    destruct (N.eqb_spec x (cv_sep cv)) as [E|_]; [destruct (Hh _ _ eq_refl E)|]. apply is_subpath_root; assumption.
  - apply is_subpath_under; try assumption. intros ->. destruct Ha as [g Hg]. discriminate.
Qed.

Lemma pc_sep_strip cv r : pc cv (cv_sep cv :: strip (cv_sep cv) (nps cv r)) = pc cv r.
Proof.
  rewrite pc_cons_sep, pc_noalt, comps_strip; [apply comps_nps|].
  eapply noalt_incl; [apply strip_incl|apply nps_noalt].
Qed.

(* also for a blank relative part *)
Lemma join_lands cv (Hok : conv_ok cv) f r :
  abs_path cv f -> dl cv (join cv [f; r]) = false ->
  exists rel, is_subpath cv f (join cv [f; r]) false = Rel rel /\ pc cv rel = pc cv r.
Proof.
  intros Ha Hdl. destruct (strip (cv_sep cv) (nps cv r)) eqn:Es.
  - exists [cv_sep cv]. rewrite (join_abs cv f r Ha), Es, pc_sep, <- comps_nps, <- comps_strip, Es.
    destruct Ha as [g Hg]. split; [|reflexivity].
    apply is_subpath_self. rewrite Hg. discriminate.
  - eexists. split; [apply join_inside_eq; try assumption; rewrite Es; discriminate|]. apply pc_sep_strip.
Qed.

Lemma pc_split cv p : pc cv (dirname cv p) ++ pc cv (basename cv p) = pc cv p.
Proof.
  unfold dirname, basename.
  replace (split cv p) with (split cv (nps cv p)) by (unfold split; rewrite nps_idem; reflexivity).
  rewrite <- (pc_nps cv p). pose proof (nps_idem cv p) as Hn.
  destruct (in_dec N.eq_dec (cv_sep cv) (nps cv p)) as [Hin|Hnin].
  - destruct (last_occurrence _ _ Hin) as [a [b [E Hb]]]. rewrite E in *.
    rewrite split_at, pc_app_sep by assumption. cbn [fst snd]. destruct a; [rewrite pc_sep, pc_nil|]; reflexivity.
  - rewrite split_nosep by assumption. cbn [fst snd]. rewrite pc_nil. reflexivity.
Qed.

Definition lowk (cv : conv) (l : list str) : list str := if cv_cs cv then l else map (lower cv) l.

(* lowk is [key _ false] by conversion; C13_subpath_components and StateGuardModel.Kc are stated with lowk, the match
   laws with key.  lowk_app below has no counterpart for the display key (the leaf of a ++ b is not the leaf of a). *)
Lemma lowk_key cv l : lowk cv l = key cv false l.
Proof. reflexivity. Qed.

Lemma lowk_app cv a b : lowk cv (a ++ b) = lowk cv a ++ lowk cv b.
Proof. unfold lowk. destruct (cv_cs cv); [reflexivity|apply map_app]. Qed.

Lemma lowk_pc_lowc cv (Hok : conv_ok cv) a b : lowc cv a = lowc cv b -> lowk cv (pc cv a) = lowk cv (pc cv b).
Proof.
  unfold lowc, lowk. destruct (cv_cs cv) eqn:Hc; [congruence|]. intros H.
  rewrite <- !(pc_lower cv (Hok Hc)). rewrite H. reflexivity.
Qed.

Lemma is_subpath_components cv (Hok : conv_ok cv) f p st r :
  is_subpath cv f p st = Rel r ->
  lowk cv (pc cv p) = lowk cv (pc cv f) ++ lowk cv (pc cv r).
Proof.
  intros H. rewrite <- (pc_nps cv p), <- (pc_nps cv f).
  destruct (is_subpath_inv _ _ _ _ _ H) as [_ E|x r' _ E _ _|a r' _ Et Ea].
  - rewrite pc_sep, <- lowk_app, app_nil_r. symmetry. apply lowk_pc_lowc; assumption.
  - apply (proj1 (lowc_sep_iff cv Hok _)) in E. rewrite E, pc_sep, <- lowk_app. reflexivity.
  - rewrite Et, pc_app_sep, pc_cons_sep, lowk_app, (lowk_pc_lowc cv Hok _ _ Ea). reflexivity.
Qed.

(* a path given to translate is valid on side [negb side], the answer on [side] *)
Definition cv_of (cv0 cv1 : conv) (side : bool) : conv := if side then cv1 else cv0.
Definition root_of (r0 r1 : str) (side : bool) : str := if side then r1 else r0.

Lemma translate_eq cv0 cv1 r0 r1 side p :
  translate cv0 cv1 r0 r1 side p =
  match is_subpath (cv_of cv0 cv1 (negb side)) (root_of r0 r1 (negb side)) p false with
  | NotSub => None
  | Rel r => Some (join (cv_of cv0 cv1 side) [root_of r0 r1 side; r])
  end.
Proof.
  unfold translate. destruct side; cbn [negb cv_of root_of];
    (destruct (is_subpath _ _ p false) as [|[|x r]] eqn:H; try reflexivity);
    apply is_subpath_rel_nonempty in H; contradiction.
Qed.

Theorem translate_outside cv0 cv1 r0 r1 side p :
  is_subpath (cv_of cv0 cv1 (negb side)) (root_of r0 r1 (negb side)) p false = NotSub <->
  translate cv0 cv1 r0 r1 side p = None.
Proof. rewrite translate_eq. destruct (is_subpath _ _ p false); split; congruence. Qed.

Definition same_syntax (a b : conv) : Prop := cv_sep a = cv_sep b /\ cv_alt a = cv_alt b.

Lemma pc_syn a b s : same_syntax a b -> pc a s = pc b s.
Proof. intros [H1 H2]. unfold pc, rp. rewrite H1, H2. reflexivity. Qed.

Lemma abs_syn a b s : same_syntax a b -> abs_path a s -> abs_path b s.
Proof. intros [H1 H2] [g Hg]. exists g. unfold nps in *. rewrite <- H1, <- H2. exact Hg. Qed.

Lemma dl_nowin cv j : cv_win cv = false -> dl cv j = false.
Proof. intros H. unfold dl. rewrite H. reflexivity. Qed.

(* what comes back: a path inside rf, carried to rt and back again, matches itself *)
Lemma join_roundtrip cf ct (Hokf : conv_ok cf) (Hokt : conv_ok ct) rf rt p r :
  same_syntax cf ct -> abs_path ct rt -> is_subpath cf rf p false = Rel r -> dl ct (join ct [rt; r]) = false ->
  exists r2, is_subpath ct rt (join ct [rt; r]) false = Rel r2 /\ paths_match cf (join cf [rf; r2]) p false = true.
Proof.
  intros Hsyn Hat Hr Hdl. destruct (join_lands ct Hokt rt r Hat Hdl) as [r2 [Hback Hpc]].
  exists r2. split; [exact Hback|]. apply match_iff_key; [exact Hokf|]. rewrite <- !lowk_key.
  rewrite (is_subpath_components cf Hokf _ _ _ _ Hr), pc_join. cbn [map concat].
  rewrite app_nil_r, lowk_app, (pc_syn cf ct r2 Hsyn), Hpc, (pc_syn cf ct r Hsyn). reflexivity.
Qed.

Definition cv_std (cs win : bool) : conv :=
  {| cv_sep := 47; cv_alt := Some 92%N; cv_cs := cs; cv_win := win; cv_fold := fold_std |}.

(* a folded letter lies above 'Z' and outside both ranges of capitals; the three special characters lie below 'A'
   or between 'Z' and 'a' *)
Lemma fold_std_low k : (k < 65 \/ 90 < k < 97)%N -> forall c, fold_std c = k <-> c = k.
Proof. intros Hk c. destruct (fold_std_cases c) as [E|[E H]]; rewrite E; [reflexivity|lia]. Qed.

Lemma fold_std_ok cs win : fold_ok (cv_std cs win).
Proof.
  constructor; cbn [cv_fold cv_sep cv_alt cv_win cv_std].
  - intros c. destruct (fold_std_cases c) as [E|[E H]]; rewrite E; [exact E|].
    destruct (fold_std_cases (c + 32)) as [E2|[_ H2]]; [exact E2|lia].
  - apply fold_std_low. left. reflexivity.
  - intros a Ha. injection Ha as <-. apply fold_std_low. right. split; reflexivity.
  - intros _. apply fold_std_low. left. reflexivity.
Qed.

Lemma cv_std_ok cs win : conv_ok (cv_std cs win).
Proof. intros _. apply fold_std_ok. Qed.

Lemma conv_ok_cs cv : cv_cs cv = true -> conv_ok cv.
Proof. intros Hc H. congruence. Qed.

(* Canonical paths: the strings [render cv l], for a convention without drive letters.  There (and only there: nps, join
   and is_subpath leave "a//b" alone) the helpers are list operations: render of an append is an append of strings,
   is_subpath is "prefix", join is "append", translate swaps the root. *)
Section Canon.
  Variable cv : conv.
  Hypothesis Hw : cv_win cv = false.
  Hypothesis Hok : conv_ok cv.

  (* the relative string of a component list: "/x/y", and "" for no component *)
  Definition crel (m : list str) : str := flat_map (cons (cv_sep cv)) m.

  Lemma crel_intercalate m : crel m = match m with [] => [] | _ => cv_sep cv :: intercalate (cv_sep cv) m end.
  Proof. destruct m as [|p m]; [reflexivity|]. rewrite intercalate_flat. reflexivity. Qed.

  Lemma render_crel l : Forall (gcomp cv) l -> render cv l = match l with [] => [cv_sep cv] | _ => crel l end.
  Proof.
    intros H. destruct l as [|p l]; [reflexivity|].
    rewrite render_pre by assumption. unfold lead. rewrite dl_nowin, crel_intercalate by exact Hw. reflexivity.
  Qed.

  Lemma render_root l : Forall (gcomp cv) l -> render cv l = [cv_sep cv] -> l = [].
  Proof.
    intros H. rewrite (render_crel l H). destruct l as [|p l]; [reflexivity|]. intros E.
    destruct p; [|destruct l; discriminate]. inversion H as [|? ? [[Hp _] _] _]. contradiction.
  Qed.

  Lemma relpart_crel m : Forall (gcomp cv) m -> m <> [] -> relpart cv (crel m).
  Proof.
    intros H Hne. destruct (intercalate_good_fix _ m (gcomp_good cv m H) Hne) as [H1 H2].
    rewrite crel_intercalate. destruct m; [contradiction|].
    apply relpart_intro; [exact H2|apply noalt_intercalate, gcomp_noalt, H|exact H1].
  Qed.

  Lemma render_app l m : Forall (gcomp cv) l -> Forall (gcomp cv) m -> l <> [] ->
    render cv (l ++ m) = render cv l ++ crel m.
  Proof.
    intros Hl Hm Hne. rewrite !render_crel by (try apply Forall_app; auto).
    destruct l; [contradiction|]. apply flat_map_app.
  Qed.

  Lemma is_subpath_render l m st : Forall (gcomp cv) l -> Forall (gcomp cv) m -> m <> [] ->
    is_subpath cv (render cv l) (render cv (l ++ m)) st = Rel (crel m).
  Proof.
    intros Hl Hm Hne. pose proof (relpart_crel m Hm Hne) as Hr. destruct l as [|p l].
    - cbn [app]. rewrite (render_crel m Hm). destruct m; [contradiction|].
      apply is_subpath_root; [exact Hok|apply nps_sep|exact Hr].
    - rewrite render_app by (auto; discriminate). rewrite <- (nps_render cv _ Hl) at 2.
      apply is_subpath_under; auto.
      + rewrite (render_crel _ Hl). discriminate.
      + rewrite (nps_render cv _ Hl). intros E. apply render_root in E; [discriminate|exact Hl].
  Qed.

  Lemma strip_crel m : Forall (gcomp cv) m -> strip (cv_sep cv) (nps cv (crel m)) = intercalate (cv_sep cv) m.
  Proof.
    intros H. destruct m as [|p m]; [reflexivity|].
    rewrite relpart_nps by (apply relpart_crel; [exact H|discriminate]). rewrite crel_intercalate.
    destruct (intercalate_good_head _ _ (gcomp_good cv _ H)) as [x [j [Ej Hx]]]; [discriminate|].
    destruct (intercalate_good_fix _ _ (gcomp_good cv _ H)) as [Hf _]; [discriminate|].
    unfold strip. cbn [lstrip]. rewrite N.eqb_refl, Ej. cbn [lstrip].
    destruct (N.eqb_spec x (cv_sep cv)); [contradiction|]. rewrite <- Ej. exact Hf.
  Qed.

  Lemma join_render l m : Forall (gcomp cv) l -> Forall (gcomp cv) m ->
    join cv [render cv l; crel m] = render cv (l ++ m).
  Proof.
    intros Hl Hm. pose proof (render_crel l Hl) as Hc.
    rewrite join_abs, (nps_render cv l Hl), (strip_crel m Hm)
      by (unfold abs_path; rewrite (nps_render cv l Hl), Hc; destruct l; [exists []|eexists]; reflexivity).
    destruct m as [|q m]; [rewrite app_nil_r; reflexivity|].
    destruct (intercalate_good_head _ _ (gcomp_good cv _ Hm)) as [x [j [Ej _]]]; [discriminate|]. rewrite Ej, <- Ej.
    destruct (str_eqb_spec (render cv l) [cv_sep cv]) as [E|E].
    - apply (render_root l Hl) in E. subst l. reflexivity.
    - destruct l as [|p l]; [destruct E; reflexivity|].
      rewrite render_app, (crel_intercalate (q :: m)) by (auto; discriminate). reflexivity.
  Qed.
End Canon.

Lemma translate_render cv (Hw : cv_win cv = false) (Hok : conv_ok cv) r0 r1 side m :
  Forall (gcomp cv) r0 -> Forall (gcomp cv) r1 -> Forall (gcomp cv) m -> m <> [] ->
  translate cv cv (render cv r0) (render cv r1) side (render cv ((if side then r0 else r1) ++ m)) =
  Some (render cv ((if side then r1 else r0) ++ m)).
Proof.
  intros H0 H1 Hm Hne. rewrite translate_eq. unfold cv_of, root_of.
  destruct side; cbn [negb]; rewrite is_subpath_render, join_render by assumption; reflexivity.
Qed.
