(* PropC16.v — property theorems for C16 (offline providers honour the provider contract).
   All statements are about ProvModel.v, the model tied to MockProvider by harness/checks/c16.py. *)
From Coq Require Import NArith List Bool Arith.
From CS Require Import Sx Str ProvModel ProvProofs ProvBounded ProvWf ProvMove ProvRename ProvSubtree ProvSpecified.
Import ListNotations.

Definition n_a : name := [97%N].   Definition n_A : name := [65%N].   Definition n_b : name := [98%N].
Definition n_c : name := [99%N].
Definition cfg_of (oidpath cs : bool) : cfg := {| c_oidpath := oidpath; c_cs := cs; c_forbidden := [] |}.

(* object ids: for EVERY call sequence and every flavour, heap cell r (one MockFSObject) has
   oid = KId r for id-style (so it never changes, whatever is renamed) and oid = its path for path-style *)
Theorem C16_oid_invariant : forall c ops r x,
  nth_error (p_heap (fst (run_ops (init c) ops))) r = Some x ->
  o_oid x = if c_oidpath (p_cfg (fst (run_ops (init c) ops))) then KPath (o_path x) else KId (N.of_nat r).
Proof. intros c ops. apply (run_ops_inv oid_inv oid_inv_step), oid_inv_init. Qed.
Print Assumptions C16_oid_invariant.

Theorem C16_cfg_constant : forall s o, p_cfg (fst (step s o)) = p_cfg s.
Proof. intros s o. apply (P_step (fun s' => p_cfg s' = p_cfg s)); intros; simpl; auto. Qed.
Print Assumptions C16_cfg_constant.

Theorem C16_info_exists_agree : forall s,
  (forall p, (exists i, info_path s p = Some i) <-> exists_path s p = true) /\
  (forall k, (exists i, info_oid s k = Some i) <-> exists_oid s k = true) /\
  (forall p i, info_path s p = Some i -> info_oid s (pkey s p) = Some i) /\
  (forall k, hash_oid s k = match info_oid s k with Some i => i_data i | None => None end) /\
  (forall k d, download s k = Ok d <-> exists i, info_oid s k = Some i /\ i_data i = Some d).
Proof.
  intros s.
  assert (E : forall k, (exists i, info_oid s k = Some i) <-> exists_oid s k = true).
  { intros k. unfold info_oid, exists_oid. destruct (get_live s k) as [[r o]|]; split; intros H; try discriminate; eauto.
    destruct H; discriminate. }
  split; [intros p; apply E|]. split; [exact E|]. split; [intros p i H; exact H|].
  split; [exact (hash_oid_info s)|exact (download_info s)].
Qed.
Print Assumptions C16_info_exists_agree.

(* listdir of a live folder = exactly the live objects filed under a path key whose path is a child *)
Theorem C16_listdir_exact : forall s k l, listdir s k = Ok l ->
  exists r o, get_live s k = Some (r, o) /\ o_kind o = KDir /\
  forall i, In i l <-> exists q x, In q (fs_refs s) /\ nth_error (p_heap s) q = Some x /\
                                   o_exists x = true /\ is_child (p_cfg s) (o_path o) (o_path x) = true /\ i = info_of x.
Proof. exact listdir_spec. Qed.
Print Assumptions C16_listdir_exact.

(* error classes: which precondition gives which error; failing calls leave the state alone *)
Theorem C16_error_create : forall s p d,
  (has_forbidden (p_cfg s) p = true -> create s p d = (s, Err ENameError)) /\
  (forall i, has_forbidden (p_cfg s) p = false -> info_path s p = Some i -> create s p d = (s, Err EExists)) /\
  (forall e, has_forbidden (p_cfg s) p = false -> info_path s p = None -> verify_parent s p = Some e ->
             create s p d = (s, Err e)).
Proof.
  intros s p d. unfold create. split; [|split].
  - intros ->. reflexivity.
  - intros i -> ->. reflexivity.
  - intros e -> -> ->. reflexivity.
Qed.
Print Assumptions C16_error_create.

Theorem C16_error_parent : forall s p a b,
  (info_path s (removelast (a :: b :: p)) = None -> verify_parent s (a :: b :: p) = Some ENotFound) /\
  (forall i, info_path s (removelast (a :: b :: p)) = Some i -> i_kind i = KFile ->
             verify_parent s (a :: b :: p) = Some EExists).
Proof.
  intros s p a b. unfold verify_parent. split.
  - intros ->. reflexivity.
  - intros i -> ->. reflexivity.
Qed.
Print Assumptions C16_error_parent.

Theorem C16_error_mkdir : forall s p,
  (forall e, verify_parent s p = Some e -> mkdir s p = (s, Err e)) /\
  (forall i, verify_parent s p = None -> has_forbidden (p_cfg s) p = false -> info_path s p = Some i ->
             i_kind i = KFile -> mkdir s p = (s, Err EExists)) /\
  (forall i, verify_parent s p = None -> has_forbidden (p_cfg s) p = false -> info_path s p = Some i ->
             i_kind i = KDir -> mkdir s p = (s, Ok (i_oid i))).
Proof.
  intros s p. unfold mkdir. split; [|split].
  - intros e ->. reflexivity.
  - intros i -> -> -> ->. reflexivity.
  - intros i -> -> -> ->. reflexivity.
Qed.
Print Assumptions C16_error_mkdir.

Theorem C16_error_missing_oid : forall s k, get_live s k = None ->
  delete s k = (s, Ok tt) /\ (forall d, upload s k d = (s, Err ENotFound)) /\ download s k = Err ENotFound /\
  listdir s k = Err ENotFound /\ (forall p, rename s k p = (s, Err ENotFound)) /\ info_oid s k = None.
Proof.
  intros s k H. unfold delete, upload, download, listdir, rename, info_oid. rewrite H. repeat split.
Qed.
Print Assumptions C16_error_missing_oid.

Theorem C16_error_delete_not_empty : forall s k r o i l, get_live s k = Some (r, o) -> o_kind o = KDir ->
  listdir s (o_oid o) = Ok (i :: l) -> delete s k = (s, Err ENotEmpty) /\ err_class ENotEmpty = CExists.
Proof. intros s k r o i l H1 H2 H3. unfold delete. rewrite H1, H2, H3. auto. Qed.
Print Assumptions C16_error_delete_not_empty.

Theorem C16_error_upload_folder : forall s k d r o, get_live s k = Some (r, o) -> o_kind o = KDir ->
  upload s k d = (s, Err EExists).
Proof. intros s k d r o H1 H2. unfold upload. rewrite H1, H2. reflexivity. Qed.
Print Assumptions C16_error_upload_folder.

Theorem C16_error_rename : forall s k p r o, get_live s k = Some (r, o) ->
  (forall e, verify_parent s p = Some e -> rename s k p = (s, Err e)) /\
  (forall x, verify_parent s p = None -> conflict_at s k p = Some x -> okind_eqb (o_kind x) (o_kind o) = false ->
             rename s k p = (s, Err EExists)) /\
  (forall x, verify_parent s p = None -> conflict_at s k p = Some x -> o_kind x = KFile -> o_kind o = KFile ->
             rename s k p = (s, Err EExists)) /\
  (forall x i l, verify_parent s p = None -> conflict_at s k p = Some x -> o_kind x = KDir -> o_kind o = KDir ->
             listdir s (o_oid x) = Ok (i :: l) -> rename s k p = (s, Err ENotEmpty)).
Proof.
  intros s k p r o H. unfold rename, conflict_at. rewrite H. split; [|split; [|split]].
  - intros e ->. reflexivity.
  - intros x -> -> ->. reflexivity.
  - intros x -> -> -> ->. reflexivity.
  - intros x i l -> -> -> ->. simpl. intros ->. reflexivity.
Qed.
Print Assumptions C16_error_rename.

Theorem C16_hash_law : forall (hash : Type) (H : N -> hash) s k i d,
  info_oid s k = Some i -> download s k = Ok d ->
  info_hash hash H i = Some (H d) /\ option_map H (hash_oid s k) = Some (H d).
Proof.
  intros hash H s k i d A B. split; [exact (hash_law hash H s k i d A B)|].
  apply download_info in B as [i' [Hi Hd]]. rewrite hash_oid_info, Hi, Hd. reflexivity.
Qed.
Print Assumptions C16_hash_law.

Theorem C16_hash_equal_iff_bytes_equal : forall (hash : Type) (H : N -> hash),
  (forall a b, H a = H b -> a = b) ->
  forall s1 s2 k1 k2 i1 i2 d1 d2,
  info_oid s1 k1 = Some i1 -> download s1 k1 = Ok d1 -> info_oid s2 k2 = Some i2 -> download s2 k2 = Ok d2 ->
  (info_hash hash H i1 = info_hash hash H i2 <-> d1 = d2).
Proof.
  intros hash H H_inj s1 s2 k1 k2 i1 i2 d1 d2 A1 B1 A2 B2.
  rewrite (hash_law _ _ _ _ _ _ A1 B1), (hash_law _ _ _ _ _ _ A2 B2). split.
  - intros E. inversion E. apply H_inj. assumption.
  - intros ->. reflexivity.
Qed.
Print Assumptions C16_hash_equal_iff_bytes_equal.

Theorem C16_events_log_append_only : forall s o,
  p_log (fst (step s o)) = p_log s ++ skipn (length (p_log s)) (p_log (fst (step s o))).
Proof.
  intros s o. destruct (log_append_only s o) as [l Hl]. rewrite Hl at 2.
  rewrite skipn_app, skipn_all, Nat.sub_diag. exact Hl.
Qed.
Print Assumptions C16_events_log_append_only.

Theorem C16_events_cursor : forall s, p_cursor s <= length (p_log s) ->
  snd (read_events s) = skipn (p_cursor s) (p_log s) /\
  p_cursor (fst (read_events s)) = length (p_log s) /\
  p_log (fst (read_events s)) = p_log s /\
  firstn (p_cursor s) (p_log s) ++ snd (read_events s) = p_log s /\
  snd (read_events (fst (read_events s))) = [].
Proof.
  intros s H. unfold read_events, events_from.
  apply Nat.leb_le in H. rewrite H. simpl. rewrite Nat.leb_refl. simpl.
  repeat split; auto. - apply firstn_skipn. - apply skipn_all.
Qed.
Print Assumptions C16_events_cursor.

Theorem C16_events_complete_create : forall s p d s' i, create s p d = (s', Ok i) ->
  exists e, p_log s' = p_log s ++ [e] /\ e_kind e = EvCreate /\ e_oid e = i_oid i /\ e_path e = p /\
            i_path i = p /\ e_exists e = true /\ i_data i = Some d.
Proof.
  intros s p d s' i H. destruct (create_cases s p d) as [[e [E _]]|(_ & _ & E)]; rewrite E in H; [discriminate|].
  inversion H; subst; clear H. simpl.
  eexists; repeat split; reflexivity.
Qed.
Print Assumptions C16_events_complete_create.

Theorem C16_events_complete_mkdir : forall s p s' k, mkdir s p = (s', Ok k) ->
  (s' = s /\ exists i, info_path s p = Some i /\ i_kind i = KDir /\ i_oid i = k) \/
  exists e, p_log s' = p_log s ++ [e] /\ e_kind e = EvCreate /\ e_oid e = k /\ e_path e = p /\ e_exists e = true.
Proof.
  intros s p s' k H. destruct (mkdir_cases s p) as [[e [E _]]|[(i & I & K & E)|(_ & _ & E)]]; rewrite E in H.
  - discriminate.
  - inversion H; subst. left. split; [reflexivity|]. eauto.
  - inversion H; subst; clear H. right. simpl. eexists; repeat split; reflexivity.
Qed.
Print Assumptions C16_events_complete_mkdir.

Theorem C16_events_complete_upload : forall s k d s' i, upload s k d = (s', Ok i) ->
  exists e, p_log s' = p_log s ++ [e] /\ e_kind e = EvUpdate /\ e_oid e = i_oid i /\ e_exists e = true /\
            i_data i = Some d.
Proof.
  intros s k d s' i. unfold upload. destruct (get_live s k) as [[r o]|] eqn:E; [|discriminate].
  destruct (o_kind o) eqn:K; [|discriminate]. intros H; inversion H; subst; clear H. simpl.
  eexists; repeat split; try reflexivity.
  - apply get_live_spec in E as [_ [_ X]]. exact X.
  - unfold info_of. simpl. rewrite K. reflexivity.
Qed.
Print Assumptions C16_events_complete_upload.

Theorem C16_events_complete_delete : forall s k s', delete s k = (s', Ok tt) ->
  (s' = s /\ get_live s k = None) \/
  exists r o e, get_live s k = Some (r, o) /\ p_log s' = p_log s ++ [e] /\ e_kind e = EvDelete /\
                e_oid e = o_oid o /\ e_exists e = false /\
                nth_error (p_heap s') r = Some (set_exists o false).
Proof. exact delete_event. Qed.
Print Assumptions C16_events_complete_delete.

Theorem C16_events_complete_rename : forall s k p s' k', rename s k p = (s', Ok k') ->
  (k' = k /\ (p_log s' = p_log s \/ exists e, p_log s' = p_log s ++ [e] /\ e_kind e = EvDelete /\ e_exists e = false)) \/
  exists l e r o', p_log s' = p_log s ++ l ++ [e] /\ length l <= 1 /\
                   e_kind e = EvRename /\ e_oid e = k' /\ e_path e = p /\ e_exists e = o_exists o' /\
                   nth_error (p_heap s') r = Some o' /\ o_oid o' = k' /\ o_path o' = p.
Proof.
  intros s k p s' k' H. destruct (rename_event s k p s' k' H) as [l [Hlen [Hdel [[-> Hl]|[e [r [o' [Hl R]]]]]]]].
  - left. split; [reflexivity|]. rewrite Hl.
    destruct l as [|e [|]]; [left; apply app_nil_r|right; exists e; split; [reflexivity|apply Hdel; left; reflexivity]|].
    simpl in Hlen. inversion Hlen as [|? X]. inversion X.
  - right. exists l, e, r, o'. split; [exact Hl|]. split; [exact Hlen|exact R].
Qed.
Print Assumptions C16_events_complete_rename.

(* connect: credentials of another identity are refused, the provider ends up disconnected and
   stays bound to its identity *)
Theorem C16_connect_identity : forall ident c creds i, cn_id c = Some i -> ident creds <> i ->
  snd (connect ident c (Some creds)) = CRToken /\ connected (fst (connect ident c (Some creds))) = false /\
  cn_id (fst (connect ident c (Some creds))) = Some i.
Proof.
  intros ident c creds i H Hne. unfold connect. simpl. rewrite H.
  destruct (N.eqb i (ident creds)) eqn:E; [apply N.eqb_eq in E; congruence|]. simpl. auto.
Qed.
Print Assumptions C16_connect_identity.

Theorem C16_connect_same_identity : forall ident c creds i, cn_id c = Some i -> ident creds = i ->
  snd (connect ident c (Some creds)) = CROk /\ connected (fst (connect ident c (Some creds))) = true.
Proof. intros ident c creds i H He. unfold connect. simpl. rewrite H. rewrite <- He, N.eqb_refl. simpl. auto. Qed.
Print Assumptions C16_connect_same_identity.

Theorem C16_connect_identity_sticks : forall ident c o i, cn_id c = Some i -> (forall j, o <> CSetId j) ->
  cn_id (fst (cstep ident c o)) = Some i.
Proof.
  intros ident c o i H Hn. destruct o as [creds| | |j]; simpl.
  - exact (connect_keeps_id ident c creds i H).
  - exact H.
  - destruct (cn_connected c); [exact H|exact (connect_keeps_id ident c _ i H)].
  - exfalso. apply (Hn j). reflexivity.
Qed.
Print Assumptions C16_connect_identity_sticks.

(* well-formedness of the tree (wfb: the root is a live folder; every live object is filed under
   its own normalised path and under its oid, has the oid its flavour prescribes and a live FOLDER as
   parent — so files are leaves —; no live object is listed twice).

   wfb holds in every state reachable by a call sequence of ANY length that satisfies the
   guard guard_op (ProvModel.v), in every flavour with sane_cfg.  The hypotheses are sane_cfg (G1), a predicate
   on the configuration, and guard_op, a decidable predicate on the call and the state it meets with two
   parts (G2), (G3); each of the three is a defect class of the mock and is shown necessary below:
     (G1) flavour: not (oid_is_path and case-insensitive)                              [finding C16-F4]
     (G2) no rename whose target lies strictly inside the renamed object's own subtree [finding C16-F5]
     (G3) the root folder is not removed: no delete of the root, "/" is no rename target [finding C16-F7]
   Nothing is asked of the keys: a path string used as an oid (C16-F6) is allowed. *)
Theorem C16_wf_reachable_guarded : forall c ops,
  sane_cfg c = true -> guarded_run (init c) ops = true -> wfb (fst (run_ops (init c) ops)) = true.
Proof. intros c ops Hs Hg. apply INV_wfb. apply INV_run; [apply INV_init; exact Hs|exact Hg]. Qed.
Print Assumptions C16_wf_reachable_guarded.

(* the invariant behind it (ProvWf.v), and its two halves: the dictionary structure S_inv needs no guard *)
Theorem C16_inv_reachable_guarded : forall c ops,
  sane_cfg c = true -> guarded_run (init c) ops = true -> INV (fst (run_ops (init c) ops)).
Proof. intros c ops Hs Hg. apply INV_run; [apply INV_init; exact Hs|exact Hg]. Qed.
Print Assumptions C16_inv_reachable_guarded.

Theorem C16_inv_step_guarded : forall s o, INV s -> guard_op s o = true -> INV (fst (step s o)).
Proof. exact INV_step. Qed.
Print Assumptions C16_inv_step_guarded.

Theorem C16_inv_wf : forall s, INV s -> wfb s = true.
Proof. exact INV_wfb. Qed.
Print Assumptions C16_inv_wf.

Theorem C16_structure_every_sequence : forall c ops, sane_cfg c = true -> S_inv (fst (run_ops (init c) ops)).
Proof. intros c ops Hs. apply (run_ops_inv S_inv S_step), S_init, Hs. Qed.
Print Assumptions C16_structure_every_sequence.

(* the calls an engine makes (clean_run: additionally genuine oids, see ProvModel.clean_op) are guarded *)
Theorem C16_wf_reachable_clean : forall c ops,
  sane_cfg c = true -> clean_run (init c) ops = true -> wfb (fst (run_ops (init c) ops)) = true.
Proof. intros c ops Hs Hc. apply C16_wf_reachable_guarded; [exact Hs|apply clean_run_guarded; exact Hc]. Qed.
Print Assumptions C16_wf_reachable_clean.

(* rename moves the subtree, and nothing else.  For a successful guarded rename of the live object
   o (found under key k, at path old) to the different path p, in a state satisfying INV:
   the oid returned is o's (id-style) or the new path (path-style);
   (1) for EVERY relative path rel, the object that was found at old ++ rel is found at p ++ rel: the same
       heap cell, with the same kind, contents and existence, the same oid (id-style) or oid = new path
       (path-style), and the path p ++ <its own display suffix> (mv);
   (2) the old paths old ++ rel are free (unless only the case of the name changed: np old = np p);
   (3) every live object outside the subtree, except an empty folder that was at p, is found unchanged
       under its path;
   (4) every live object found afterwards is one of (1) or (3). *)
Theorem C16_rename_moves_subtree : forall s k p s' k' r o,
  INV s -> guard_op s (ORename k p) = true ->
  get_live s k = Some (r, o) -> rename s k p = (s', Ok k') -> path_eqb (o_path o) p = false ->
  let c := p_cfg s in let old := o_path o in
  p_cfg s' = c /\
  k' = (if c_oidpath c then KPath p else o_oid o) /\
  (forall rel q x, get_live s (pkey s (old ++ rel)) = Some (q, x) ->
     get_live s' (pkey s' (p ++ rel)) = Some (q, mv c old p x)) /\
  (np c old <> np c p -> forall rel, get_live s' (pkey s' (old ++ rel)) = None) /\
  (forall P q y, get_live s (pkey s P) = Some (q, y) -> ~ at_under c old P -> np c P <> np c p ->
     get_live s' (pkey s' P) = Some (q, y)) /\
  (forall P q y', get_live s' (pkey s' P) = Some (q, y') ->
     (exists rel x, np c P = np c (p ++ rel) /\ get_live s (pkey s (old ++ rel)) = Some (q, x) /\
                    y' = mv c old p x) \/
     (get_live s (pkey s P) = Some (q, y') /\ ~ at_under c old P)).
Proof. exact rename_moves_subtree. Qed.
Print Assumptions C16_rename_moves_subtree.

(* what mv keeps and what it sets *)
Theorem C16_moved_cell : forall c old p x,
  o_kind (mv c old p x) = o_kind x /\ o_data (mv c old p x) = o_data x /\ o_exists (mv c old p x) = o_exists x /\
  o_path (mv c old p x) = p ++ skipn (length old) (o_path x) /\
  o_oid (mv c old p x) = (if c_oidpath c then KPath (p ++ skipn (length old) (o_path x)) else o_oid x).
Proof. exact (fun c old p x => conj eq_refl (conj eq_refl (conj eq_refl (conj eq_refl eq_refl)))). Qed.
Print Assumptions C16_moved_cell.

(* listdir from well-formedness: exactly the live objects whose parent path is the folder, each once *)
Theorem C16_listdir_exact_wf : forall s k l, INV s -> listdir s k = Ok l ->
  exists r o, get_live s k = Some (r, o) /\ o_kind o = KDir /\
    (forall i, In i l <-> exists q x, nth_error (p_heap s) q = Some x /\ o_exists x = true /\
                                      is_child (p_cfg s) (o_path o) (o_path x) = true /\ i = info_of x) /\
    NoDup (map i_oid l) /\ NoDup l.
Proof.
  intros s k l [HS HW] H. destruct (listdir_spec s k l H) as [r [o [G [K Hl]]]].
  exists r, o. split; [exact G|]. split; [exact K|].
  assert (ND : NoDup (map i_oid l)).
  { unfold listdir in H. rewrite G, K in H. inversion H. apply children_oids_nodup; auto. }
  split; [|split; [exact ND|eapply NoDup_map_inv; exact ND]].
  (* every live object is listed by fs_objects() *)
  intros i. rewrite Hl. split.
  - intros [q [x [_ [A [B [C D]]]]]]. exists q, x. auto.
  - intros [q [x [A [B [C D]]]]]. exists q, x. split; [eapply live_in_fs_refs; eassumption|auto].
Qed.
Print Assumptions C16_listdir_exact_wf.

(* the loop of MockProvider.rename runs over a Python set; where its result would depend on the
   iteration order the model answers EUnspecified (ProvModel.move_specified).  From a state satisfying
   INV a guarded call never meets that case (nor the "" path, nor a vanished heap cell): for guarded
   sequences the model is a total description of the mock *)
Theorem C16_guarded_never_unspecified : forall s o, INV s -> guard_op s o = true ->
  snd (step s o) <> Err EUnspecified.
Proof. exact step_specified. Qed.
Print Assumptions C16_guarded_never_unspecified.

(* full strength, every call sequence: false — a folder can be renamed into itself, which orphans it *)
Definition wf_every_sequence_full : Prop :=
  forall c ops, wfb (fst (run_ops (init c) ops)) = true.
Theorem C16_prov_wf_refuted : ~ wf_every_sequence_full.
Proof.
  intros H. specialize (H (cfg_of false true) [OMkdir [n_a]; ORename (KId 1%N) [n_a; n_b]]).
  vm_compute in H. discriminate.
Qed.
Print Assumptions C16_prov_wf_refuted.

(* restricted to the calls an engine makes (clean_run), every flavour: still false — with
   oid_is_path and case-insensitive, one create of a name with an upper-case letter is enough *)
Definition wf_clean_sequence_full : Prop :=
  forall c ops, clean_run (init c) ops = true -> wfb (fst (run_ops (init c) ops)) = true.
Theorem C16_prov_wf_clean_refuted : ~ wf_clean_sequence_full.
Proof.
  intros H. specialize (H (cfg_of true false) [OCreate [n_A] 1%N] eq_refl).
  vm_compute in H. discriminate.
Qed.
Print Assumptions C16_prov_wf_clean_refuted.

(* (G1) dropped: the guarded statement for every flavour — same witness (C16-F4) *)
Definition wf_guarded_every_flavour_full : Prop :=
  forall c ops, guarded_run (init c) ops = true -> wfb (fst (run_ops (init c) ops)) = true.
Theorem C16_wf_guard_flavour_needed : ~ wf_guarded_every_flavour_full.
Proof.
  intros H. specialize (H (cfg_of true false) [OCreate [n_A] 1%N] eq_refl).
  vm_compute in H. discriminate.
Qed.
Print Assumptions C16_wf_guard_flavour_needed.

(* (G2) dropped: only the root clauses of the guard — mkdir /a; rename /a -> /a/b (C16-F5) *)
Definition guard_root_only (s : prov) (o : op) : bool :=
  match o with
  | ORename _ p => nonroot p
  | ODelete k => match get_live s k with Some (_, x) => nonroot (o_path x) | None => true end
  | _ => true
  end.
(* ProvModel.guarded_run with the guard as a parameter (guarded_run_by) *)
Fixpoint run_guarded_by (g : prov -> op -> bool) (s : prov) (ops : list op) : bool :=
  match ops with
  | [] => true
  | o :: t => g s o && run_guarded_by g (fst (step s o)) t
  end.
Lemma guarded_run_by ops : forall s, guarded_run s ops = run_guarded_by guard_op s ops.
Proof.
  induction ops as [|o t IH]; intros s; simpl; [reflexivity|].
  rewrite IH. reflexivity.
Qed.
Definition wf_root_guard_only_full : Prop :=
  forall c ops, sane_cfg c = true -> run_guarded_by guard_root_only (init c) ops = true ->
                wfb (fst (run_ops (init c) ops)) = true.
Theorem C16_wf_guard_subtree_needed : ~ wf_root_guard_only_full.
Proof.
  intros H. specialize (H (cfg_of false true) [OMkdir [n_a]; ORename (KId 1%N) [n_a; n_b]] eq_refl eq_refl).
  vm_compute in H. discriminate.
Qed.
Print Assumptions C16_wf_guard_subtree_needed.

(* (G3) dropped: only the subtree clause of the guard — delete of the (empty) root succeeds and leaves
   a tree without root, below which objects can still be created (C16-F7) *)
Definition guard_subtree_only (s : prov) (o : op) : bool :=
  match o with
  | ORename k p => match get_live s k with
                   | Some (_, x) => negb (is_under (p_cfg s) (o_path x) p)
                   | None => true
                   end
  | _ => true
  end.
Definition wf_subtree_guard_only_full : Prop :=
  forall c ops, sane_cfg c = true -> run_guarded_by guard_subtree_only (init c) ops = true ->
                wfb (fst (run_ops (init c) ops)) = true.
Theorem C16_prov_wf_root_removed_refuted : ~ wf_subtree_guard_only_full.
Proof.
  intros H. specialize (H (cfg_of false true) [ODelete (KId 0%N); OCreate [n_a] 1%N] eq_refl eq_refl).
  vm_compute in H. discriminate.
Qed.
Print Assumptions C16_prov_wf_root_removed_refuted.

(* the bounded statement (ProvBounded.v): the three sane flavours, every clean sequence of at most
   3 calls over the alphabet ProvBounded.balpha — a special case of C16_wf_reachable_clean (the bound is not used) *)
Theorem C16_prov_wf_partial : forall c ops, In c bcfgs -> In ops (seqs (balpha c) 3) ->
  clean_run (init c) ops = true -> wfb (fst (run_ops (init c) ops)) = true.
Proof.
  intros c ops Hc _. apply C16_wf_reachable_clean. destruct Hc as [<-|[<-|[<-|[]]]]; reflexivity.
Qed.
Print Assumptions C16_prov_wf_partial.

Example wf_partial_nonvacuous :
  In [OMkdir [bn_a]; OCreate [bn_a; bn_b] 1%N; ORename (KId 1%N) [bn_b]] (seqs (balpha (bcfg false true)) 3) /\
  clean_run (init (bcfg false true)) [OMkdir [bn_a]; OCreate [bn_a; bn_b] 1%N; ORename (KId 1%N) [bn_b]] = true.
Proof.
  split; [|vm_compute; reflexivity].
  repeat (apply in_seqs_cons; [vm_compute; tauto|]). apply in_seqs_nil.
Qed.

Example wf_init_all_flavours :
  forallb (fun c => wfb (init c)) [cfg_of false true; cfg_of false false; cfg_of true true; cfg_of true false] = true.
Proof. vm_compute. reflexivity. Qed.

Example sane_flavours : map sane_cfg [cfg_of false true; cfg_of false false; cfg_of true true; cfg_of true false]
                        = [true; true; true; false].
Proof. reflexivity. Qed.

(* a clean sequence with nested folders, a folder move and a case-only rename keeps wf *)
Example wf_clean_example :
  let ops := [OMkdir [n_a]; OCreate [n_a; n_b] 7%N; OMkdir [n_b]; ORename (KId 1%N) [n_b; n_A];
              ORename (KId 2%N) [n_b; n_A; n_A]; ODelete (KId 2%N)] in
  clean_run (init (cfg_of false false)) ops = true /\ wfb (fst (run_ops (init (cfg_of false false)) ops)) = true.
Proof. vm_compute. auto. Qed.

(* a guarded sequence that is not clean (a path string used as oid, a dead oid, a rename over an empty
   folder, a folder moved with a dead entry below it), nine calls, in each sane flavour: the guard holds *)
Example guarded_not_clean_example :
  let ops := [OMkdir [n_a]; OCreate [n_a; n_b] 7%N; OMkdir [n_c]; ODelete (KPath [n_a; n_b]);
              OCreate [n_a; n_A] 3%N; ORename (KPath [n_a]) [n_c]; ODelete (KId 2%N);
              ORename (KPath [n_c; n_A]) [n_b]; OUpload (KPath [n_b]) 9%N] in
  forallb (fun c => guarded_run (init c) ops && negb (clean_run (init c) ops))
          [cfg_of false true; cfg_of false false; cfg_of true true] = true.
Proof. vm_compute. reflexivity. Qed.

(* the hypotheses of C16_rename_moves_subtree are satisfiable: a folder with a file and a sub-folder
   is moved into another folder (both id styles); the call is guarded, succeeds and is no no-op *)
Example rename_moves_subtree_nonvacuous :
  forallb (fun oidpath =>
    let c := cfg_of oidpath true in
    let s := fst (run_ops (init c) [OMkdir [n_a]; OCreate [n_a; n_b] 7%N; OMkdir [n_a; n_c]; OMkdir [n_b]]) in
    let k := if oidpath then KPath [n_a] else KId 1%N in
    guarded_run (init c) [OMkdir [n_a]; OCreate [n_a; n_b] 7%N; OMkdir [n_a; n_c]; OMkdir [n_b]]
    && guard_op s (ORename k [n_b; n_a])
    && match get_live s k with Some (_, o) => negb (path_eqb (o_path o) [n_b; n_a]) | None => false end
    && match rename s k [n_b; n_a] with
       | (s', Ok _) => exists_path s' [n_b; n_a; n_b] && exists_path s' [n_b; n_a; n_c]
                       && negb (exists_path s' [n_a; n_b]) && negb (exists_path s' [n_a])
       | _ => false
       end) [false; true] = true.
Proof. vm_compute. reflexivity. Qed.
