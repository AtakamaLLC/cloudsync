(* AlgoCalls.v — which side the engine's provider calls go to, with no invariant needed: every call of SyncManager.sync on
   behalf of side s goes to the OTHER side; the tactic [calls] follows a function body with on_res_bind.  [CallsOk] is what the
   invariant adds (AlgoStep.v): only a side holding a user's object makes calls. *)
From Coq Require Import NArith List Bool Arith Lia.
From CS Require Import Sx Str PathModel StateModel ProvModel AlgoModel AlgoCheck AlgoInv.
Import ListNotations.
Local Open Scope N_scope.

Definition on_side (t : bool) (cs : list call) : Prop := Forall (fun c => cl_side c = t) cs.
Lemma on_nil t : on_side t [].
Proof. constructor. Qed.
Lemma on_cons t op ok tg cs : on_side t cs -> on_side t (mkCall t op ok tg :: cs).
Proof. constructor; [reflexivity|assumption]. Qed.
Lemma on_one t op ok tg : on_side t [mkCall t op ok tg].
Proof. apply on_cons, on_nil. Qed.
Lemma on_app t a b : on_side t a -> on_side t b -> on_side t (a ++ b).
Proof. intros; apply Forall_app; auto. Qed.
(* the hint database of [calls]: every lemma below about the calls of a function joins it, for the functions that call it *)
#[local] Hint Resolve on_nil on_cons on_app : calls.

(* [P] of what a step answers; a step that is out of the fragment answers nothing. *)
Notation on_res P r := (answers r P (fun _ => True)).
Notation on_calls t r := (on_res (fun x => on_side t (snd (fst x))) r).

(* answers_bind in the shape eapply needs *)
Lemma on_res_bind {A B} (Q : A -> Prop) (P : B -> Prop) (m : result A) (f : A -> result B) :
  on_res Q m -> (forall x, Q x -> on_res P (f x)) -> on_res P (rbind m f).
Proof. intros Hm H. exact (answers_bind m f Q _ P _ Hm (fun _ _ => I) H). Qed.

(* Why the calls of a function are on side [t]: every answer of its body is built from the call lists of its steps, and
   those are on side [t].  [calls t] follows the body with on_res_bind: of a bound step it takes what the lemma about it says
   (hints); else, if the step answers a triple or a pair with a call list, what following its own body gives; else nothing
   (get_e, plain, upd_entry, key_of ...: steps that answer no calls).  A case analysis is followed into each case. *)
Ltac calls t :=
  lazymatch goal with
  | |- on_res _ (let _ := _ in _) => cbv zeta; calls t
  | |- on_res _ (rbind _ _) =>
    first [eapply on_res_bind; [solve [auto with calls]|cbn beta; intros [[? ?] ?] ?; calls t]
          |apply (on_res_bind (fun r => on_side t (snd (fst r)))); [solve [calls t]|intros [[? ?] ?] ?; calls t]
          |apply (on_res_bind (fun r => on_side t (snd r))); [solve [calls t]|intros [? ?] ?; calls t]
          |apply (on_res_bind (fun _ => True)); [apply answers_any|intros ? _; calls t]]
  | |- on_res _ (let '(_, _) := ?X in _) => destruct X; calls t
  | |- on_res _ (match ?X with _ => _ end) => destruct X; calls t
  | |- on_res _ (OutOfFragment _) => exact I
  | |- _ => cbn [answers fst snd] in *; auto with calls
  end.

Lemma create_calls w e s tp : on_calls (negb s) (create_synced w e s tp).
Proof. unfold create_synced, gate. calls (negb s). Qed.

Lemma upload_calls w e s : on_calls (negb s) (upload_synced w e s).
Proof. unfold upload_synced. calls (negb s). Qed.

Lemma delete_calls w e s : on_calls (negb s) (delete_synced w e s).
Proof. unfold delete_synced. calls (negb s). Qed.

Lemma rename_calls w e s tp : on_calls (negb s) (handle_rename w e s tp).
Proof. unfold handle_rename, gate. calls (negb s). Qed.

Lemma mkdirs_calls t : forall fuel p path, on_side t (snd (mkdirs fuel p t path)).
Proof.
  induction fuel as [|f IH]; intros p path; simpl; destruct (ProvModel.mkdir p path) as [p1 [k|[]]]; cbn [snd]; auto with calls.
  (* the parent is missing: the ancestors first (IH), then the leaf again *)
  destruct path as [|a path']; [cbn [snd]; auto with calls|]. specialize (IH p (removelast (a :: path'))).
  destruct (mkdirs f p t (removelast (a :: path'))) as [[p2 [k2|]] cs2]; cbn [snd] in IH.
  - destruct (ProvModel.mkdir p2 (a :: path')) as [p3 [k3|er]]; cbn [snd]; auto with calls.
  - cbn [snd]. auto with calls.
Qed.

Lemma mkdir_synced_calls w e s tp : on_calls (negb s) (mkdir_synced w e s tp).
Proof.
  (* by hand up to the call of mkdirs, which is not a [result]: its calls are posed before its answer is taken apart *)
  unfold mkdir_synced. apply (on_res_bind (fun _ => True)); [apply answers_any|intros en _].
  do 2 (match goal with |- on_res _ (match ?X with _ => _ end) => destruct X; [|exact I] end).
  pose proof (mkdirs_calls (negb s) (length (spath tp)) (prov_of w (negb s)) (spath tp)) as X.
  destruct (mkdirs _ _ _ _) as [[pv r] cs0]. cbn [snd] in X. calls (negb s).
Qed.
#[local] Hint Resolve create_calls upload_calls delete_calls rename_calls mkdir_synced_calls : calls.

Lemma hash_diff_calls w e s : on_calls (negb s) (handle_hash_diff w e s).
Proof. unfold handle_hash_diff. calls (negb s). Qed.

Lemma hpcoc_calls w e s : on_calls (negb s) (handle_path_change_or_creation w e s).
Proof. unfold handle_path_change_or_creation, gate. calls (negb s). Qed.
#[local] Hint Resolve hash_diff_calls hpcoc_calls : calls.

Lemma embrace_calls w e s : on_calls (negb s) (embrace_change w e s).
Proof. unfold embrace_change, gate. calls (negb s). Qed.
#[local] Hint Resolve embrace_calls : calls.

Lemma sync_side_calls w e s : on_calls (negb s) (sync_side w e s).
Proof. unfold sync_side. calls (negb s). Qed.

(* each call goes to the side opposite to one for which the ghost records a user's object *)
Definition CallsOk (g : ghost) (cs : list call) : Prop :=
  Forall (fun c => exists k c0, g_get k (g_of g (negb (cl_side c))) = Some c0) cs.

Lemma CallsOk_nil g : CallsOk g [].
Proof. constructor. Qed.
Lemma CallsOk_app g a b : CallsOk g a -> CallsOk g b -> CallsOk g (a ++ b).
Proof. intros; apply Forall_app; auto. Qed.
