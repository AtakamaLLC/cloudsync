(* LoopProofs.v — proofs about the backoff arithmetic and the sequential loop of LoopModel.v (property C18); at the end,
   what the loop thread of the two-thread machine does with an outcome of do(). *)
From Coq Require Import QArith Qminmax List Bool NArith ZArith Lia Lqa.
From CS Require Import Sx ListFacts LoopModel.
Import ListNotations.
Open Scope Q_scope.

Lemma Qltb_true : forall a b, Qltb a b = true <-> a < b.
Proof.
  intros a b. unfold Qltb. rewrite negb_true_iff, <- not_true_iff_false, Qle_bool_iff.
  split; [apply Qnot_le_lt | apply Qlt_not_le].
Qed.
Lemma Qltb_false : forall a b, Qltb a b = false <-> b <= a.
Proof.
  intros a b. unfold Qltb. rewrite negb_false_iff. apply Qle_bool_iff.
Qed.

Lemma py_min_Qmin : forall a b, py_min a b == Qmin a b.
Proof.
  intros a b. unfold py_min. destruct (Qltb b a) eqn:E; [apply Qltb_true in E|apply Qltb_false in E];
  destruct (Q.min_spec a b) as [[H1 E1]|[H1 E1]]; rewrite E1; lra.
Qed.
Lemma py_max_Qmax : forall a b, py_max a b == Qmax a b.
Proof.
  intros a b. unfold py_max. destruct (Qltb a b) eqn:E; [apply Qltb_true in E|apply Qltb_false in E];
  destruct (Q.max_spec a b) as [[H1 E1]|[H1 E1]]; rewrite E1; lra.
Qed.

(* in_backoff's update through Qmin / Qmax; [minmax] below splits a goal on every Qmin / Qmax in it *)
Lemma increment_minmax : forall p b, increment p b == Qmin (p_max p) (Qmax (b * p_mult p) (p_min p)).
Proof. intros p b. unfold increment. rewrite py_min_Qmin, py_max_Qmax. reflexivity. Qed.

Ltac minmax_on spec := let E := fresh in destruct spec as [[? E]|[? E]]; rewrite ?E in *; clear E.
Ltac minmax :=
  repeat match goal with
         | |- context [Qmin ?a ?b] => minmax_on (Q.min_spec a b)
         | |- context [Qmax ?a ?b] => minmax_on (Q.max_spec a b)
         | _ : context [Qmin ?a ?b] |- _ => minmax_on (Q.min_spec a b)
         | _ : context [Qmax ?a ?b] |- _ => minmax_on (Q.max_spec a b)
         end.

Lemma increment_step : forall p b x,
  1 <= p_mult p -> 0 < p_min p -> p_min p <= p_max p ->
  p_min p <= x -> b == Qmin (p_max p) x ->
  increment p b == Qmin (p_max p) (x * p_mult p).
Proof.
  intros p b x Hm H0 Hle Hx Hb. rewrite increment_minmax, Hb.
  assert (x <= x * p_mult p) by nra. assert (p_max p <= p_max p * p_mult p) by nra. minmax; nra.
Qed.

Lemma increment_first : forall p b,
  0 < p_min p -> p_min p <= p_max p -> b == 0 -> increment p b == p_min p.
Proof. intros p b H0 Hle Hb. rewrite increment_minmax, Hb. minmax; lra. Qed.

Lemma increment_range : forall p b,
  p_min p <= p_max p -> p_min p <= increment p b /\ increment p b <= p_max p.
Proof. intros p b Hle. rewrite increment_minmax. minmax; lra. Qed.

Lemma qpow_ge1 : forall q n, 1 <= q -> 1 <= qpow q n.
Proof.
  intros q n Hq. induction n as [|n IH]; simpl; [lra|]. nra.
Qed.

Lemma after_do_failure : forall p b o, is_failure o = true -> after_do p b o = increment p b.
Proof. intros p b o H. destruct o; simpl in *; try discriminate; reflexivity. Qed.

(* a run of failures from inside a backoff: in_backoff is min(max, x) with x >= min, and each failure multiplies x by mult *)
Lemma failures_from : forall p os b x,
  1 <= p_mult p -> 0 < p_min p -> p_min p <= p_max p ->
  p_min p <= x -> b == Qmin (p_max p) x -> forallb is_failure os = true ->
  backoff_after p b os == Qmin (p_max p) (x * qpow (p_mult p) (length os)).
Proof.
  intros p os. induction os as [|o os IH]; intros b x Hm H0 Hle Hx Hb Hall.
  - simpl. rewrite Hb. assert (E : x * 1 == x) by ring. rewrite E. reflexivity.
  - simpl in Hall. apply andb_true_iff in Hall as [Ho Hall].
    change (backoff_after p b (o :: os)) with (backoff_after p (after_do p b o) os).
    rewrite (after_do_failure _ _ _ Ho).
    rewrite (IH (increment p b) (x * p_mult p)); auto.
    + simpl. assert (E : x * p_mult p * qpow (p_mult p) (length os) == x * (p_mult p * qpow (p_mult p) (length os))) by ring.
      rewrite E. reflexivity.
    + nra.
    + apply increment_step; auto.
Qed.

Lemma backoff_formula : forall p os,
  1 <= p_mult p -> 0 < p_min p -> p_min p <= p_max p ->
  os <> [] -> forallb is_failure os = true ->
  backoff_after p 0 os == Qmin (p_max p) (p_min p * qpow (p_mult p) (length os - 1)).
Proof.
  intros p [|o os] Hm H0 Hle Hne Hall; [congruence|]. simpl in Hall. apply andb_true_iff in Hall as [Ho Hall].
  change (backoff_after p 0 (o :: os)) with (backoff_after p (after_do p 0 o) os).
  rewrite (after_do_failure _ _ _ Ho). replace (length (o :: os) - 1)%nat with (length os) by (simpl; lia).
  apply failures_from; auto; [lra|].
  rewrite increment_first; auto; [|reflexivity]. symmetry. apply Q.min_r. exact Hle.
Qed.

(* not in backoff, or between min_backoff and max_backoff *)
Definition in_range (p : params) (b : Q) : Prop := b == 0 \/ (p_min p <= b /\ b <= p_max p).

Lemma backoff_bounded : forall p os b0,
  0 < p_min p -> p_min p <= p_max p -> in_range p b0 -> in_range p (backoff_after p b0 os).
Proof.
  intros p os b0 H0 Hle Hb. unfold backoff_after. apply fold_left_invariant; [|exact Hb].
  intros b o _ IH. destruct o; simpl; try (right; apply increment_range; assumption); try exact IH.
  destruct (Qltb 0 b); [left; reflexivity | exact IH].
Qed.


Lemma backoff_reset : forall p b, sleep_of p (after_do p b ODid) = p_sleep p.
Proof.
  intros p b. unfold sleep_of. simpl. destruct (Qltb 0 b) eqn:E; [reflexivity | rewrite E; reflexivity].
Qed.
Lemma backoff_reset_value : forall p b, 0 <= b -> after_do p b ODid == 0.
Proof.
  intros p b Hb. simpl. destruct (Qltb 0 b) eqn:E; [reflexivity|]. apply Qltb_false in E. lra.
Qed.


Definition plain (os : list outcome) : list sact := map Plain os.

(* the events of the sequential loop on plain outcomes: one call per outcome, one wait between two calls *)
Fixpoint seq_evs (p : params) (b : Q) (os : list outcome) : list ev :=
  match os with
  | [] => []
  | o :: r => EDo :: match r with
                     | [] => []
                     | _ => ESleep (sleep_of p (after_do p b o)) :: seq_evs p (after_do p b o) r
                     end
  end.

Lemma seq_loop_plain : forall p os b, seq_loop p b (plain os) = (seq_evs p b os, backoff_after p b os).
Proof.
  intros p os. induction os as [|o r IH]; intro b; [reflexivity|].
  cbn [plain map seq_loop]. fold (plain r). rewrite IH. destruct r; reflexivity.
Qed.

Lemma seq_evs_calls : forall p os b, count_do (seq_evs p b os) = length os.
Proof.
  intros p os. induction os as [|o r IH]; intro b; [reflexivity|].
  specialize (IH (after_do p b o)). destruct r; [reflexivity|].
  unfold count_do in *. cbn [seq_evs filter length] in *. rewrite IH. reflexivity.
Qed.

(* the wait requested after the (length pre + 1)-th call *)
Lemma seq_evs_wait : forall p pre o post b, post <> [] ->
  exists es1 es2,
    seq_evs p b (pre ++ o :: post) = es1 ++ EDo :: ESleep (sleep_of p (backoff_after p b (pre ++ [o]))) :: es2
    /\ count_do es1 = length pre.
Proof.
  intros p pre. induction pre as [|a pre IH]; intros o post b Hne.
  - destruct post as [|o2 post]; [congruence|]. exists [], (seq_evs p (after_do p b o) (o2 :: post)). split; reflexivity.
  - destruct (IH o post (after_do p b a) Hne) as (es1 & es2 & E & C).
    exists (EDo :: ESleep (sleep_of p (after_do p b a)) :: es1), es2. split.
    + cbn [app seq_evs]. rewrite E. destruct pre; reflexivity.
    + unfold count_do in *. cbn [filter length]. rewrite C. reflexivity.
Qed.

(* two-thread machine: whatever do() did, the loop thread goes on to its flag tests *)
Lemma do_outcome_continues : forall p s o u, lp s = LDoRet -> lp (lstep p s o u) = LC1.
Proof. intros p s o u H. unfold lstep. rewrite H. reflexivity. Qed.
