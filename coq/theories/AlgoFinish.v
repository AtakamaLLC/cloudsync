(* AlgoFinish.v — SyncManager.finished at world level, and the invariant across the clearing of a side's change stamp.
   What the clearing asks of its caller: both sides current ([ReadyAll]) and, for a user's object that is current with
   no event pending, paired, alive and hash = sync_hash ([Just]). *)
From Coq Require Import NArith List Bool Arith Lia.
From CS Require Import StateModel StateProofs AlgoModel AlgoCheck AlgoState AlgoInv AlgoIntake AlgoSync.
Import ListNotations.
Local Open Scope N_scope.

Definition clr (en : StateModel.entry) (sd : bool) : StateModel.entry := ss en sd (w_chg (gs en sd) (CNum 0)).
Definition other_flagged (en : StateModel.entry) (sd : bool) : bool :=
  tchg (s_chg (gs en (negb sd))) && tstr (s_oid (gs en (negb sd))).
(* SyncManager.clean_temps, on one side *)
Definition clear_tfile (x : xside) : xside := mkX (x_lg x) (x_tname x) None.

Lemma chg_entry_clear en sd :
  (tchg (s_chg (gs en (negb sd))) = true -> tstr (s_oid (gs en (negb sd))) = true) ->
  chg_entry en sd (CNum 0) = clr en sd /\ chg_pending en sd (CNum 0) = other_flagged en sd.
Proof.
  intros H. unfold chg_entry, chg_pending, clr, other_flagged. cbn [tchg N.eqb negb andb orb].
  destruct (tchg (s_chg (gs en (negb sd)))) eqn:Ec; cbn [andb negb].
  - rewrite (H eq_refl). cbn [negb andb]. auto.
  - auto.
Qed.

Lemma fin_side_id x : s_force x = false -> fin_side x = x.
Proof. intros H. unfold fin_side. destruct (tchg (s_chg x)); [reflexivity|]. destruct x; simpl in *; subst; reflexivity. Qed.
Lemma fin_entry_clr en sd : s_force (e_l en) = false -> s_force (e_r en) = false -> fin_entry (clr en sd) = clr en sd.
Proof.
  intros HL HR. unfold fin_entry, clr. destruct en as [l r i p], sd; simpl in *; rewrite !fin_side_id; auto.
Qed.

Lemma flagged_clr en sd : flagged (clr en sd) = other_flagged en sd.
Proof. unfold flagged, clr, other_flagged. destruct en as [l r i p], sd; simpl; [rewrite orb_false_r|]; reflexivity. Qed.

Lemma finished_w w e sd en :
  w_cfg w = cfg_std 1 -> nth_error (ents (w_st w)) e = Some en ->
  (forall x, set_mem x (cset (w_st w)) = true -> (x < length (ents (w_st w)))%nat) ->
  (tchg (s_chg (gs en (negb sd))) = true -> tstr (s_oid (gs en (negb sd))) = true) ->
  (forall sd0, s_force (gs en sd0) = false) ->
  exists w' en', AlgoModel.finished w e sd = ROk w' /\
    touch w w' e en' /\ same_but_prio (clr en sd) en' /\ (forall sd0, prov_of w' sd0 = prov_of w sd0) /\
    (forall sd0, getx w' e sd0 = clear_tfile (getx w e sd0)).
Proof.
  intros Hcfg Hn Hcsb Hw1 Hfr. unfold AlgoModel.finished.
  destruct (set_changed_w w Hcfg e sd (CNum 0) en Hn) as (w1 & H1 & W1). rewrite H1. cbn [rbind].
  destruct (chg_entry_clear en sd Hw1) as (Hce & Hcp). rewrite Hce, Hcp in W1.
  pose proof W1 as (Wcfg & WpL & WpR & Wx & S1 & _).
  pose proof (weff_nth W1 Hn) as Hn1.
  set (s0 := st_tape (w_st w1) [TSwap false; TSwap false]).
  destruct (finished_eff (env_of (cfg_std 1)) (proj1 env_of_std) s0 e (clr en sd) Hn1) as (s' & s2 & Hf & F2 & P2).
  { intros x Hx. destruct S1 as (SA & SB & _). change (set_mem x (cset (w_st w1)) = true) in Hx.
    change (x < length (ents (w_st w1)))%nat. rewrite SA, upd_at_length. rewrite SB in Hx.
    destruct (Nat.eqb_spec x e) as [Heq|Hne]; [subst x; apply nth_error_Some; congruence|apply Hcsb, Hx]. }
  assert (HE1: E w1 = env_of (cfg_std 1)) by (unfold E; rewrite Wcfg, Hcfg; reflexivity).
  unfold st_op. fold s0. rewrite HE1, Hf. cbn [rbind].
  rewrite (fin_entry_clr en sd (Hfr false) (Hfr true)) in F2.
  (* set_changed, then the force flags: entry e is [clr en sd]; it stays in the change set iff the other side is flagged *)
  destruct (seff_trans S1 (@eff_seff (w_st w1) s2 _ _ _ F2)) as (A & B & C & D & J).
  assert (Be: set_mem e (cset s2) = other_flagged en sd).
  { rewrite B. destruct (tchg (s_chg (e_l (clr en sd))) || tchg (s_chg (e_r (clr en sd))))%bool eqn:Ec; cbn [mcomp];
      rewrite Nat.eqb_refl; [reflexivity|].
    unfold other_flagged. apply orb_false_elim in Ec as [EL ER].
    unfold clr in EL, ER. destruct sd; simpl in *; [rewrite EL|rewrite ER]; reflexivity. }
  assert (Bo: forall x, x <> e -> set_mem x (cset s2) = set_mem x (cset (w_st w))).
  { intros x Hne. rewrite B. destruct (tchg _ || tchg _)%bool; cbn [mcomp]; destruct (Nat.eqb_spec x e); try contradiction; reflexivity. }
  destruct P2 as (PL & PE & PC & PN & PLc & PJ).
  destruct (PE e (clr en sd)) as (en' & Hen' & Sen'); [rewrite A; eapply nth_upd_at_same; eauto|].
  eexists. exists en'. split; [reflexivity|].
  unfold clean_temps. split; [|split; [exact Sen'|split]].
  - do 2 apply touch_setx. constructor; cbn [with_st w_cfg w_st st_tape ents cset now lastch tape].
    + exact Wcfg.
    + exact Hen'.
    + split.
      * intros x Hx Hne. apply nth_error_None. rewrite PL, A, upd_at_length. exact Hx.
      * intros x xn Hne Hxn. apply (PE x xn). rewrite A, nth_upd_at_other by congruence. exact Hxn.
    + intros x Hne. rewrite PC. apply Bo, Hne.
    + rewrite PC, Be, <- (sbp_flagged _ _ Sen'). symmetry. apply flagged_clr.
    + rewrite PN. exact C.
    + rewrite PN, PLc, D. lia.
    + reflexivity.
    + intros HI. apply IdxJ_st_tape, PJ, J, HI.
    + intros x sd0 _. unfold getx. cbn [with_st w_x]. rewrite Wx. reflexivity.
  - intros sd0. rewrite !prov_of_setx, prov_of_with_st. destruct sd0; simpl; congruence.
  - intros sd0. unfold getx, setx, with_x, clear_tfile. cbn [w_x with_st]. rewrite !nth_xupd_same, Wx. destruct sd0; reflexivity.
Qed.

Lemma opt_dec {T} (o : option T) : (exists x, o = Some x) \/ o = None.
Proof. destruct o; [left; eauto|right; reflexivity]. Qed.

(* [AlgoLatest.ReadyS] of both sides, for an entry given by value *)
Definition ReadyAll (evl : evlist) (w : world) (e : nat) (en : StateModel.entry) : Prop :=
  forall sd0 k ob, s_oid (gs en sd0) = Some (ostr_k k) -> obj_at w sd0 k = Some ob -> pd evl sd0 k = true \/ freshP (gs en sd0) ob.

(* what finished(side) asks of its caller: if the side's object is a user's, is current and has no event pending, then the
   entry is paired, the object is alive and hash = sync_hash *)
Definition Just (evl : evlist) (g : ghost) (w : world) (en : StateModel.entry) (s : bool) : Prop :=
  forall k ob cs, s_oid (gs en s) = Some (ostr_k k) -> obj_at w s k = Some ob -> pd evl s k = false ->
    freshP (gs en s) ob -> is_discarded (e_ign en) = false -> g_get k (g_of g s) = Some cs ->
    s_oid (gs en (negb s)) <> None /\ ProvModel.o_exists ob = true /\ s_hash (gs en s) = s_shash (gs en s).

(* Clearing is safe when an event is still pending for the side's object; when none is, the side must be current
   ([freshP]) and then the caller's argument (the entry is paired, the object is alive, hash = sync_hash) makes the
   unflagged side agree with its sync markers ([settled]). *)
Lemma EntOk_clear evl g w w' e en sd :
  EntOk evl g w e en ->
  (forall sd0 k0, obj_at w' sd0 k0 = obj_at w sd0 k0) ->
  (is_discarded (e_ign en) = false -> ReadyAll evl w e en) ->
  Just evl g w en sd ->
  EntOk evl g w' e (clr en sd).
Proof.
  intros EO Hobj Hready Hjust. destruct (eo_side EO sd) as [c1 _ c3 c5 _].
  assert (U: upd_side en (clr en sd) sd) by (apply upd_side_ss; reflexivity).
  apply (EntOk_upd evl evl g w w' e en _ sd EO U); unfold clr; rewrite ?gs_ss_same; auto.
  - intros k ob Ho Hob F. split; [auto|]. intros Hd. apply ready_due. rewrite gs_ss_other.
    apply (Hready Hd (negb sd) k ob Ho Hob).
  - intros k ob Ho Hob F. pose proof F as [Ftrash _ Fpath Fspath _ _ _ _ Fown2 Fmir].
    assert (Hdue: is_discarded (e_ign en) = false -> pd evl sd k = true \/ freshP (gs en sd) ob) by (intros Hd; apply (Hready Hd sd k ob Ho Hob)).
    apply (FullOk_upd evl evl g w w' e en _ sd k ob U F (Hobj (negb sd))).
    + constructor; unfold clr; rewrite ?gs_ss_same; cbn [w_chg s_ex s_path s_hash]; auto.
      * intros Hd. apply ready_due. rewrite gs_ss_same. exact (Hdue Hd).
      * intros Hd cs Hcs. destruct (fo_hash_in F Hd Hcs) as (P1 & P4). destruct (Fown2 Hd cs Hcs) as (_ & P6). auto.
      * intros Hd Hcs. destruct (Fmir Hd Hcs) as (_ & P2 & _ & P4 & _ & P6 & _). auto.
    + intros Hd _. destruct (Hdue Hd) as [X|Hfr]; [left; right; exact X|].
      destruct (pd evl sd k) eqn:Epd; [left; right; exact Epd|right].
      (* no event is pending and the side is current: the caller's argument makes it agree with its sync markers *)
      destruct (opt_dec (g_get k (g_of g sd))) as [(cs & Eg)|Eg].
      * destruct (Hjust k ob cs Ho Hob Epd Hfr Hd Eg) as (Hp & Hl & Hhs).
        unfold freshP in Hfr. rewrite Hl in Hfr. destruct Hfr as (_ & Fh & _).
        pose proof (fo_paired F Hd Eg Hp) as Q1.
        split; [exact Hp|]. split; [exact Hl|]. split; [destruct Fspath as [Z|Z]; [contradiction|exact Z]|congruence].
      * destruct (Fmir Hd Eg) as (P1 & _ & P3 & _ & P5 & _ & (k' & ob' & R1 & _)). split; [congruence|auto].
  - intros Hn. rewrite gs_ss_same. destruct (c3 Hn) as (_ & X2 & X3 & _). auto.
Qed.

Lemma maxchg_clr en sd : maxchg (clr en sd) <= maxchg en.
Proof. unfold maxchg, chgv, clr. destruct en as [l r i p], sd; simpl; lia. Qed.
Lemma oid_clr en sd sd0 : s_oid (gs (clr en sd) sd0) = s_oid (gs en sd0).
Proof. unfold clr. destruct en as [l r i p], sd, sd0; reflexivity. Qed.
Lemma ShapeS_clr en sd sd0 : ShapeS (gs (clr en sd) sd0) = ShapeS (gs en sd0).
Proof. unfold clr. destruct en as [l r i p], sd, sd0; reflexivity. Qed.

Lemma inv_clear evl g w w' e en en' sd :
  InvP evl g w -> (2 <= e)%nat -> nth_error (ents (w_st w)) e = Some en -> (is_discarded (e_ign en) = false -> ReadyAll evl w e en) ->
  (is_discarded (e_ign en) = false -> forall sd0, s_oid (gs en sd0) <> None -> ShapeS (gs en sd0)) ->
  Just evl g w en sd ->
  touch w w' e en' -> same_but_prio (clr en sd) en' -> (forall sd0, prov_of w' sd0 = prov_of w sd0) ->
  (forall sd0, x_lg (getx w' e sd0) = x_lg (getx w e sd0)) ->
  InvP evl g w'.
Proof.
  intros I He Hn Hready Hshape Hjust T Ssbp Hprov Hxe. pose proof (t_now T) as Hnow.
  assert (Hobj: forall sd0 k0, obj_at w' sd0 k0 = obj_at w sd0 k0) by (intros; apply obj_at_prov, Hprov).
  destruct (i_clke I e en Hn) as (Hmaxo & Hlgo).
  apply (inv_entry evl evl g w w' e en' I T He Hprov); auto.
  - rewrite <- (sbp_maxchg _ _ Ssbp). pose proof (maxchg_clr en sd). lia.
  - intros sd0. rewrite (Hxe sd0). specialize (Hlgo sd0). lia.
  - intros en0 sd0 Hen0 _. assert (en0 = en) by congruence. subst en0. rewrite <- (sbp_gs _ _ sd0 Ssbp). apply oid_clr.
  - apply (EntOk_sbp _ _ _ _ (clr en sd) en' Ssbp).
    apply (EntOk_clear evl g w w' e en sd (i_ents I e en He Hn) Hobj Hready Hjust).
  - intros sd0 Hoid Hd _. rewrite <- (sbp_gs _ _ sd0 Ssbp) in *. rewrite oid_clr in Hoid. rewrite ShapeS_clr.
    destruct Ssbp as (_ & _ & S3). rewrite <- S3 in Hd. unfold clr in Hd. rewrite ign_ss in Hd. apply (Hshape Hd sd0 Hoid).
Qed.
