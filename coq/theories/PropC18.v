(* PropC18.v — property theorems for C18 (service loops: bounded geometric backoff, final stop, ordered notifications);
   refuted full-strength statements stay visible (witnesses: LoopRefute.v). *)
From Coq Require Import QArith Qminmax List Bool NArith Lia Lqa.
From CS Require Import Sx LoopModel NotifyModel LoopProofs LoopInv LoopThms LoopRefute NotifyProofs.
Import ListNotations.
Open Scope Q_scope.

(* after k = length os >= 1 consecutive failures (backoff request, Exception, BaseException) starting from
   "not in backoff", in_backoff and the wait requested are min(max, min * mult^(k-1)): the first failure waits min *)
Theorem C18_backoff_formula : forall p os,
  1 <= p_mult p -> 0 < p_min p -> p_min p <= p_max p ->
  os <> [] -> forallb is_failure os = true ->
  backoff_after p 0 os == Qmin (p_max p) (p_min p * qpow (p_mult p) (length os - 1)).
Proof. exact backoff_formula. Qed.
Print Assumptions C18_backoff_formula.

(* the wait requested after those k failures is that value (it is positive, so the backoff wait and not the regular sleep) *)
Theorem C18_backoff_formula_wait : forall p os,
  1 <= p_mult p -> 0 < p_min p -> p_min p <= p_max p ->
  os <> [] -> forallb is_failure os = true ->
  sleep_of p (backoff_after p 0 os) == Qmin (p_max p) (p_min p * qpow (p_mult p) (length os - 1)).
Proof.
  intros p os Hm H0 Hle Hne Hall. pose proof (backoff_formula p os Hm H0 Hle Hne Hall) as H.
  unfold sleep_of. destruct (Qltb 0 (backoff_after p 0 os)) eqn:E; auto.
  apply Qltb_false in E. exfalso.
  pose proof (qpow_ge1 (p_mult p) (length os - 1) Hm).
  minmax; nra.
Qed.
Print Assumptions C18_backoff_formula_wait.

Example C18_backoff_formula_nonvacuous :
  1 <= p_mult p0 /\ 0 < p_min p0 /\ p_min p0 <= p_max p0 /\
  map (fun k => Qred (backoff_after p0 0 (repeat OExc k))) [1; 2; 3; 8; 9]%nat = [1 # 100; 1 # 50; 1 # 25; 1; 1].
Proof. vm_compute. repeat split; discriminate. Qed.

(* without 1 <= mult the formula of the property text is not what the code computes (it stays at min) *)
Definition backoff_formula_full : Prop := forall p os,
  0 < p_min p -> p_min p <= p_max p -> os <> [] -> forallb is_failure os = true ->
  backoff_after p 0 os == Qmin (p_max p) (p_min p * qpow (p_mult p) (length os - 1)).
Theorem C18_backoff_formula_mult_lt_1_refuted : ~ backoff_formula_full.
Proof. exact backoff_formula_any_mult_refuted. Qed.
Print Assumptions C18_backoff_formula_mult_lt_1_refuted.

(* every backoff value is 0 (not in backoff) or within [min, max], for every outcome sequence and every mult *)
Theorem C18_backoff_bounded : forall p os b0,
  0 < p_min p -> p_min p <= p_max p -> in_range p b0 -> in_range p (backoff_after p b0 os).
Proof. exact backoff_bounded. Qed.
Print Assumptions C18_backoff_bounded.

(* so every wait requested is the regular sleep or lies within [min, max] *)
Theorem C18_backoff_bounded_wait : forall p os,
  0 < p_min p -> p_min p <= p_max p ->
  let w := sleep_of p (backoff_after p 0 os) in w = p_sleep p \/ (p_min p <= w /\ w <= p_max p).
Proof.
  intros p os H0 Hle w. unfold w, sleep_of.
  destruct (Qltb 0 (backoff_after p 0 os)) eqn:E; auto. right.
  apply Qltb_true in E.
  destruct (backoff_bounded p os 0 H0 Hle) as [H|H]; [left; reflexivity | lra | exact H].
Qed.
Print Assumptions C18_backoff_bounded_wait.

(* after a successful call that did something the next wait is the regular sleep (no backoff wait) *)
Theorem C18_backoff_reset : forall p b,
  sleep_of p (after_do p b ODid) = p_sleep p /\ (0 <= b -> after_do p b ODid == 0).
Proof. exact (fun p b => conj (backoff_reset p b) (backoff_reset_value p b)). Qed.
Print Assumptions C18_backoff_reset.

(* a successful call that reported "nothing happened" leaves the backoff as it is *)
Theorem C18_noop_keeps_backoff : forall p b, after_do p b ONoop = b.
Proof. reflexivity. Qed.
Print Assumptions C18_noop_keeps_backoff.

(* sequential loop: whatever the outcomes (incl. BaseException), do() is called once per outcome and the final
   in_backoff is the fold *)
Theorem C18_loop_survives : forall p os b,
  count_do (fst (seq_loop p b (plain os))) = length os /\ snd (seq_loop p b (plain os)) = backoff_after p b os.
Proof. intros p os b. rewrite seq_loop_plain. split; [apply seq_evs_calls | reflexivity]. Qed.
Print Assumptions C18_loop_survives.

(* the wait after the (|pre|+1)-th call, and |pre| calls before it *)
Theorem C18_loop_waits : forall p pre o post b, post <> [] ->
  exists es1 es2,
    fst (seq_loop p b (plain (pre ++ o :: post))) =
      es1 ++ EDo :: ESleep (sleep_of p (backoff_after p b (pre ++ [o]))) :: es2
    /\ count_do es1 = length pre.
Proof. intros p pre o post b. rewrite seq_loop_plain. apply seq_evs_wait. Qed.
Print Assumptions C18_loop_waits.

(* two-thread machine: the loop thread leaves the loop only through a stop flag or until(); any outcome of do()
   (all five classes, BaseException included: run() catches it) continues with the flag tests *)
Theorem C18_loop_exit_only_by_flags : forall p s o u,
  lp (lstep p s o u) = LF1 ->
  (lp s = LH1 /\ sg s = true) \/ (lp s = LH2 /\ sd s = true) \/ (lp s = LC1 /\ sg s = true) \/
  (lp s = LC2 /\ sd s = true) \/ (lp s = LC3 /\ u = true).
Proof.
  intros p s o u. unfold lstep. destruct (lp s) eqn:E; match_cases; cbn; intro H; try congruence; auto 10.
Qed.
Print Assumptions C18_loop_exit_only_by_flags.

Theorem C18_do_outcome_continues : forall p s o u, lp s = LDoRet -> lp (lstep p s o u) = LC1.
Proof. exact do_outcome_continues. Qed.
Print Assumptions C18_do_outcome_continues.

(* All interleavings of loop and caller (every variant v of stop()/wake(), every parameter set, every reachable state =
   every schedule).  Once a waiting stop() or a wait() has returned, the loop thread is dead and, as long as start() is not
   called, nothing is appended to the loop's event log: no do(), no sleep, no done() *)
Theorem C18_no_do_after_stop_returns : forall v p s ls,
  reach v p s -> joined_ret (cp s) = true ->
  forallb (fun l => negb (is_start l)) ls = true ->
  alive (lp s) = false /\ log (exec v p s ls) = log s.
Proof. exact no_do_after_stop_returns. Qed.
Print Assumptions C18_no_do_after_stop_returns.

Example C18_no_do_after_stop_returns_nonvacuous :
  let s := exec faithful p0 init w_swapped_ok in
  reach faithful p0 s /\ joined_ret (cp s) = true /\ count_do (log s) = 1%nat.
Proof. split; [exists w_swapped_ok; reflexivity | vm_compute; split; reflexivity]. Qed.

(* a finally stopped service refuses to start again *)
Definition restart_refused_full : Prop := forall p s ls,
  reach faithful p s -> final_ret (cp s) = true -> started_ok (cp (exec faithful p s ls)) = false.
Theorem C18_restart_refused_after_final_stop_refuted : ~ restart_refused_full.
Proof.
  intro H. specialize (H p0 _ w_restart_2 (ex_intro _ w_restart_1 eq_refl) eq_refl).
  vm_compute in H. discriminate H.
Qed.
Print Assumptions C18_restart_refused_after_final_stop_refuted.

(* ... it does as long as no stop(forever=False) is called afterwards (which assigns __shutdown = False) *)
Theorem C18_restart_refused_after_final_stop_partial : forall v p s ls,
  reach v p s -> final_ret (cp s) = true ->
  forallb (fun l => negb (is_stop_false l)) ls = true ->
  sd (exec v p s ls) = true /\ started_ok (cp (exec v p s ls)) = false /\
  startish (cp (exec v p s ls)) = false /\
  (alive (lp s) = false -> alive (lp (exec v p s ls)) = false).
Proof.
  intros v p s ls Hr Hf Hls. apply restart_refused; [exact Hr | exact Hf|].
  rewrite forallb_forall in *. intros l Hl. unfold keeps_final. rewrite (Hls l Hl). apply orb_true_r.
Qed.
Print Assumptions C18_restart_refused_after_final_stop_partial.

(* done() runs at most once: false when stop(False) resets __shutdown in between (g_unfin) *)
Definition cleanup_at_most_once_full : Prop := forall p s,
  reach faithful p s -> (count_done (log s) <= 1)%nat.
Theorem C18_cleanup_at_most_once_refuted : ~ cleanup_at_most_once_full.
Proof.
  intro H. specialize (H p0 _ (ex_intro _ w_twice eq_refl)).
  vm_compute in H. inversion H as [|m H1]. inversion H1.
Qed.
Print Assumptions C18_cleanup_at_most_once_refuted.

(* ... true as long as __shutdown was never reset *)
Theorem C18_cleanup_at_most_once_partial : forall v p s,
  reach v p s -> g_unfin s = false -> (count_done (log s) <= 1)%nat.
Proof. exact cleanup_at_most_once_partial. Qed.
Print Assumptions C18_cleanup_at_most_once_partial.

(* ... and always with `if forever: self.__shutdown = True` *)
Theorem C18_cleanup_at_most_once_sticky : forall v p s,
  v_sticky v = true -> reach v p s -> (count_done (log s) <= 1)%nat.
Proof. intros v p s Hv Hr. exact (cleanup_at_most_once_partial v p s Hr (sticky_never_unfin v p s Hv Hr)). Qed.
Print Assumptions C18_cleanup_at_most_once_sticky.

(* cleanup exactly once when stop(forever=True, wait=True) has returned for a service that was running when
   stop was called (g_live) and whose __shutdown was not reset since (g_unfin = false) *)
Definition cleanup_exactly_once_if_final_full : Prop := forall p s,
  reach faithful p s -> cp s = CIdle (RStopped true true) -> g_live s = true -> g_unfin s = false ->
  count_done (log s) = 1%nat.
Theorem C18_cleanup_exactly_once_if_final_refuted : ~ cleanup_exactly_once_if_final_full.
Proof.
  intro H. specialize (H p0 _ (ex_intro _ w_lost_cleanup eq_refl) eq_refl eq_refl eq_refl).
  vm_compute in H. discriminate H.
Qed.
Print Assumptions C18_cleanup_exactly_once_if_final_refuted.

(* with __shutdown assigned before __stopping (aef1d0a) *)
Theorem C18_cleanup_exactly_once_if_final_swapped : forall v p s,
  v_swap v = true ->
  reach v p s -> cp s = CIdle (RStopped true true) -> g_live s = true -> g_unfin s = false ->
  count_done (log s) = 1%nat.
Proof.
  intros v p s Hv Hr Hc Hl Hu. apply (cleanup_exactly_once_swapped v p s Hv Hr Hl Hu).
  apply (inv_joined_dead _ _ (Inv_reach _ _ _ Hr)). rewrite Hc. reflexivity.
Qed.
Print Assumptions C18_cleanup_exactly_once_if_final_swapped.

(* the same without reference to the caller: whenever the thread is dead (so also after wait()) *)
Theorem C18_cleanup_exactly_once_when_dead_swapped : forall v p s,
  v_swap v = true -> reach v p s ->
  g_live s = true -> g_unfin s = false -> alive (lp s) = false -> count_done (log s) = 1%nat.
Proof. exact cleanup_exactly_once_swapped. Qed.
Print Assumptions C18_cleanup_exactly_once_when_dead_swapped.

Example C18_cleanup_exactly_once_swapped_nonvacuous :
  let s := exec swapped p0 init w_swapped_ok in
  reach swapped p0 s /\
  (cp s, g_live s, g_unfin s, count_done (log s), count_do (log s)) = (CIdle (RStopped true true), true, false, 1%nat, 1%nat).
Proof. split; [exists w_swapped_ok; reflexivity | vm_compute; reflexivity]. Qed.

(* stop() and wake() raise no AttributeError: false of the original wake(), which reads __interrupt twice *)
Definition stop_never_raises_full : Prop := forall p s, reach faithful p s -> raisy (cp s) = false.
Theorem C18_stop_never_raises_refuted : ~ stop_never_raises_full.
Proof.
  intro H. specialize (H p0 _ (ex_intro _ w_stop_raises eq_refl)).
  vm_compute in H. discriminate H.
Qed.
Print Assumptions C18_stop_never_raises_refuted.

Theorem C18_stop_never_raises_wake1 : forall v p s, v_wake1 v = true -> reach v p s -> raisy (cp s) = false.
Proof. exact stop_wake_never_raise. Qed.
Print Assumptions C18_stop_never_raises_wake1.

(* every notification raised before the stop marker is delivered exactly once, in order; with no
   marker: all of them, and the manager then blocks on the empty queue *)
Theorem C18_fifo_exactly_once_in_order : forall p b q,
  delivered (n_evs (nm_run p b q)) = before_marker q /\
  (no_marker q -> delivered (n_evs (nm_run p b q)) = all_ids q /\ n_blocked (nm_run p b q) = true).
Proof.
  intros p b q. split; [apply delivered_spec|]. intro H. split.
  - rewrite delivered_spec. apply before_marker_all; auto.
  - apply blocked_iff, H.
Qed.
Print Assumptions C18_fifo_exactly_once_in_order.

(* nothing is lost across the marker: the queue is what was delivered, the marker, and what remains *)
Theorem C18_queue_split : forall p b q, n_blocked (nm_run p b q) = false ->
  exists pre, q = pre ++ None :: n_rest (nm_run p b q) /\ no_marker pre /\
              delivered (n_evs (nm_run p b q)) = all_ids pre.
Proof.
  intros p b q H. rewrite delivered_spec, rest_spec. apply marker_split.
  rewrite <- (blocked_iff p q b), H. discriminate.
Qed.
Print Assumptions C18_queue_split.

(* whatever the handlers of earlier notifications did (returned, raised an Exception or a BaseException), a later one is
   delivered *)
Theorem C18_handler_exception_does_not_stop : forall p b q1 n h q2,
  no_marker q1 ->
  exists es1 es2, n_evs (nm_run p b (q1 ++ Some (n, h) :: q2)) = es1 ++ NDeliver n :: es2
                  /\ delivered es1 = all_ids q1.
Proof.
  intros p b q1 n h q2 H. rewrite nm_run_app by exact H. do 2 eexists. split; [reflexivity|].
  rewrite delivered_spec. apply before_marker_all, H.
Qed.
Print Assumptions C18_handler_exception_does_not_stop.

(* delivery depends neither on what the handlers do nor on the backoff parameters *)
Theorem C18_delivery_independent_of_handler : forall p p' b b' q q',
  ids q = ids q' -> delivered (n_evs (nm_run p b q)) = delivered (n_evs (nm_run p' b' q')).
Proof. intros. rewrite !delivered_spec. now apply before_marker_ids. Qed.
Print Assumptions C18_delivery_independent_of_handler.

Example C18_notify_nonvacuous :
  delivered (n_evs (nm_run p0 0 [Some (1%N, HRaise); Some (2%N, HRaiseBase); Some (3%N, HOk); None; Some (4%N, HOk)]))
  = [1; 2; 3]%N.
Proof. vm_compute. reflexivity. Qed.
