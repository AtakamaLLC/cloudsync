(* PropC02.v — C02: no silent data loss.  For every accepted trace: every covered version is in a live file at
   each quiet report, and (with cov_every_step) after each engine action; what "covered" means; one rejected
   trace (the engine deletes the only copy). *)
From Coq Require Import NArith List Bool.
From CS Require Import Sx TreeModel Monitor MonitorProofs MonitorExamples.
Import ListNotations.

Theorem C02_quiet_nothing_lost : forall cfg l r tr m',
  accept cfg l r tr = inl m' ->
  forall pre x post, tr = pre ++ x :: post -> o_ev x = EQuiet ->
    exists ma, run_of cfg (init_state cfg l r) pre ma /\
      forall c, In c (cov ma) -> In c (contents (o_L x)) \/ In c (contents (o_R x)).
Proof. exact quiet_nothing_lost. Qed.
Print Assumptions C02_quiet_nothing_lost.

Theorem C02_no_engine_action_loses_a_version : forall cfg l r tr m',
  cov_every_step cfg = true -> accept cfg l r tr = inl m' ->
  forall pre x post s ts, tr = pre ++ x :: post -> o_ev x = EEng s ts ->
    exists ma, run_of cfg (init_state cfg l r) pre ma /\
      forall c, In c (cov ma) -> In c (contents (o_L x)) \/ In c (contents (o_R x)).
Proof. exact step_nothing_lost. Qed.
Print Assumptions C02_no_engine_action_loses_a_version.

(* what "covered" means: written by a user and not since overwritten or deleted by a user *)
Theorem C02_covered_meaning : forall t o cv c,
  In c (cov_after t o cv) <->
  match o with
  | Create p d => (lookup t p = None /\ parent_ok t p = true /\ c = d) \/ In c cv
  | Write p d => match lookup t p with
                 | Some (File old) => c = d \/ (In c cv /\ c <> old)
                 | _ => In c cv
                 end
  | Delete p => match lookup t p with
                | Some (File old) => In c cv /\ c <> old
                | _ => In c cv
                end
  | Mkdir _ | Rename _ _ => In c cv
  end.
Proof.
  intros t o cv c. destruct o as [p d|p d|p|p q|p]; simpl; try tauto.
  - destruct (lookup t p); [|destruct (parent_ok t p)]; simpl; intuition congruence.
  - destruct (lookup t p) as [[|old]|]; simpl; rewrite ?drop_In; intuition.
  - destruct (lookup t p) as [[|old]|]; rewrite ?drop_In; tauto.
Qed.
Print Assumptions C02_covered_meaning.

Theorem C02_example_rejected_when_last_copy_deleted :
  accept (ex_cfg None) ex_l0 ex_r0
    [ {| o_ev := EUser false (Create [1; 3] 7)%N; o_L := ex_l1; o_R := ex_r0 |};
      {| o_ev := EEng false [[1; 3]%N]; o_L := ex_l0; o_R := ex_r0 |} ] = inr (1%nat, G_COVERED_STEP).
Proof. exact ex_rejected_lost. Qed.
Print Assumptions C02_example_rejected_when_last_copy_deleted.
