(* ProvRename.v — a guarded rename keeps the tree invariant W_inv (ProvWf.v).  "Move the cells M and then the cell r"
   (ProvMove.v) keeps it, given where the moved cells are and that they are separated (relocate_W), and the guard gives
   that (relocate_guarded).  rename_guarded_cases is the control flow of ProvModel.rename under the invariant and the guard:
   an early error, a no-op, or a relocation whose loop is shown to succeed from the invariant; W_rename, and in
   ProvSubtree.v / ProvSpecified.v what the rename moves and that it is never unspecified, follow from it.  At the end:
   W_inv / INV for every guarded call and run (W_step, INV_step, INV_init, INV_run), and clean runs are guarded
   (clean_op_guard, clean_run_guarded). *)
From Coq Require Import NArith List Bool Lia Arith.
From CS Require Import ProvModel ProvProofs ProvWf ProvMove.
Import ListNotations.

(* M: cells strictly below cell r = o1, among them every LIVE one; the new places are apart from the old places of the
   other moved cells and from the places of the live cells that stay; the parent of dest is a live folder that stays.
   The conclusion is `relocated`, defined further down. *)
Lemma relocate_W s1 r o1 dest M s3 :
  S_inv s1 -> W_inv s1 ->
  nth_error (p_heap s1) r = Some o1 ->
  dget (KPath (np (p_cfg s1) (o_path o1))) (p_dict s1) = Some r ->
  o_path o1 <> [] -> dest <> [] ->
  NoDup M -> ~ In r M ->
  (forall q, In q M -> exists x, nth_error (p_heap s1) q = Some x /\
                                 is_under (p_cfg s1) (o_path o1) (o_path x) = true /\
                                 dget (KPath (np (p_cfg s1) (o_path x))) (p_dict s1) = Some q) ->
  (forall q y, nth_error (p_heap s1) q = Some y -> o_exists y = true ->
               is_under (p_cfg s1) (o_path o1) (o_path y) = true -> In q M) ->
  (forall q1 q2 x1 x2, In q1 (M ++ [r]) -> In q2 (M ++ [r]) -> q1 <> q2 ->
     nth_error (p_heap s1) q1 = Some x1 -> nth_error (p_heap s1) q2 = Some x2 ->
     np (p_cfg s1) (new_path (o_path o1) dest x1) <> np (p_cfg s1) (o_path x2)) ->
  (forall q y, nth_error (p_heap s1) q = Some y -> o_exists y = true -> ~ In q (M ++ [r]) ->
     forall q' x', In q' (M ++ [r]) -> nth_error (p_heap s1) q' = Some x' ->
                   np (p_cfg s1) (new_path (o_path o1) dest x') <> np (p_cfg s1) (o_path y)) ->
  (o_exists o1 = true ->
     exists r' y, dget (KPath (np (p_cfg s1) (removelast dest))) (p_dict s1) = Some r' /\
                  nth_error (p_heap s1) r' = Some y /\ o_exists y = true /\ o_kind y = KDir /\
                  ~ In r' (M ++ [r])) ->
  move_all s1 (M ++ [r]) (o_path o1) dest = Some s3 ->
  W_inv s3 /\
  p_cfg s3 = p_cfg s1 /\
  (forall q x, In q (M ++ [r]) -> nth_error (p_heap s1) q = Some x ->
     nth_error (p_heap s3) q = Some (mv (p_cfg s1) (o_path o1) dest x) /\
     dget (KPath (np (p_cfg s1) (new_path (o_path o1) dest x))) (p_dict s3) = Some q) /\
  (forall q, ~ In q (M ++ [r]) -> nth_error (p_heap s3) q = nth_error (p_heap s1) q) /\
  (forall q y, nth_error (p_heap s1) q = Some y -> o_exists y = true -> ~ In q (M ++ [r]) ->
     dget (KPath (np (p_cfg s1) (o_path y))) (p_dict s3) = Some q) /\
  (forall P q x, In q (M ++ [r]) -> nth_error (p_heap s1) q = Some x -> np (p_cfg s1) (o_path x) = P ->
     (forall q' x', In q' (M ++ [r]) -> nth_error (p_heap s1) q' = Some x' ->
                    np (p_cfg s1) (new_path (o_path o1) dest x') <> P) ->
     dget (KPath P) (p_dict s3) = None) /\
  (forall P, (forall q x, In q (M ++ [r]) -> nth_error (p_heap s1) q = Some x ->
                          np (p_cfg s1) (new_path (o_path o1) dest x) <> P /\ np (p_cfg s1) (o_path x) <> P) ->
             dget (KPath P) (p_dict s3) = dget (KPath P) (p_dict s1)).
Proof.
  intros HS HW Hr Hown_r Hold _ HndM HrM HM HMall Hsep HP1 HP2 Hmove.
  set (c := p_cfg s1) in *. set (old := o_path o1) in *. set (L := M ++ [r]) in *.
  assert (HL : forall q, In q L -> exists x, nth_error (p_heap s1) q = Some x /\
                 at_under c old (o_path x) /\ dget (KPath (np c (o_path x))) (p_dict s1) = Some q).
  { intros q Hin. apply in_app_or in Hin as [Hin|[<-|[]]].
    - destruct (HM q Hin) as [x [H1 [H2 H3]]]. exists x. split; [exact H1|]. split; [apply is_under_at_under; exact H2|exact H3].
    - exists o1. split; [exact Hr|]. split; [apply at_under_refl|exact Hown_r]. }
  destruct (move_all_char L s1 old dest HS (nodup_snoc _ _ HndM HrM)) as (s' & Mv & Hc & _ & _ & Hmv & Hst & C1 & C2 & C3 & _).
  { (* the cells are filed *) intros q Hin. destruct (HL q Hin) as [x [H1 [_ H3]]]. eauto. }
  { (* their new places are apart from the old ones, and from each other *)
    intros q1 q2 x1 x2 I1 I2 Hne H1 H2. split; [apply (Hsep q1 q2); assumption|].
    destruct (the_cell (HL q1 I1) x1 H1) as [A1 K1]. destruct (the_cell (HL q2 I2) x2 H2) as [A2 K2].
    exact (new_path_sep c old dest _ q1 q2 x1 x2 A1 A2 K1 K2 Hne). }
  (* C1: the new path keys lead to the moved cells; C2: their old keys are gone; C3: every other path key is as before *)
  rewrite Hmove in Mv. inversion Mv; subst s'. clear Mv.
  fold c in Hmv, C1, C2, C3.
  assert (Hkeep : forall q y, nth_error (p_heap s1) q = Some y -> o_exists y = true -> ~ In q L ->
                  nth_error (p_heap s3) q = Some y /\ dget (KPath (np c (o_path y))) (p_dict s3) = Some q).
  { intros q y Hy Hl Hnin. split; [rewrite (Hst q Hnin); exact Hy|].
    rewrite C3; [apply (w_filed s1 HW); assumption|].
    intros q' x' Hin' Hx'. split; [apply (HP1 q y Hy Hl Hnin q' x' Hin' Hx')|].
    intros E. destruct (the_cell (HL q' Hin') x' Hx') as [_ K1].
    pose proof (w_filed s1 HW q y Hy Hl) as F. fold c in F.
    rewrite E, F in K1. inversion K1. subst q'. contradiction. }
  assert (DirKeep : forall P r' y, dget (KPath P) (p_dict s1) = Some r' -> nth_error (p_heap s1) r' = Some y ->
                    o_exists y = true -> o_kind y = KDir -> ~ In r' L -> live_dir s3 P).
  { intros P r' y K1 K2 K3 K4 Hnin. destruct (Hkeep r' y K2 K3 Hnin) as [N1 N2].
    exists r', y. rewrite <- (s_path_at s1 _ _ _ HS K1 K2). auto. }
  assert (Hsplit : forall q y', nth_error (p_heap s3) q = Some y' ->
                   (In q L /\ exists x, nth_error (p_heap s1) q = Some x /\ y' = mv c old dest x) \/
                   (~ In q L /\ nth_error (p_heap s1) q = Some y')).
  { intros q y' Hy. destruct (in_dec Nat.eq_dec q L) as [Hin|Hnin].
    - left. split; [exact Hin|]. destruct (HL q Hin) as [x [G1 _]]. exists x. split; [exact G1|].
      pose proof (Hmv q x G1 Hin) as G2. congruence.
    - right. split; [exact Hnin|]. rewrite <- (Hst q Hnin). exact Hy. }
  split; [|split; [exact Hc|split; [auto|split; [exact Hst|split; [|split; [exact C2|exact C3]]]]]].
  2:{ intros q y Hy Hl Hnin. apply (Hkeep q y Hy Hl Hnin). }
  constructor; rewrite ?Hc; fold c.
  - intros q y' Hy Hl. destruct (Hsplit q y' Hy) as [[Hin [x [Hx ->]]]|[Hnin Hx]].
    + exact (C1 q x Hin Hx).
    + apply (Hkeep q y' Hx Hl Hnin).
  - intros q y' Hy Hl Hne. destruct (Hsplit q y' Hy) as [[Hin [x [Hx ->]]]|[Hnin Hx]].
    + simpl in *. apply in_app_or in Hin as [Hin|[<-|[]]].
      * (* strictly below old: the parent moves along *)
        destruct (the_cell (HM q Hin) x Hx) as [HU _].
        assert (Hpx : o_path x <> []).
        { apply is_under_spec in HU as [HU _]. destruct (o_path x); [simpl in HU; lia|congruence]. }
        destruct (w_parent s1 HW q x Hx Hl Hpx) as (r' & z & K1 & K2 & K3 & K4). fold c in K1.
        pose proof (s_path_at s1 _ _ _ HS K1 K2) as Hq. fold c in Hq.
        assert (Hin' : In r' L).
        { destruct (at_under_cases _ _ _ (proj1 (under_iff_parent c old _ _ Hpx Hq) HU)) as [E|E].
          - rewrite <- Hq, E in K1. rewrite Hown_r in K1. inversion K1. apply in_or_app. right. left. assumption.
          - apply in_or_app. left. apply (HMall r' z K2 K3 E). }
        exists r', (mv c old dest z). split; [|split; [exact (Hmv r' z K2 Hin')|split; [exact K3|exact K4]]].
        rewrite <- (C1 r' z Hin' K2). f_equal. f_equal.
        rewrite np_new_path. unfold new_path.
        apply is_under_spec in HU as [HU1 HU2].
        rewrite removelast_app by (intros E; apply (f_equal (@length _)) in E; rewrite skipn_length in E; simpl in E; lia).
        rewrite np_app. f_equal.
        rewrite removelast_skipn by lia. rewrite !np_skipn. f_equal. symmetry. exact Hq.
      * (* the renamed cell itself *)
        rewrite Hx in Hr. inversion Hr; subst x.
        destruct (HP2 Hl) as (r' & y & K1 & K2 & K3 & K4 & K5).
        unfold new_path. fold old. rewrite skipn_all, app_nil_r. exact (DirKeep _ r' y K1 K2 K3 K4 K5).
    + destruct (w_parent s1 HW q y' Hx Hl Hne) as (r' & z & K1 & K2 & K3 & K4). fold c in K1.
      apply (DirKeep _ r' z K1 K2 K3 K4).
      intros Hin'. destruct (the_cell (HL r' Hin') z K2) as [AU _].
      apply Hnin. apply in_or_app. left. apply (HMall q y' Hx Hl).
      exact (proj2 (under_iff_parent c old _ _ Hne (s_path_at s1 _ _ _ HS K1 K2)) AU).
  - destruct (w_root s1 HW) as (r0 & o0 & G1 & G2 & G3 & G4). apply (DirKeep _ r0 o0 G1 G2 G3 G4).
    intros Hin. destruct (the_cell (HL r0 Hin) o0 G2) as [[AU _] _].
    rewrite (root_path s1 r0 o0 HS G1 G2) in AU. destruct old; [congruence|simpl in AU; lia].
Qed.

(* rename = conflict test; deletion of the empty folder found at the target; move — cut here so that each part has a
   name; rename_unfold holds by conversion *)
Definition rename_conflict (s : prov) (o : obj) (pc : option obj) : option err :=
  match pc with
  | None => None
  | Some x =>
    if negb (okind_eqb (o_kind x) (o_kind o)) then Some EExists else
    match o_kind x with
    | KFile => Some EExists
    | KDir => match listdir s (o_oid x) with
              | Err e => Some e
              | Ok [] => None
              | Ok (_ :: _) => Some ENotEmpty
              end
    end
  end.

Definition rename_del (s : prov) (pc : option obj) : prov * res unit :=
  match pc with Some x => delete s (o_oid x) | None => (s, Ok tt) end.

Definition rename_move (s : prov) (k : key) (p : path) (r : nat) (o : obj) (s1 : prov) : prov * res key :=
  if path_eqb (o_path o) p then (s1, Ok k) else
  match p with
  | [] => (s, Err EUnspecified)
  | _ =>
    match o_kind o with
    | KFile =>
      match rename_single s1 r p true with
      | None => (s1, Err ENotFound)
      | Some s2 => rename_finish (p_cfg s) k (o_oid o) r s2
      end
    | KDir =>
      if negb (move_specified s1 r (o_path o) p) then (s, Err EUnspecified) else
      match move_all s1 (moved_refs s1 (o_path o)) (o_path o) p with
      | None => (s, Err EUnspecified)
      | Some s2 => match rename_single s2 r p true with
                   | None => (s, Err EUnspecified)
                   | Some s3 => rename_finish (p_cfg s) k (o_oid o) r s3
                   end
      end
    end
  end.

Lemma rename_unfold s k p :
  rename s k p =
  match get_live s k with
  | None => (s, Err ENotFound)
  | Some (r, o) =>
    match verify_parent s p with
    | Some e => (s, Err e)
    | None =>
      match rename_conflict s o (conflict_at s k p) with
      | Some e => (s, Err e)
      | None =>
        match rename_del s (conflict_at s k p) with
        | (_, Err e) => (s, Err e)
        | (s1, Ok _) => rename_move s k p r o s1
        end
      end
    end
  end.
Proof. reflexivity. Qed.

(* l: at most the delete event of an empty folder found at the target *)
Lemma rename_event s k p s' k' : rename s k p = (s', Ok k') ->
  exists l, length l <= 1 /\ (forall e, In e l -> e_kind e = EvDelete /\ e_exists e = false) /\
    ((k' = k /\ p_log s' = p_log s ++ l) \/
     exists e r o', p_log s' = p_log s ++ l ++ [e] /\ e_kind e = EvRename /\ e_oid e = k' /\ e_path e = p /\
                    e_exists e = o_exists o' /\ nth_error (p_heap s') r = Some o' /\ o_oid o' = k' /\ o_path o' = p).
Proof.
  rewrite rename_unfold.
  destruct (get_live s k) as [[r o]|]; [|discriminate].
  destruct (verify_parent s p); [discriminate|].
  destruct (rename_conflict s o (conflict_at s k p)); [discriminate|].
  destruct (rename_del s (conflict_at s k p)) as [s1 [u|e]] eqn:D; [|discriminate].
  assert (Hd : exists l, p_log s1 = p_log s ++ l /\ length l <= 1 /\
                         forall e, In e l -> e_kind e = EvDelete /\ e_exists e = false).
  { unfold rename_del in D. destruct (conflict_at s k p) as [x|]; [destruct u|inversion D; subst s1].
    - apply delete_event in D as [[-> _]|(r0 & o0 & e & _ & Hl & Hk & _ & Hx & _)].
      + exists []. rewrite app_nil_r. split; [reflexivity|]. split; [auto|intros ? []].
      + exists [e]. split; [exact Hl|]. split; [auto|]. intros e' [<-|[]]. auto.
    - exists []. rewrite app_nil_r. split; [reflexivity|]. split; [auto|intros ? []]. }
  destruct Hd as [l [Hd [Hlen Hdel]]].
  intros H. exists l. split; [exact Hlen|]. split; [exact Hdel|]. revert H.
  unfold rename_move. destruct (path_eqb (o_path o) p).
  { intros H. inversion H; subst. left. auto. }
  destruct p as [|n p']; [discriminate|]. intros H. right.
  (* both kinds end with the move of cell r, with its event, from a state s2 whose log is that of s1 *)
  assert (X : exists s2 s3, p_log s2 = p_log s1 /\ rename_single s2 r (n :: p') true = Some s3 /\
                            rename_finish (p_cfg s) k (o_oid o) r s3 = (s', Ok k')).
  { revert H. destruct (o_kind o).
    - destruct (rename_single s1 r (n :: p') true) as [s2|] eqn:R; [|discriminate]. exists s1, s2. auto.
    - destruct (negb (move_specified s1 r (o_path o) (n :: p'))); [discriminate|].
      destruct (move_all s1 (moved_refs s1 (o_path o)) (o_path o) (n :: p')) as [s2|] eqn:M; [|discriminate].
      destruct (rename_single s2 r (n :: p') true) as [s3|] eqn:R; [|discriminate].
      exists s2, s3. split; [exact (proj1 (move_all_frame _ _ _ _ _ M))|auto]. }
  destruct X as (s2 & s3 & E & R & F). apply rename_finish_ok in F as (-> & o2 & H2 & -> & _).
  destruct (rename_single_heap_log _ _ _ _ _ R) as (o' & Hn & Hp & _ & e & Hl & Hk & Ho & Hpe & Hx).
  assert (o2 = o') by congruence. subst o2.
  exists e, r, o'. rewrite Hl, E, Hd, <- app_assoc. repeat split; auto.
Qed.

Lemma in_moved_refs s old q : In q (moved_refs s old) <->
  In q (fs_refs s) /\ exists x, nth_error (p_heap s) q = Some x /\ is_under (p_cfg s) old (o_path x) = true.
Proof.
  unfold moved_refs. rewrite dedup_in, filter_In. split.
  - intros [H1 H2]. split; [exact H1|]. destruct (nth_error (p_heap s) q) as [x|]; [|discriminate]. eauto.
  - intros [H1 [x [H2 H3]]]. split; [exact H1|]. rewrite H2. exact H3.
Qed.

Lemma live_dir_above s Q q y : S_inv s -> W_inv s -> nth_error (p_heap s) q = Some y -> o_exists y = true ->
  is_under (p_cfg s) Q (o_path y) = true -> live_dir s (np (p_cfg s) Q).
Proof.
  intros HS HW. remember (length (o_path y)) as n eqn:Hn. revert q y Hn.
  induction n as [n IH] using lt_wf_ind. intros q y Hn Hy Hl HU.
  pose proof (proj1 (is_under_spec _ _ _) HU) as [U1 _].
  assert (Hne : o_path y <> []) by (destruct (o_path y); [simpl in U1; lia|congruence]).
  destruct (w_parent s HW q y Hy Hl Hne) as (r' & z & K1 & K2 & K3 & K4).
  pose proof (s_path_at s _ _ _ HS K1 K2) as Hq.
  (* the parent is at Q, or strictly below it *)
  destruct (at_under_cases _ _ _ (proj1 (under_iff_parent _ Q _ _ Hne Hq) HU)) as [E|E].
  - exists r', z. rewrite <- Hq, E in K1. auto.
  - apply (IH (length (o_path z))) with (q := r') (y := z); auto.
    rewrite (np_eq_length _ _ _ Hq), length_removelast. lia.
Qed.

Lemma rename_single_ev s r dest s' : rename_single s r dest false = Some s' ->
  exists s'', rename_single s r dest true = Some s'' /\ same_core s' s''.
Proof.
  unfold rename_single. destruct (nth_error (p_heap s) r) as [o|]; [|discriminate].
  destruct (unstore (p_cfg s) (p_dict s) o) as [d1|]; [|discriminate].
  intros H. inversion H; subst. eexists. split; [reflexivity|]. repeat split.
Qed.

(* the loop over M ++ [r] is the two steps of rename(): "move the cells below, then the cell itself" *)
Lemma move_snoc s1 M r o1 p s3' :
  move_all s1 (M ++ [r]) (o_path o1) p = Some s3' -> ~ In r M -> nth_error (p_heap s1) r = Some o1 ->
  exists s2 s3, move_all s1 M (o_path o1) p = Some s2 /\ rename_single s2 r p true = Some s3 /\ same_core s3' s3.
Proof.
  rewrite move_all_app. destruct (move_all s1 M (o_path o1) p) as [s2|] eqn:HM; [|discriminate].
  intros Mv Hnin Hr. simpl in Mv. rewrite (proj2 (move_all_frame _ _ _ _ _ HM) _ Hnin), Hr in Mv.
  unfold new_path in Mv. rewrite skipn_all, app_nil_r in Mv.
  destruct (rename_single s2 r p false) as [s3''|] eqn:R; [|discriminate]. inversion Mv; subst s3''.
  destruct (rename_single_ev _ _ _ _ R) as [s3 [R' SC]]. exists s2, s3. auto.
Qed.

Lemma all_pairs_cells (f : obj -> obj -> bool) h refs : NoDup refs ->
  (forall q1 q2 x1 x2, In q1 refs -> In q2 refs -> q1 <> q2 ->
     nth_error h q1 = Some x1 -> nth_error h q2 = Some x2 -> f x1 x2 = true) ->
  all_pairs f (flat_map (fun q => match nth_error h q with Some x => [x] | None => [] end) refs) = true.
Proof.
  induction refs as [|q t IH]; intros Hn H; simpl; [reflexivity|]. inversion Hn as [|? ? Hq Ht]; subst.
  assert (IH' := IH Ht (fun q1 q2 x1 x2 I1 I2 => H q1 q2 x1 x2 (or_intror I1) (or_intror I2))).
  destruct (nth_error h q) as [x|] eqn:Hx; simpl; [|exact IH'].
  rewrite IH', andb_true_r. apply forallb_forall. intros y Hy. apply in_flat_map in Hy as [q' [Hin Hy]].
  destruct (nth_error h q') as [y'|] eqn:Hy'; [|destruct Hy]. destruct Hy as [<-|[]].
  apply (H q q' x y'); simpl; auto. intros ->. contradiction.
Qed.

(* the state s1 after the deletion of the empty folder found at the target ("possible_conflict"), seen from s *)
Record phase (s : prov) (k : key) (p : path) (r : nat) (o : obj) (s1 : prov) : Prop := {
  ph_S : S_inv s1;
  ph_W : W_inv s1;
  ph_cfg : p_cfg s1 = p_cfg s;
  ph_dict : p_dict s1 = p_dict s;
  ph_cell : exists o1, nth_error (p_heap s1) r = Some o1 /\ o_path o1 = o_path o /\ o_kind o1 = o_kind o /\
                       o_oid o1 = o_oid o /\ o_data o1 = o_data o /\
                       ((o1 = o /\ o_exists o = true) \/
                        (o_exists o1 = false /\ np (p_cfg s) p = np (p_cfg s) (o_path o) /\ o_oid o <> k));
  ph_target : forall q y, dget (KPath (np (p_cfg s) p)) (p_dict s) = Some q ->
                          nth_error (p_heap s1) q = Some y -> o_exists y = true -> q = r;
  ph_live : forall q y, nth_error (p_heap s1) q = Some y -> o_exists y = true -> nth_error (p_heap s) q = Some y;
  ph_same : forall q, dget (KPath (np (p_cfg s) p)) (p_dict s) <> Some q ->
                      nth_error (p_heap s1) q = nth_error (p_heap s) q
}.

Lemma pc_phase s k p r o s1 u : S_inv s -> W_inv s -> get_live s k = Some (r, o) -> p <> [] ->
  rename_conflict s o (conflict_at s k p) = None ->
  rename_del s (conflict_at s k p) = (s1, Ok u) ->
  phase s k p r o s1.
Proof.
  intros HS HW Hg Hp Hc Hd.
  pose proof Hg as Hg'. apply get_live_spec in Hg' as [G1 [G2 G3]].
  destruct (conflict_at s k p) as [x|] eqn:CA.
  2:{ (* nothing is deleted; a live object found at the target has the oid k, so it is o *)
      inversion Hd; subst s1. constructor; auto.
      - exists o. repeat split; auto.
      - intros q y Q1 Q2 Q3. unfold conflict_at, pkey in CA. rewrite (proj2 (get_spec s _ q y) (conj Q1 Q2)) in CA.
        simpl in CA. rewrite Q3 in CA. destruct (key_eqb (o_oid y) k) eqn:K; [|discriminate].
        apply key_eqb_eq in K. pose proof (get_live_oid s q y HS HW Q2 Q3) as GO. rewrite K in GO. congruence. }
  unfold conflict_at in CA. destruct (get s (pkey s p)) as [[r' x']|] eqn:G; [|discriminate].
  apply get_spec in G as [X1 X2]. unfold pkey in X1.
  destruct (key_eqb (o_oid x') k) eqn:K; [discriminate|]. destruct (o_exists x') eqn:L; [|discriminate].
  inversion CA; subst x'. simpl in Hc, Hd.
  destruct (okind_eqb (o_kind x) (o_kind o)) eqn:KK; [|discriminate]. simpl in Hc.
  destruct (o_kind x) eqn:KX; [discriminate|].
  destruct (listdir s (o_oid x)) as [[|i l]|e] eqn:LD; try discriminate.
  assert (GX : get_live s (o_oid x) = Some (r', x)) by (apply get_live_oid; auto).
  pose proof (s_path_at s _ _ _ HS X1 X2) as PX.
  assert (NX : o_path x <> []).
  { intros E. rewrite E, np_nil in PX. symmetry in PX. apply np_nil_inv in PX. contradiction. }
  assert (Wd : W_inv (fst (delete s (o_oid x)))).
  { apply W_delete; auto. simpl. rewrite GX. destruct (o_path x); [congruence|reflexivity]. }
  assert (Sd : S_inv (fst (delete s (o_oid x)))) by (apply S_delete; exact HS).
  rewrite Hd in Wd, Sd. simpl in Wd, Sd.
  unfold delete in Hd. rewrite GX, KX, LD in Hd. inversion Hd; subst s1. clear Hd.
  assert (Hlen : r' < length (p_heap s)) by (apply nth_error_Some; congruence).
  constructor; simpl; auto.
  - destruct (Nat.eq_dec r' r) as [->|Hne].
    + rewrite G2 in X2. inversion X2; subst x. exists (set_exists o false).
      split; [apply nth_hset_same; exact Hlen|]. simpl. repeat split; auto.
      right. split; [reflexivity|]. split; [symmetry; exact PX|]. apply key_eqb_false. exact K.
    + exists o. split; [rewrite nth_hset_other by auto; exact G2|]. repeat split; auto.
  - intros q y Q1 Q2 Q3. rewrite X1 in Q1. inversion Q1; subst q.
    rewrite nth_hset_same in Q2 by exact Hlen. inversion Q2; subst y. discriminate.
  - intros q y Q2 Q3. apply nth_hset in Q2 as [[-> ->]|Q2]; [discriminate|exact Q2].
  - intros q Q. apply nth_hset_other. intros ->. apply Q. exact X1.
Qed.

(* relocate_W with its premises about the cells that stay (their places, the parent of dest) derived from the guard,
   "whatever is live at the target is cell r" and "the parent of p is a live folder" *)
Lemma relocate_guarded s1 r o1 p M s3 :
  S_inv s1 -> W_inv s1 ->
  nth_error (p_heap s1) r = Some o1 ->
  dget (KPath (np (p_cfg s1) (o_path o1))) (p_dict s1) = Some r ->
  p <> [] -> is_under (p_cfg s1) (o_path o1) p = false ->
  NoDup M -> ~ In r M ->
  (forall q, In q M -> exists x, nth_error (p_heap s1) q = Some x /\
                                 is_under (p_cfg s1) (o_path o1) (o_path x) = true /\
                                 dget (KPath (np (p_cfg s1) (o_path x))) (p_dict s1) = Some q) ->
  (forall q y, nth_error (p_heap s1) q = Some y -> o_exists y = true ->
               is_under (p_cfg s1) (o_path o1) (o_path y) = true -> In q M) ->
  (forall q1 q2 x1 x2, In q1 (M ++ [r]) -> In q2 (M ++ [r]) -> q1 <> q2 ->
     nth_error (p_heap s1) q1 = Some x1 -> nth_error (p_heap s1) q2 = Some x2 ->
     np (p_cfg s1) (new_path (o_path o1) p x1) <> np (p_cfg s1) (o_path x2)) ->
  (forall q y, dget (KPath (np (p_cfg s1) p)) (p_dict s1) = Some q ->
               nth_error (p_heap s1) q = Some y -> o_exists y = true -> q = r) ->
  (exists r' y, dget (KPath (np (p_cfg s1) (removelast p))) (p_dict s1) = Some r' /\
                nth_error (p_heap s1) r' = Some y /\ o_exists y = true /\ o_kind y = KDir) ->
  move_all s1 (M ++ [r]) (o_path o1) p = Some s3 ->
  W_inv s3 /\
  p_cfg s3 = p_cfg s1 /\
  (forall q x, In q (M ++ [r]) -> nth_error (p_heap s1) q = Some x ->
     nth_error (p_heap s3) q = Some (mv (p_cfg s1) (o_path o1) p x) /\
     dget (KPath (np (p_cfg s1) (new_path (o_path o1) p x))) (p_dict s3) = Some q) /\
  (forall q, ~ In q (M ++ [r]) -> nth_error (p_heap s3) q = nth_error (p_heap s1) q) /\
  (forall q y, nth_error (p_heap s1) q = Some y -> o_exists y = true -> ~ In q (M ++ [r]) ->
     dget (KPath (np (p_cfg s1) (o_path y))) (p_dict s3) = Some q) /\
  (forall P q x, In q (M ++ [r]) -> nth_error (p_heap s1) q = Some x -> np (p_cfg s1) (o_path x) = P ->
     (forall q' x', In q' (M ++ [r]) -> nth_error (p_heap s1) q' = Some x' ->
                    np (p_cfg s1) (new_path (o_path o1) p x') <> P) ->
     dget (KPath P) (p_dict s3) = None) /\
  (forall P, (forall q x, In q (M ++ [r]) -> nth_error (p_heap s1) q = Some x ->
                          np (p_cfg s1) (new_path (o_path o1) p x) <> P /\ np (p_cfg s1) (o_path x) <> P) ->
             dget (KPath P) (p_dict s3) = dget (KPath P) (p_dict s1)).
Proof.
  intros HS HW Hr Hown Hp Hguard HndM HrM HM HMall Hsep Htarget Hparent Hmove.
  assert (Hold : o_path o1 <> []).
  { intros E. rewrite E in Hguard. destruct p as [|a t]; [congruence|].
    unfold is_under in Hguard. simpl in Hguard. rewrite np_nil in Hguard. simpl in Hguard. discriminate. }
  apply (relocate_W s1 r o1 p M s3); auto.
  - (* a live object at or below the target is one of the moved cells *)
    intros q y Hy Hl Hnin q' x' Hin' Hx' E. apply Hnin.
    destruct (at_under_cases _ _ _ (at_under_np _ p _ _ E (at_under_app _ p _))) as [E2|U].
    + pose proof (w_filed s1 HW q y Hy Hl) as F. rewrite E2 in F.
      rewrite (Htarget q y F Hy Hl). apply in_or_app. right. left. reflexivity.
    + destruct (live_dir_above s1 p q y HS HW Hy Hl U) as (q0 & y0 & T1 & T2 & T3 & T4).
      pose proof (Htarget q0 y0 T1 T2 T3) as ->.
      pose proof (s_path_at s1 _ _ _ HS T1 Hr) as Hq.
      apply in_or_app. left. apply (HMall q y Hy Hl).
      apply is_under_spec in U as [U1 U2]. apply is_under_spec.
      pose proof (np_eq_length _ _ _ Hq) as HL.
      rewrite HL. split; [exact U1|]. congruence.
  - intros Hl1. destruct Hparent as (r' & y & K1 & K2 & K3 & K4). exists r', y. repeat split; auto.
    intros Hin.
    assert (AU : at_under (p_cfg s1) (o_path o1) (o_path y)).
    { apply in_app_or in Hin as [Hin|[<-|[]]].
      - apply is_under_at_under. exact (proj1 (the_cell (HM r' Hin) y K2)).
      - rewrite Hr in K2. inversion K2; subst y. apply at_under_refl. }
    pose proof (s_path_at s1 _ _ _ HS K1 K2) as Hq.
    pose proof (proj2 (under_iff_parent (p_cfg s1) (o_path o1) p (o_path y) Hp Hq) AU) as C. congruence.
Qed.

(* what relocate_guarded concludes, named *)
Definition relocated (s1 : prov) (r : nat) (old p : path) (L : list nat) (s3 : prov) : Prop :=
  W_inv s3 /\
  p_cfg s3 = p_cfg s1 /\
  (forall q x, In q L -> nth_error (p_heap s1) q = Some x ->
     nth_error (p_heap s3) q = Some (mv (p_cfg s1) old p x) /\
     dget (KPath (np (p_cfg s1) (new_path old p x))) (p_dict s3) = Some q) /\
  (forall q, ~ In q L -> nth_error (p_heap s3) q = nth_error (p_heap s1) q) /\
  (forall q y, nth_error (p_heap s1) q = Some y -> o_exists y = true -> ~ In q L ->
     dget (KPath (np (p_cfg s1) (o_path y))) (p_dict s3) = Some q) /\
  (forall P q x, In q L -> nth_error (p_heap s1) q = Some x -> np (p_cfg s1) (o_path x) = P ->
     (forall q' x', In q' L -> nth_error (p_heap s1) q' = Some x' ->
                    np (p_cfg s1) (new_path old p x') <> P) ->
     dget (KPath P) (p_dict s3) = None) /\
  (forall P, (forall q x, In q L -> nth_error (p_heap s1) q = Some x ->
                          np (p_cfg s1) (new_path old p x) <> P /\ np (p_cfg s1) (o_path x) <> P) ->
             dget (KPath P) (p_dict s3) = dget (KPath P) (p_dict s1)).

Definition moved_of (s1 : prov) (o : obj) : list nat :=
  match o_kind o with KDir => moved_refs s1 (o_path o) | KFile => [] end.

Lemma moved_of_sub s1 o q : In q (moved_of s1 o) -> In q (moved_refs s1 (o_path o)).
Proof. unfold moved_of. destruct (o_kind o); [intros []|auto]. Qed.

Lemma rename_conflict_err s o pc e : rename_conflict s o pc = Some e -> e <> EUnspecified.
Proof.
  unfold rename_conflict. destruct pc as [x|]; [|discriminate].
  destruct (negb (okind_eqb (o_kind x) (o_kind o))); [intros H; inversion H; discriminate|].
  destruct (o_kind x); [intros H; inversion H; discriminate|].
  destruct (listdir s (o_oid x)) as [[|i l]|e'] eqn:L; try discriminate.
  - intros H. inversion H. discriminate.
  - intros H. inversion H; subst. rewrite (listdir_err _ _ _ L). discriminate.
Qed.

(* everything the loop and relocate_guarded need of the cells moved_of s1 o ++ [r] follows from the invariant of s, in
   particular the separation that move_specified tests at run time *)
Section Guarded.
  Context {s : prov} {k : key} {p : path} {r : nat} {o : obj} {s1 : prov}.
  Hypothesis HS : S_inv s.
  Hypothesis HW : W_inv s.
  Hypothesis Hg : get_live s k = Some (r, o).
  Hypothesis PH : phase s k p r o s1.

  Let c := p_cfg s.
  Let old := o_path o.
  Let S1 : S_inv s1 := ph_S _ _ _ _ _ _ PH.
  Let W1 : W_inv s1 := ph_W _ _ _ _ _ _ PH.
  Let Ec : p_cfg s1 = p_cfg s := ph_cfg _ _ _ _ _ _ PH.
  Let Ed : p_dict s1 = p_dict s := ph_dict _ _ _ _ _ _ PH.

  Lemma ph_cell_path : exists o1, nth_error (p_heap s1) r = Some o1 /\ o_path o1 = o_path o.
  Proof. destruct (ph_cell _ _ _ _ _ _ PH) as (o1 & Hr & Epath & _). eauto. Qed.

  Lemma renamed_cell_filed : dget (KPath (np c old)) (p_dict s) = Some r.
  Proof. destruct (proj1 (get_live_spec _ _ _ _) Hg) as [_ [G2 G3]]. exact (w_filed s HW r o G2 G3). Qed.

  Lemma moved_refs_facts q : In q (moved_refs s1 old) ->
    exists x, nth_error (p_heap s1) q = Some x /\ is_under c old (o_path x) = true /\
              dget (KPath (np c (o_path x))) (p_dict s) = Some q.
  Proof.
    intros Hin. apply in_moved_refs in Hin as [H0 [x [H1 H2]]]. exists x.
    rewrite Ec in H2. split; [exact H1|]. split; [exact H2|].
    apply in_fs_refs in H0 as [P HP]. apply (in_dget _ _ _ (s_nodup s1 S1)) in HP.
    rewrite <- (s_path_at s1 _ _ _ S1 HP H1), Ec, Ed in HP. exact HP.
  Qed.

  Lemma renamed_cell_not_moved : ~ In r (moved_refs s1 old).
  Proof.
    destruct ph_cell_path as (o1 & Hr & Epath).
    intros Hin. apply in_moved_refs in Hin as [_ [x [H1 H2]]]. assert (x = o1) by congruence. subst x.
    unfold old in H2. rewrite <- Epath, is_under_irrefl in H2. discriminate.
  Qed.

  Lemma moved_list_facts q : In q (moved_refs s1 old ++ [r]) ->
    exists x, nth_error (p_heap s1) q = Some x /\ at_under c old (o_path x) /\
              dget (KPath (np c (o_path x))) (p_dict s) = Some q.
  Proof.
    intros Hin. apply in_app_or in Hin as [Hin|[<-|[]]].
    - destruct (moved_refs_facts q Hin) as [x [H1 [H2 H3]]]. exists x. auto using is_under_at_under.
    - destruct ph_cell_path as (o1 & Hr & Epath). exists o1. rewrite Epath.
      auto using at_under_refl, renamed_cell_filed.
  Qed.

  Lemma moved_of_incl q : In q (moved_of s1 o ++ [r]) -> In q (moved_refs s1 old ++ [r]).
  Proof.
    intros Hin. apply in_app_or in Hin as [H|H]; apply in_or_app; [left; apply moved_of_sub; exact H|right; exact H].
  Qed.

  Lemma live_under_moved q y : nth_error (p_heap s1) q = Some y -> o_exists y = true ->
    is_under c old (o_path y) = true -> In q (moved_of s1 o).
  Proof.
    destruct (ph_cell _ _ _ _ _ _ PH) as (o1 & Hr & Epath & Ekind & _).
    intros Hy Hl HU. unfold moved_of. destruct (o_kind o) eqn:KO.
    - exfalso. unfold c, old in HU. rewrite <- Ec, <- Epath in HU.
      destruct (live_dir_above s1 (o_path o1) q y S1 W1 Hy Hl HU) as (q0 & y0 & T1 & T2 & T3 & T4).
      rewrite Ec, Ed, Epath in T1. fold c old in T1. rewrite renamed_cell_filed in T1.
      assert (y0 = o1) by congruence. congruence.
    - apply in_moved_refs. split; [eapply live_in_fs_refs; eassumption|]. exists y. rewrite Ec. auto.
  Qed.

  Lemma live_at_under_moved q y : nth_error (p_heap s1) q = Some y -> o_exists y = true ->
    at_under c old (o_path y) -> In q (moved_of s1 o ++ [r]).
  Proof.
    intros Hy Hl AU. apply in_or_app. destruct (at_under_cases _ _ _ AU) as [E|E].
    - right. left. pose proof (w_filed s1 W1 q y Hy Hl) as F. rewrite Ec, Ed in F. fold c in F.
      rewrite E, renamed_cell_filed in F. congruence.
    - left. exact (live_under_moved q y Hy Hl E).
  Qed.

  (* the folder found at the target was empty, and is gone *)
  Lemma target_not_above : nth_error (p_heap s1) r = Some o -> is_under c p old = false.
  Proof.
    pose proof (ph_target _ _ _ _ _ _ PH) as Ht. intros Hr.
    destruct (is_under c p old) eqn:U; [exfalso|reflexivity].
    destruct (proj1 (get_live_spec _ _ _ _) Hg) as [_ [_ G3]].
    assert (U1 : is_under (p_cfg s1) p (o_path o) = true) by (rewrite Ec; exact U).
    destruct (live_dir_above s1 p r o S1 W1 Hr G3 U1) as (q0 & y0 & T1 & T2 & T3 & T4).
    rewrite Ec, Ed in T1. pose proof (Ht q0 y0 T1 T2 T3) as ->.
    rewrite <- Ed, <- Ec in T1. pose proof (s_path_at s1 _ _ _ S1 T1 Hr) as Hq.
    apply is_under_spec in U as [U _]. apply np_eq_length in Hq.
    unfold old in U. lia.
  Qed.

  Hypothesis Hnu : is_under c old p = false.

  Lemma moved_sep qa qb a b : In qa (moved_refs s1 old ++ [r]) -> In qb (moved_refs s1 old ++ [r]) -> qa <> qb ->
    nth_error (p_heap s1) qa = Some a -> nth_error (p_heap s1) qb = Some b ->
    np c (new_path old p a) <> np c (o_path b) /\ np c (new_path old p a) <> np c (new_path old p b).
  Proof.
    intros Ia Ib Hab Ha Hb.
    destruct (the_cell (moved_list_facts qa Ia) a Ha) as [Aa Ka].
    destruct (the_cell (moved_list_facts qb Ib) b Hb) as [Ab Kb].
    pose proof (new_path_sep c old p _ qa qb a b Aa Ab Ka Kb Hab) as Sep.
    split; [|exact Sep]. intros E.
    destruct (path_eq_dec (np c old) (np c p)) as [Eq|Neq].
    - (* only the case of the name changes: the new place of b is its old one *)
      apply Sep. rewrite E, np_new_path, <- Eq. apply at_under_split, Ab.
    - destruct (ph_cell _ _ _ _ _ _ PH) as (o1 & Hr & _ & _ & _ & _ & Hcase).
      destruct Hcase as [[-> _]|[_ [Hnp _]]]; [|fold c old in Hnp; congruence].
      rewrite np_new_path, (at_under_split c old _ Ab) in E.
      exact (no_common_descendant c old p _ _ Neq Hnu (target_not_above Hr) E).
  Qed.

  Lemma move_specified_true : move_specified s1 r old p = true.
  Proof.
    unfold move_specified. apply andb_true_iff. split.
    - apply forallb_forall. intros q Hin. destruct (moved_list_facts q Hin) as [x [H1 [_ H3]]].
      unfold own_key_ok. rewrite H1, Ec, Ed. fold c. rewrite H3. apply Nat.eqb_refl.
    - apply all_pairs_cells; [apply nodup_snoc; [apply dedup_nodup|exact renamed_cell_not_moved]|].
      intros qx qy x y Ix Iy Hne Hx Hy.
      destruct (moved_sep qx qy x y Ix Iy Hne Hx Hy) as [Sxy _].
      destruct (moved_sep qy qx y x Iy Ix (fun E => Hne (eq_sym E)) Hy Hx) as [Syx _].
      destruct (the_cell (moved_list_facts qx Ix) x Hx) as [_ Kx].
      destruct (the_cell (moved_list_facts qy Iy) y Hy) as [_ Ky].
      assert (Dxy : np c (o_path x) <> np c (o_path y)) by (intros E; rewrite E, Ky in Kx; congruence).
      pose proof (s_oid s1 S1 qx x Hx) as Ox. pose proof (s_oid s1 S1 qy y Hy) as Oy. rewrite Ec in Ox, Oy. fold c in Ox, Oy.
      assert (Nq : N.of_nat qx <> N.of_nat qy) by (intros E; apply Nat2N.inj in E; contradiction).
      unfold pair_ok, keys_disjoint, old_keys, new_keys. rewrite Ec. fold c. simpl.
      rewrite !andb_true_iff, !negb_true_iff, !orb_false_iff.
      destruct (sane_cases c (s_sane s HS)) as [X|[X1 X2]].
      + rewrite X in *. rewrite Ox, Oy. simpl.
        repeat split; try reflexivity; try (apply path_eqb_false; congruence); try (apply N.eqb_neq; congruence).
      + rewrite X1 in *. rewrite Ox, Oy. simpl.
        assert (Hcs : forall P, np c P = P) by (intros P; apply np_cs; exact X2).
        rewrite !Hcs in *.
        repeat split; try reflexivity; apply path_eqb_false; congruence.
  Qed.

  Hypothesis Hp : p <> [].
  Hypothesis Hv : verify_parent s p = None.

  Lemma rename_relocates : exists s3, move_all s1 (moved_of s1 o ++ [r]) old p = Some s3 /\
    relocated s1 r old p (moved_of s1 o ++ [r]) s3.
  Proof.
    destruct ph_cell_path as (o1 & Hr & Epath).
    pose proof (ph_target _ _ _ _ _ _ PH) as Ht. pose proof (ph_same _ _ _ _ _ _ PH) as Hsame.
    assert (HndM : NoDup (moved_of s1 o)) by (unfold moved_of; destruct (o_kind o); [constructor|apply dedup_nodup]).
    assert (HrM : ~ In r (moved_of s1 o)) by (intros Hin; exact (renamed_cell_not_moved (moved_of_sub _ _ _ Hin))).
    (* move_all_char and relocate_guarded speak of the configuration and dictionary of s1 and of the path of its cell r:
       they are those of s and o *)
    pose proof (move_all_char (moved_of s1 o ++ [r]) s1 old p S1 (nodup_snoc _ _ HndM HrM)) as MC.
    pose proof (fun s3 => relocate_guarded s1 r o1 p (moved_of s1 o) s3 S1 W1 Hr) as RG.
    unfold relocated. rewrite Ec, Ed in MC, RG |- *. rewrite Epath in RG. fold c old in MC, RG |- *.
    destruct MC as (s3 & Mv & _).
    (* the loop goes through: the cells are filed, their new places are apart *)
    { intros q Hin. destruct (moved_list_facts q (moved_of_incl q Hin)) as [x [H1 [_ H3]]]. eauto. }
    { intros q1 q2 x1 x2 I1 I2. apply moved_sep; apply moved_of_incl; assumption. }
    exists s3. split; [exact Mv|]. apply (RG s3 renamed_cell_filed Hp Hnu HndM HrM).
    - intros q Hin. exact (moved_refs_facts q (moved_of_sub _ _ _ Hin)).
    - exact live_under_moved.
    - intros q1 q2 x1 x2 I1 I2 Hne H1 H2. apply (moved_sep q1 q2 x1 x2); auto using moved_of_incl.
    - exact Ht.
    - destruct (verify_parent_ok s p HW Hv) as (r' & y & K1 & K2 & K3 & K4).
      exists r', y. split; [exact K1|]. split; [|auto].
      rewrite Hsame; [exact K2|]. intros Q.
      destruct (s_path s HS _ _ K1) as [z [Hz Hq]]. rewrite (s_path_at s _ _ _ HS Q Hz) in Hq.
      apply np_eq_length in Hq. rewrite length_removelast in Hq.
      destruct p; [congruence|simpl in Hq; lia].
    - exact Mv.
  Qed.
End Guarded.

Lemma rename_guarded_cases s k p r o : S_inv s -> W_inv s -> guard_op s (ORename k p) = true ->
  get_live s k = Some (r, o) ->
  (exists e, rename s k p = (s, Err e) /\ e <> EUnspecified) \/
  exists s1, phase s k p r o s1 /\
    ((path_eqb (o_path o) p = true /\ rename s k p = (s1, Ok k)) \/
     (path_eqb (o_path o) p = false /\
      exists s3' s3, relocated s1 r (o_path o) p (moved_of s1 o ++ [r]) s3' /\ same_core s3' s3 /\
                     rename s k p = rename_finish (p_cfg s) k (o_oid o) r s3)).
Proof.
  intros HS HW Hgd Hg. rewrite rename_unfold, Hg. simpl in Hgd. rewrite Hg in Hgd.
  apply andb_true_iff in Hgd as [Hnr Hnu]. apply negb_true_iff in Hnu.
  assert (Hp : p <> []) by (destruct p; [discriminate|congruence]).
  destruct (verify_parent s p) as [e|] eqn:Hv.
  { left. exists e. split; [reflexivity|eapply verify_parent_err; eauto]. }
  destruct (rename_conflict s o (conflict_at s k p)) as [e|] eqn:Hc.
  { left. exists e. split; [reflexivity|eapply rename_conflict_err; eauto]. }
  destruct (rename_del s (conflict_at s k p)) as [s1 [u|e]] eqn:Hd.
  2:{ left. exists e. split; [reflexivity|]. unfold rename_del in Hd.
      destruct (conflict_at s k p); [eapply delete_err; eauto|discriminate]. }
  right. exists s1. pose proof (pc_phase s k p r o s1 u HS HW Hg Hp Hc Hd) as PH. split; [exact PH|].
  unfold rename_move. destruct (path_eqb (o_path o) p) eqn:Hpe; [left; auto|right; split; [reflexivity|]].
  destruct (rename_relocates HS HW Hg PH Hnu Hp Hv) as [s3' [Mv RL]].
  destruct (ph_cell _ _ _ _ _ _ PH) as [o1 [Hr [Epath _]]]. rewrite <- Epath in Mv.
  destruct (move_snoc s1 _ r o1 p s3' Mv (fun Hin => renamed_cell_not_moved PH (moved_of_sub _ _ _ Hin)) Hr)
    as (s2 & s3 & M2 & R & SC).
  exists s3', s3. split; [exact RL|]. split; [exact SC|].
  destruct p as [|a t]; [congruence|]. rewrite Epath in M2. revert M2. unfold moved_of.
  destruct (o_kind o).
  - simpl. intros E. inversion E; subst s2. rewrite R. reflexivity.
  - intros M2. rewrite (move_specified_true HS HW Hg PH Hnu). simpl. rewrite M2, R. reflexivity.
Qed.

Lemma W_rename s k p : S_inv s -> W_inv s -> guard_op s (ORename k p) = true -> W_inv (fst (rename s k p)).
Proof.
  intros HS HW Hgd. destruct (get_live s k) as [[r o]|] eqn:Hg.
  2:{ unfold rename. rewrite Hg. exact HW. }
  destruct (rename_guarded_cases s k p r o HS HW Hgd Hg)
    as [[e [-> _]]|[s1 [PH [[_ ->]|(_ & s3' & s3 & [W3 _] & SC & ->)]]]].
  - exact HW.
  - exact (ph_W _ _ _ _ _ _ PH).
  - rewrite rename_finish_fst. exact (W_same_core _ _ SC W3).
Qed.

Lemma W_step s o : S_inv s -> W_inv s -> guard_op s o = true -> W_inv (fst (step s o)).
Proof.
  intros HS HW Hg. destruct o; unfold step; rewrite ?fst_rmap; try exact HW.
  - apply W_create; assumption.
  - apply W_mkdir; assumption.
  - apply W_rename; assumption.
  - apply W_upload; assumption.
  - apply W_delete; assumption.
  - unfold read_events. destruct (Nat.leb (p_cursor s) (length (p_log s))); simpl; [|exact HW].
    exact (W_same_core _ _ (same_core_cursor _ _) HW).
  - destruct c; exact (W_same_core _ _ (same_core_cursor _ _) HW).
Qed.

Lemma INV_step s o : INV s -> guard_op s o = true -> INV (fst (step s o)).
Proof. intros [HS HW] Hg. split; [apply S_step; exact HS|apply W_step; assumption]. Qed.

Lemma INV_init c : sane_cfg c = true -> INV (init c).
Proof. intros H. split; [apply S_init|apply W_init]; exact H. Qed.

Lemma INV_run ops : forall s, INV s -> guarded_run s ops = true -> INV (fst (run_ops s ops)).
Proof.
  induction ops as [|o t IH]; intros s HI Hg; simpl; [exact HI|].
  simpl in Hg. apply andb_true_iff in Hg as [G1 G2].
  pose proof (INV_step s o HI G1) as H1.
  destruct (step s o) as [s1 res] eqn:E. simpl in H1, G2.
  pose proof (IH s1 H1 G2) as H2. destruct (run_ops s1 t) as [s2 rs]. exact H2.
Qed.

Lemma clean_op_guard s o : clean_op s (shape_of o) = true -> guard_op s o = true.
Proof.
  destruct o; simpl; auto.
  - intros H. apply andb_true_iff in H as [H1 H3]. apply andb_true_iff in H1 as [_ H2].
    apply andb_true_iff. split; [destruct p; [discriminate|reflexivity]|].
    destruct (get_live s k) as [[r x]|]; [|reflexivity]. apply andb_true_iff in H3 as [_ H3]. exact H3.
  - intros H. apply andb_true_iff in H as [_ H].
    destruct (get_live s k) as [[r x]|]; [|reflexivity]. destruct (o_path x); [discriminate|reflexivity].
Qed.

Lemma clean_run_guarded ops : forall s, clean_run s ops = true -> guarded_run s ops = true.
Proof.
  induction ops as [|o t IH]; intros s H; simpl in *; [reflexivity|].
  apply andb_true_iff in H as [H1 H2]. rewrite (clean_op_guard s o H1). simpl. apply IH. exact H2.
Qed.
