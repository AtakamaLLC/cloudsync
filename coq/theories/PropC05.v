(* PropC05.v — C05: conflict-resolution contract.  When the resolver is called and with what; the two views for
   each kind of answer (same content, pick a side, merged data, fallback); what acceptance of an observed conflict
   run means.  The specified outcome has no schedule argument: acceptance of every explored schedule against it is
   exactly "the outcome never depends on how engine steps interleave". *)
From Coq Require Import NArith List Bool.
From CS Require Import Sx TreeModel ResolverSpec ResolverProofs.
Import ListNotations.

(* the resolver is called exactly once, with the true bytes of both sides, iff the contents differ *)
Theorem C05_called_once_with_true_bytes : forall dir n nc a b ans r,
  outcome dir n nc a b ans = Some r ->
  (a = b -> r_calls r = 0 /\ r_seen r = None) /\ (a <> b -> r_calls r = 1 /\ r_seen r = Some (a, b)).
Proof.
  intros dir n nc a b ans r. unfold outcome. destruct (N.eqb_spec a b) as [->|Hne]; intros H.
  - injection H as <-. easy.
  - split; [easy|]. intros _. destruct ans as [k|k|c [|]|]; inversion H; subst; auto.
Qed.
Print Assumptions C05_called_once_with_true_bytes.

(* identical content on both sides is merged without calling the resolver *)
Theorem C05_same_content_no_call : forall dir n nc a ans, n <> nc ->
  exists r, outcome dir n nc a a ans = Some r /\ r_calls r = 0 /\ r_seen r = None /\
            lookup (r_local r) (dir ++ [n]) = Some (File a) /\ lookup (r_remote r) (dir ++ [n]) = Some (File a) /\
            lookup (r_local r) (dir ++ [nc]) = None /\ lookup (r_remote r) (dir ++ [nc]) = None.
Proof.
  intros dir n nc a ans Hn. apply N.eqb_neq in Hn. unfold outcome. rewrite N.eqb_refl. eexists. split; [reflexivity|].
  unfold r_calls, r_seen, r_local, r_remote, at_. rewrite !lookup_sibling, N.eqb_refl, Hn. auto 10.
Qed.
Print Assumptions C05_same_content_no_call.

(* picking a handle: both sides end with that side's content; the other version survives as the
   '.conflicted' sibling on the losing side exactly when keep is true *)
Theorem C05_pick_local_outcome : forall dir n nc a b keep r,
  a <> b -> n <> nc -> outcome dir n nc a b (PickLocal keep) = Some r ->
  lookup (r_local r) (dir ++ [n]) = Some (File a) /\ lookup (r_remote r) (dir ++ [n]) = Some (File a) /\
  lookup (r_local r) (dir ++ [nc]) = None /\
  lookup (r_remote r) (dir ++ [nc]) = (if keep then Some (File b) else None).
Proof. intros dir n nc a b keep r Hab Hn H. destruct keep; exact (outcome_views _ _ _ _ _ _ _ Hab Hn H). Qed.
Print Assumptions C05_pick_local_outcome.

Theorem C05_pick_remote_outcome : forall dir n nc a b keep r,
  a <> b -> n <> nc -> outcome dir n nc a b (PickRemote keep) = Some r ->
  lookup (r_local r) (dir ++ [n]) = Some (File b) /\ lookup (r_remote r) (dir ++ [n]) = Some (File b) /\
  lookup (r_remote r) (dir ++ [nc]) = None /\
  lookup (r_local r) (dir ++ [nc]) = (if keep then Some (File a) else None).
Proof.
  intros dir n nc a b keep r Hab Hn H. destruct (outcome_views _ _ _ _ _ _ _ Hab Hn H) as (H1 & H2 & H3 & H4).
  destruct keep; auto.
Qed.
Print Assumptions C05_pick_remote_outcome.

(* merged data with keep = false: both sides end with the merged data, nothing else *)
Theorem C05_merged_nokeep_outcome : forall dir n nc a b c r,
  a <> b -> n <> nc -> outcome dir n nc a b (Merged c false) = Some r ->
  lookup (r_local r) (dir ++ [n]) = Some (File c) /\ lookup (r_remote r) (dir ++ [n]) = Some (File c) /\
  lookup (r_local r) (dir ++ [nc]) = None /\ lookup (r_remote r) (dir ++ [nc]) = None.
Proof. intros dir n nc a b c. exact (outcome_views dir n nc a b (Merged c false)). Qed.
Print Assumptions C05_merged_nokeep_outcome.

(* nothing / exception / garbage: the remote version wins and the local one is kept as '.conflicted' *)
Theorem C05_fallback_remote_wins : forall dir n nc a b,
  outcome dir n nc a b Fallback = outcome dir n nc a b (PickRemote true).
Proof. intros dir n nc a b. unfold outcome. destruct (N.eqb a b); reflexivity. Qed.
Print Assumptions C05_fallback_remote_wins.

(* acceptance means: the outcome is specified, the call log is as specified, both views equal the specified ones *)
Theorem C05_accept_conflict_sound : forall dir n nc a b ans calls vl vr,
  accept_conflict dir n nc a b ans calls vl vr = true ->
  exists r, outcome dir n nc a b ans = Some r /\ calls_ok r calls = true /\
            same_tree vl (r_local r) = true /\ same_tree vr (r_remote r) = true.
Proof.
  intros dir n nc a b ans calls vl vr. unfold accept_conflict. destruct (outcome dir n nc a b ans) as [r|]; [|discriminate].
  rewrite !andb_true_iff. intros [[H1 H2] H3]. eauto.
Qed.
Print Assumptions C05_accept_conflict_sound.

Theorem C05_calls_ok_meaning : forall r calls,
  calls_ok r calls = true ->
  match r_seen r with None => calls = [] | Some (a, b) => calls = [(a, b)] end.
Proof.
  intros r calls. unfold calls_ok. destruct (r_seen r) as [[a b]|]; destruct calls as [|[x y] [|z l]]; try discriminate; auto.
  rewrite andb_true_iff, !N.eqb_eq. intros [-> ->]. reflexivity.
Qed.
Print Assumptions C05_calls_ok_meaning.

Example C05_example_accept :
  accept_conflict [] 5%N 6%N 10%N 11%N (PickLocal true) [(10, 11)%N] [([5%N], File 10%N)] [([5%N], File 10%N); ([6%N], File 11%N)] = true.
Proof. vm_compute. reflexivity. Qed.
