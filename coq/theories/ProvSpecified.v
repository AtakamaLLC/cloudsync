(* ProvSpecified.v — a guarded rename from a state satisfying INV never meets the case in which the
   result of MockProvider.rename would depend on the iteration order of a Python set: the model never
   answers EUnspecified (move_specified holds, the loop and the final move go through); step_specified: the same for every
   guarded call (the other calls have no such case). *)
From Coq Require Import NArith List Bool Lia Arith.
From CS Require Import ProvModel ProvProofs ProvWf ProvMove ProvRename.
Import ListNotations.

Lemma rename_specified s k p : INV s -> guard_op s (ORename k p) = true ->
  snd (rename s k p) <> Err EUnspecified.
Proof.
  intros [HS HW] Hgd. destruct (get_live s k) as [[r o]|] eqn:Hg.
  2:{ unfold rename. rewrite Hg. discriminate. }
  destruct (rename_guarded_cases s k p r o HS HW Hgd Hg)
    as [[e [-> He]]|[s1 [PH [[_ ->]|(_ & s3' & s3 & RL & SC & ->)]]]].
  - simpl. congruence.
  - discriminate.
  - destruct RL as (_ & _ & Hmoved & _). destruct SC as (_ & SC & _).
    destruct (ph_cell _ _ _ _ _ _ PH) as [o1 [Hr _]].
    destruct (Hmoved r o1 (in_elt r _ []) Hr) as [N1 _].
    rewrite <- SC in N1. exact (rename_finish_specified _ _ _ _ _ _ N1).
Qed.

Lemma step_specified s o : INV s -> guard_op s o = true -> snd (step s o) <> Err EUnspecified.
Proof.
  intros HI Hg. destruct o; unfold step; try apply snd_rmap_ne; try (simpl; discriminate).
  - destruct (create_cases s p d) as [[e [-> He]]|(_ & _ & ->)]; simpl; [congruence|discriminate].
  - destruct (mkdir_cases s p) as [[e [-> He]]|[(i & _ & _ & ->)|(_ & _ & ->)]]; simpl; [congruence|discriminate|discriminate].
  - exact (rename_specified s k p HI Hg).
  - unfold upload. destruct (get_live s k) as [[r x]|]; [destruct (o_kind x)|]; discriminate.
  - destruct (delete s k) as [s1 [v|e]] eqn:E; simpl; [discriminate|].
    intros X. inversion X; subst. eapply delete_err; eauto.
  - simpl. destruct (listdir s k) as [l|e] eqn:E; [discriminate|]. rewrite (listdir_err _ _ _ E). discriminate.
  - unfold download. destruct (get_live s k) as [[r x]|]; [destruct (o_kind x)|]; discriminate.
  - destruct (read_events s). discriminate.
  - destruct c; discriminate.
Qed.
