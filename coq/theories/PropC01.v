(* PropC01.v — C01: two-way convergence at quiet, in a bounded number of engine steps.  For every accepted
   trace: the views agree at each quiet report; the step bound holds; what the step counter counts; and one
   rejected trace (views differ at quiet). *)
From Coq Require Import NArith List Bool.
From CS Require Import Sx TreeModel Monitor MonitorProofs MonitorExamples.
Import ListNotations.

Theorem C01_quiet_converged : forall cfg l r tr m',
  accept cfg l r tr = inl m' ->
  forall pre x post, tr = pre ++ x :: post -> o_ev x = EQuiet ->
    same_tree (strip_conflicted cfg (view (rootL cfg) (o_L x))) (strip_conflicted cfg (view (rootR cfg) (o_R x))) = true.
Proof. exact quiet_converged. Qed.
Print Assumptions C01_quiet_converged.

(* the engine never takes more than step_bound steps after the last user operation without having
   reported quiet *)
Theorem C01_steps_bounded : forall cfg l r tr m',
  accept cfg l r tr = inl m' ->
  forall pre x post, tr = pre ++ x :: post -> o_ev x = EStep ->
    exists ma, run_of cfg (init_state cfg l r) pre ma /\ (quiet ma = false -> S (steps ma) <= step_bound cfg).
Proof. exact steps_bounded. Qed.
Print Assumptions C01_steps_bounded.

(* the step counter really counts the engine steps since the last user operation *)
Theorem C01_steps_counter_meaning : forall cfg m tr m',
  run_of cfg m tr m' -> steps m' = steps_since_user tr (steps m).
Proof.
  intros cfg m tr m' Hrun. induction Hrun as [m|m x m1 r m2 Hs Hr IH]; [reflexivity|].
  simpl. apply step_ok_keeps in Hs. rewrite IH. destruct (o_ev x); intuition congruence.
Qed.
Print Assumptions C01_steps_counter_meaning.

Theorem C01_example_rejected_when_views_differ :
  accept (ex_cfg None) ex_l0 ex_r0
    [ {| o_ev := EUser false (Create [1; 3] 7)%N; o_L := ex_l1; o_R := ex_r0 |};
      {| o_ev := EQuiet; o_L := ex_l1; o_R := ex_r0 |} ] = inr (1%nat, G_CONVERGE).
Proof. exact ex_rejected_converge. Qed.
Print Assumptions C01_example_rejected_when_views_differ.
