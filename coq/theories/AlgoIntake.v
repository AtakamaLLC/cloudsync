(* AlgoIntake.v — the invariant is kept by an event-intake step (EventManager.do): the pending events of the side
   are applied one by one; each leaves its object's entry marked changed.
   Intake is the first step that works on one entry, so the tools every such step uses stand here: [inv_entry], and
   [EntOk] of an entry rewritten on one side ([upd_side], [SideNew], [FullOk_upd], [EntOk_upd]). *)
From Coq Require Import NArith List Bool Arith Lia.
From CS Require Import PathModel StateModel StateProofs ProvProofs AlgoModel AlgoCheck AlgoState AlgoProv AlgoPath AlgoInv.
Import ListNotations.
Local Open Scope N_scope.

(* inside the intake loop, l is what is left of side sd's pending list *)
Definition evl_set (evl : evlist) (sd : bool) (l : list ProvModel.event) : evlist :=
  fun sd' => if Bool.eqb sd' sd then l else evl sd'.
Lemma evl_set_same evl sd l : evl_set evl sd l sd = l.
Proof. unfold evl_set. rewrite Bool.eqb_reflx. reflexivity. Qed.
Lemma evl_set_other evl sd l : evl_set evl sd l (negb sd) = evl (negb sd).
Proof. unfold evl_set. destruct sd; reflexivity. Qed.
Lemma evl_set_self evl sd l : evl sd = l -> forall sd0, evl_set evl sd l sd0 = evl sd0.
Proof. intros H sd0. destruct (side_cases sd sd0) as [->| ->]; [rewrite evl_set_same; symmetry; exact H|apply evl_set_other]. Qed.
Lemma evl_set_twice evl sd l l' sd0 : evl_set (evl_set evl sd l) sd l' sd0 = evl_set evl sd l' sd0.
Proof. unfold evl_set. destruct (Bool.eqb sd0 sd); reflexivity. Qed.

Lemma evl_set_sub evl sd ev rest : evl sd = ev :: rest -> forall sd0 ev0, In ev0 (evl_set evl sd rest sd0) -> In ev0 (evl sd0).
Proof.
  intros Hevl sd0 ev0. destruct (side_cases sd sd0) as [->| ->]; [|rewrite evl_set_other; auto].
  rewrite evl_set_same, Hevl. right. assumption.
Qed.
Lemma pd_set_tail evl sd ev rest k : evl sd = ev :: rest -> ProvModel.e_oid ev = kid_of k ->
  forall sd0 k0, pd evl sd0 k0 = true -> pd (evl_set evl sd rest) sd0 k0 = true \/ (sd0 = sd /\ k0 = k).
Proof.
  intros Hevl Hoid sd0 k0. unfold pd. destruct (side_cases sd sd0) as [->| ->]; [|rewrite evl_set_other; auto].
  rewrite evl_set_same, Hevl. cbn [existsb]. intros Hp. apply orb_prop in Hp as [Hp|Hp]; [right|auto].
  unfold ev_for in Hp. rewrite Hoid in Hp. apply key_eqb_eq in Hp. apply kid_of_inj in Hp. auto.
Qed.

Lemma env_of_std : legacy (env_of (cfg_std 1)) = false /\ (forall sd, oip (env_of (cfg_std 1)) sd = false) /\
                   (forall sd, cvs (env_of (cfg_std 1)) sd = mk_conv true).
Proof. repeat split; intros []; reflexivity. Qed.

Lemma nps_file sd n : name_ok n = true -> nps (mk_conv true) (pstr [root_name sd; n]) = pstr [root_name sd; n].
Proof. intros Hn. apply nps_pstr. constructor; [apply root_name_ok|]. constructor; [exact Hn|constructor]. Qed.

Lemma oid_root_ne k : (2 <= k)%nat -> ostr_k k <> ostr_k 1.
Proof. intros H E. apply ostr_k_inj in E. lia. Qed.

Lemma inv_entry evl evl' g w w' e en' :
  InvP evl g w -> touch w w' e en' -> (2 <= e)%nat -> (forall sd, prov_of w' sd = prov_of w sd) ->
  (forall sd ev, In ev (evl' sd) -> In ev (evl sd)) ->
  maxchg en' <= now (w_st w') + 1 -> (forall sd, x_lg (getx w' e sd) <= now (w_st w') + 1) ->
  (forall en sd, nth_error (ents (w_st w)) e = Some en -> s_oid (gs en sd) <> None -> s_oid (gs en' sd) = s_oid (gs en sd)) ->
  (forall sd k, pd evl sd k = true -> pd evl' sd k = true \/ s_oid (gs en' sd) = Some (ostr_k k)) ->
  EntOk evl' g w' e en' -> (forall sd, Seen w' e en' sd) ->
  InvP evl' g w'.
Proof.
  intros I T He Hprov Hsub Hmax Hlg Hkeep Hpd HE Hseen.
  assert (Hobj: forall sd k, obj_at w' sd k = obj_at w sd k) by (intros; apply obj_at_prov, Hprov).
  apply (inv_engine evl evl' g w w' e en' I T He Hmax Hlg); auto.
  - intros sd. rewrite Hprov. split; [apply (i_pwf I)|]. split; [apply (ShapeOk_ext w w' sd (Hobj sd) (i_shape I sd))|].
    apply (LogOk_ext evl evl' w w' sd (Hobj sd) (Hsub sd) (i_log I sd)).
Qed.

Definition upd_side (en en' : StateModel.entry) (sd : bool) : Prop :=
  gs en' (negb sd) = gs en (negb sd) /\ e_ign en' = e_ign en /\
  s_oid (gs en' sd) = s_oid (gs en sd) /\ s_spath (gs en' sd) = s_spath (gs en sd) /\
  s_shash (gs en' sd) = s_shash (gs en sd) /\ s_force (gs en' sd) = s_force (gs en sd).

Lemma upd_side_ss en sd x :
  s_oid x = s_oid (gs en sd) -> s_spath x = s_spath (gs en sd) -> s_shash x = s_shash (gs en sd) ->
  s_force x = s_force (gs en sd) -> upd_side en (ss en sd x) sd.
Proof. intros. unfold upd_side. rewrite gs_ss_same, gs_ss_other, ign_ss. auto 6. Qed.

Lemma upd_side_refl en sd : upd_side en en sd.
Proof. repeat split. Qed.
Lemma upd_side_trans en en1 en2 sd : upd_side en en1 sd -> upd_side en1 en2 sd -> upd_side en en2 sd.
Proof. intros (A1 & B1 & C1 & D1 & E1 & F1) (A2 & B2 & C2 & D2 & E2 & F2). repeat split; congruence. Qed.

Lemma upd_side_oid en en' sd sd0 : upd_side en en' sd -> s_oid (gs en' sd0) = s_oid (gs en sd0).
Proof. intros (A & _ & B & _). destruct (side_cases sd sd0) as [->| ->]; [exact B|rewrite A; reflexivity]. Qed.

(* the clauses that ask for a change flag hold without one *)
Definition settled (en : StateModel.entry) (sd : bool) (ob : ProvModel.obj) : Prop :=
  s_oid (gs en (negb sd)) <> None /\ ProvModel.o_exists ob = true /\
  s_spath (gs en sd) = Some (pstr (ProvModel.o_path ob)) /\ s_shash (gs en sd) = Some (ProvModel.o_data ob).

(* what the new exists / hash / path of the rewritten side owe the clauses of FullOk that read them *)
Record SideNew (evl' : evlist) (g : ghost) (w' : world) (e : nat) (en en' : StateModel.entry) (sd : bool) (k : nat)
               (ob : ProvModel.obj) : Prop := {
  sn_trash : s_ex (gs en' sd) = ExTrashed -> ProvModel.o_exists ob = false;
  sn_due : is_discarded (e_ign en) = false -> dueP evl' w' e en' sd k ob;
  sn_path : popt (s_path (gs en' sd)) (pstr (ProvModel.o_path ob));
  sn_owner : is_discarded (e_ign en) = false -> forall cs, g_get k (g_of g sd) = Some cs ->
     hopt (s_hash (gs en' sd)) cs /\ (s_path (gs en' sd) <> None -> s_hash (gs en' sd) <> None) /\
     (s_spath (gs en sd) <> None -> s_path (gs en' sd) <> None);
  sn_mirror : is_discarded (e_ign en) = false -> g_get k (g_of g sd) = None ->
     s_ex (gs en' sd) = ExExists /\ s_hash (gs en' sd) = Some (ProvModel.o_data ob) /\
     s_path (gs en' sd) = Some (pstr (ProvModel.o_path ob))
}.

Definition empty_kept (en en' : StateModel.entry) (sd : bool) : Prop :=
  s_oid (gs en sd) = None ->
  s_path (gs en' sd) = None /\ s_hash (gs en' sd) = None /\ tchg (s_chg (gs en' sd)) = false /\
  (is_discarded (e_ign en) = false -> s_ex (gs en' sd) = ExUnknown).

Lemma FullOk_upd evl evl' g w w' e en en' sd k ob :
  upd_side en en' sd -> FullOk evl g w e en sd k ob ->
  (forall k0, obj_at w' (negb sd) k0 = obj_at w (negb sd) k0) ->
  SideNew evl' g w' e en en' sd k ob ->
  (is_discarded (e_ign en) = false -> flagP evl en sd k -> flagP evl' en' sd k \/ settled en sd ob) ->
  FullOk evl' g w' e en' sd k ob.
Proof.
  intros (Uo & Ui & _ & Usp & Ush & _) [Ftrash Fdue Fpath Fspath Fdisc Fc1 Fc2 Fown Fown2 Fmir] Hobj [Htr Hdue Hpath Hown Hmir] Hfl.
  constructor; rewrite ?Uo, ?Ui, ?Usp, ?Ush; auto.
  - intros Hd Ho. destruct (Hfl Hd (Fc1 Hd Ho)) as [X|(X & _)]; [exact X|contradiction].
  - intros Hd Ho. destruct (Fc2 Hd Ho) as [X|X]; [|right; exact X].
    destruct (Hfl Hd X) as [Y|(_ & Y)]; [left; exact Y|right; exact Y].
  - intros Hd cs Hcs. destruct (Fown Hd cs Hcs) as (_ & P2 & P3 & _ & P5). destruct (Hown Hd cs Hcs) as (M1 & M2 & _).
    repeat (split; [assumption|]). intros Ho. destruct (P5 Ho) as (Q1 & Q2 & Q3 & Q4). repeat (split; [assumption|]).
    split; [|exact Q4]. destruct Q3 as [Q3|(Q3 & Q5)]; [left; exact Q3|].
    destruct (Hfl Hd Q5) as [Y|(_ & _ & _ & Y)]; [right; auto|contradiction].
  - intros Hd cs Hcs. split; [apply (Fown2 Hd cs Hcs)|apply (Hown Hd cs Hcs)].
  - intros Hd Hcs. destruct (Fmir Hd Hcs) as (P1 & _ & P3 & _ & P5 & _ & (k' & ob' & R1 & R2 & R3 & R4)).
    destruct (Hmir Hd Hcs) as (M1 & M2 & M3). repeat (split; [assumption|]). exists k', ob'. rewrite Hobj. auto.
Qed.

Lemma same_object w sd k k0 ob ob0 : ostr_k k = ostr_k k0 -> obj_at w sd k = Some ob -> obj_at w sd k0 = Some ob0 ->
  k0 = k /\ ob0 = ob.
Proof. intros Hk Hob Hob0. apply ostr_k_inj in Hk. subst k0. split; congruence. Qed.

Lemma EntOk_full evl g w e en sd k ob : EntOk evl g w e en -> s_oid (gs en sd) = Some (ostr_k k) ->
  obj_at w sd k = Some ob -> (2 <= k)%nat /\ FullOk evl g w e en sd k ob.
Proof.
  intros EO Ho Hob. destruct (so_full (eo_side EO sd) _ Ho) as (k1 & ob1 & Hk1 & Hob1 & Hk & F).
  destruct (same_object w sd k k1 ob ob1 Hk1 Hob Hob1) as (-> & ->). auto.
Qed.
Arguments EntOk_full {evl g w e en sd k ob}.

Lemma EntOk_upd evl evl' g w w' e en en' sd :
  EntOk evl g w e en -> upd_side en en' sd -> s_otype (gs en' sd) = File ->
  (forall sd0 k0, obj_at w' sd0 k0 = obj_at w sd0 k0) ->
  (forall k ob, s_oid (gs en (negb sd)) = Some (ostr_k k) -> obj_at w (negb sd) k = Some ob ->
     FullOk evl g w e en (negb sd) k ob ->
     (pd evl (negb sd) k = true -> pd evl' (negb sd) k = true) /\
     (is_discarded (e_ign en) = false -> dueP evl' w' e en' (negb sd) k ob)) ->
  (forall k ob, s_oid (gs en sd) = Some (ostr_k k) -> obj_at w sd k = Some ob ->
     FullOk evl g w e en sd k ob -> FullOk evl' g w' e en' sd k ob) ->
  empty_kept en en' sd ->
  EntOk evl' g w' e en'.
Proof.
  intros [A B C] U Hot Hobj Hother Hside Hnone. pose proof U as (Uo & Ui & Uid & Usp & Ush & Ufo).
  constructor.
  - rewrite Ui. exact A.
  - destruct sd; simpl in *; [rewrite Uo, Uid|rewrite Uid, Uo]; exact B.
  - intros sd0. destruct (side_cases sd sd0) as [->| ->].
    + destruct (C sd) as [c1 c2 c3 c5 c4]. constructor; rewrite ?Uid, ?Ui, ?Usp, ?Ush, ?Ufo; auto.
      * intros Hn. destruct (c3 Hn) as (_ & _ & _ & X4 & X5). destruct (Hnone Hn) as (Y1 & Y2 & Y3 & _). auto.
      * intros Hn. apply (Hnone Hn).
      * intros o Ho. destruct (c4 o Ho) as (k & ob & -> & Hob & Hk & F). exists k, ob. rewrite Hobj. auto 6.
    + destruct (C (negb sd)) as [c1 c2 c3 c5 c4]. constructor; rewrite ?Uo, ?Ui; auto.
      intros o Ho. destruct (c4 o Ho) as (k & ob & -> & Hob & Hk & F). exists k, ob. rewrite Hobj.
      repeat (split; [auto|]). destruct (Hother k ob Ho Hob F) as (Hpd & Hdue).
      apply (FullOk_frame evl evl' g g w w' e en en' (negb sd) k ob F); rewrite ?Bool.negb_involutive; auto.
      intros k' ob' _ Hob' Hn. exists ob'. rewrite Hobj. auto.
Qed.

Lemma maxchg_ss_chg en sd x v : chgv (gs en sd) <= v -> s_chg x = CNum v -> maxchg (ss en sd x) = N.max (maxchg en) v.
Proof. intros Hle Hx. unfold maxchg, chgv in *. destruct sd; simpl in *; rewrite Hx; simpl; lia. Qed.

Lemma EntOk_event evl evl' g w w' e en sd k ob b stamp :
  EntOk evl g w e en -> s_oid (gs en sd) = Some (ostr_k k) -> obj_at w sd k = Some ob ->
  (forall sd0 k0, obj_at w' sd0 k0 = obj_at w sd0 k0) -> (forall sd0, getx w' e sd0 = getx w e sd0) ->
  (b = false -> ProvModel.o_exists ob = false) ->
  (forall k0, pd evl (negb sd) k0 = true -> pd evl' (negb sd) k0 = true) ->
  x_lg (getx w e sd) < stamp -> chgv (gs en sd) <= stamp -> tchg (CNum stamp) = true ->
  EntOk evl' g w' e (ss en sd (w_chg (w_ex (gs en sd) (ev_ex (s_ex (gs en sd)) b)) (CNum stamp))).
Proof.
  intros EO Ho Hob Hobj Hx Hdead Hpd Hlg Hchg Hts.
  set (x' := w_chg (w_ex (gs en sd) (ev_ex (s_ex (gs en sd)) b)) (CNum stamp)).
  assert (U: upd_side en (ss en sd x') sd) by (apply upd_side_ss; reflexivity).
  assert (Hmax: maxchg (ss en sd x') = N.max (maxchg en) stamp) by (apply maxchg_ss_chg; [exact Hchg|reflexivity]).
  apply (EntOk_upd evl evl' g w w' e en _ sd EO U); rewrite ?gs_ss_same; try exact Hobj.
  - exact (so_file (eo_side EO sd)).
  - intros k1 ob1 _ _ F. split; [apply Hpd|]. intros Hd.
    apply (dueP_mono evl evl' w w' e en _ _ k1 ob1 (fo_due F Hd)); [apply Hpd|rewrite Hx; reflexivity|lia|apply gs_ss_other].
  - intros k1 ob1 Ho1 Hob1 F. destruct (same_object w sd k k1 ob ob1 ltac:(congruence) Hob Hob1) as (-> & ->).
    pose proof F as [Ftrash _ Fpath _ _ _ _ _ Fown2 Fmir].
    apply (FullOk_upd evl evl' g w w' e en _ sd k ob U F (Hobj (negb sd))).
    + constructor; rewrite ?gs_ss_same; cbn [x' w_chg w_ex s_ex s_path s_hash].
      * (* sn_trash *) unfold ev_ex. destruct (s_ex (gs en sd)), b; simpl; intros Ht; try discriminate; auto.
      * (* sn_due *) intros _. right. left. rewrite Hx. lia.
      * exact Fpath.
      * intros Hd cs Hcs. destruct (fo_hash_in F Hd Hcs) as (P1 & P4). destruct (Fown2 Hd cs Hcs) as (_ & P6). auto.
      * intros Hd Hcs. destruct (Fmir Hd Hcs) as (P1 & P2 & _ & P4 & _ & P6 & _). rewrite P2. repeat split; auto.
        destruct b; [reflexivity|]. rewrite (Hdead eq_refl) in P1. discriminate.
    + intros _ _. left. left. rewrite gs_ss_same. exact Hts.
  - intros Hn. congruence.
Qed.

Lemma root_check evl g w sd k : InvP evl g w -> (2 <= k)%nat ->
  exists ri, ProvModel.info_path (prov_of w sd) (root_of (w_cfg w) sd) = Some ri /\
             ProvModel.key_eqb (ProvModel.i_oid ri) (kid_of k) = false.
Proof.
  intros I Hk. rewrite (i_cfg I).
  destruct (sh_root1 (i_shape I sd)) as (r1 & H1 & Hl & Hp & _). unfold obj_at in H1.
  pose proof (info_path_live _ _ _ (i_pwf I sd) H1 Hl) as Hi. rewrite Hp in Hi.
  exists (ProvModel.info_of r1). split; [destruct sd; exact Hi|].
  simpl. rewrite (pw_oid _ (i_pwf I sd) _ _ H1).
  destruct (ProvModel.key_eqb (kid_of 1) (kid_of k)) eqn:E; [|reflexivity].
  apply key_eqb_eq in E. apply kid_of_inj in E. lia.
Qed.

Lemma xlg_le evl g w e sd : InvP evl g w -> x_lg (getx w e sd) <= now (w_st w) + 1.
Proof.
  intros I. destruct (nth_error (ents (w_st w)) e) as [en|] eqn:Hn; [apply (i_clke I e en Hn)|].
  apply nth_error_None in Hn. rewrite (i_xlen I e sd Hn). simpl. lia.
Qed.

(* the event at the head of side sd's list, about object k, has been applied to entry e *)
Lemma inv_event evl g w sd ev rest k e en' s1 :
  InvP evl g w -> evl sd = ev :: rest -> ProvModel.e_oid ev = kid_of k -> (2 <= e)%nat ->
  nth_error (ents s1) e = Some en' -> (forall x, x <> e -> nth_error (ents s1) x = nth_error (ents (w_st w)) x) ->
  (forall x, set_mem x (cset s1) = if Nat.eqb x e then true else set_mem x (cset (w_st w))) ->
  now s1 = now (w_st w) + 2000 -> lastch s1 = now (w_st w) + 2000 -> IdxJ s1 ->
  s_oid (gs en' sd) = Some (ostr_k k) -> tchg (s_chg (gs en' sd)) = true -> maxchg en' = now (w_st w) + 2000 ->
  (forall en, nth_error (ents (w_st w)) e = Some en -> upd_side en en' sd) ->
  EntOk (evl_set evl sd rest) g (commit (with_st w (st_tape s1 []))) e en' ->
  InvP (evl_set evl sd rest) g (commit (with_st w (st_tape s1 []))).
Proof.
  intros I Hevl Hoid He Hen' Hoth Hcs Hnow Hlast HJ Ho Hchg Hmax Hkeep HE.
  pose proof (fun sd0 => xlg_le evl g w e sd0 I) as Hlg.
  apply (inv_entry evl (evl_set evl sd rest) g w _ e en' I); auto.
  - constructor; cbn [commit with_st w_st w_cfg st_dirty st_tape ents cset now lastch tape]; auto.
    + apply others_same, Hoth.
    + intros x Hne. rewrite Hcs. destruct (Nat.eqb_spec x e); [contradiction|reflexivity].
    + rewrite Hcs, Nat.eqb_refl. symmetry. apply (flagged_side en' sd); [exact Hchg|rewrite Ho; reflexivity].
    + rewrite Hnow. lia.
    + rewrite Hnow, Hlast. intros _. apply N.le_refl.
  - apply (evl_set_sub _ _ _ _ Hevl).
  - cbn [commit with_st w_st st_dirty st_tape now]. rewrite Hnow, Hmax. lia.
  - intros sd0. cbn [commit with_st w_st st_dirty st_tape now]. rewrite Hnow. apply (N.le_trans _ _ _ (Hlg sd0)). lia.
  - intros en sd0 Hn _. apply (upd_side_oid en en' sd), Hkeep, Hn.
  - intros sd0 k0 Hp. destruct (pd_set_tail evl sd ev rest k Hevl Hoid sd0 k0 Hp) as [Y|(-> & ->)]; [left; exact Y|right; exact Ho].
  - intros sd0 _ _ Hp. pose proof (N.le_trans _ _ _ Hp (Hlg sd0)). cbn [commit with_st w_st st_dirty st_tape now] in Hp. lia.
Qed.

Lemma process_event_run evl g w sd ev rest :
  InvP evl g w -> evl sd = ev :: rest ->
  exists w', process_event w sd ev = ROk w' /\ InvP (evl_set evl sd rest) g w' /\
    w_x w' = w_x w /\ forall sd0, prov_of w' sd0 = prov_of w sd0.
Proof.
  intros I Hevl.
  destruct (i_log I sd ev ltac:(rewrite Hevl; left; reflexivity)) as (k & ob & Hoid & Hk & Hob & Hot & Hdead).
  destruct (sh_files (i_shape I sd) k ob Hk Hob) as (Hkf & n & Hpn & Hnok).
  pose proof (i_cfg I) as Hcfg.
  unfold process_event. rewrite Hcfg.
  assert (Hf: (oip_of (cfg_std 1) sd || c_filt (cfg_std 1))%bool = false) by (destruct sd; reflexivity).
  rewrite Hf. rewrite <- Hcfg.
  destruct (root_check evl g w sd k I Hk) as (ri & Hri & Hrk). rewrite Hri, Hoid, Hrk. cbn [rbind].
  rewrite kstr_kid. unfold lookup_oid.
  set (s0 := st_tape (w_st w) [TSwap false; TSwap false]) in *.
  assert (HI0: IdxJ s0) by (apply IdxJ_st_tape; apply (i_idx I)).
  assert (Hclk0: lastch s0 <= now s0) by (apply (i_clk I)).
  assert (HE: E w = env_of (cfg_std 1)) by (unfold E; rewrite Hcfg; reflexivity).
  destruct env_of_std as (Hleg & Hoip & Hcvs).
  assert (Hty: otype_of_kind (ProvModel.e_otype ev) = File) by (rewrite Hot, Hkf; reflexivity).
  rewrite Hty.
  set (stamp := now s0 + 2000).
  assert (Hts: tchg (CNum stamp) = true) by (apply tchg_pos; unfold stamp; lia).
  assert (Hstamp: stamp = now (w_st w) + 2000) by reflexivity.
  destruct (al_get (ostr_k k) (oids (w_st w) sd)) as [e|] eqn:Ea.
  - destruct (idx_lookup _ _ _ _ (i_idx I) Ea) as (en & He & Ho). rewrite He.
    pose proof (entry_ge2 _ _ _ _ _ _ _ I He Ho Hk) as He2.
    pose proof (i_ents I e en He2 He) as EO.
    pose proof (proj2 (EntOk_full EO Ho Hob)) as FO.
    assert (Hnp: forall p, s_path (gs en sd) = Some p -> nps (cvs (env_of (cfg_std 1)) sd) p = p).
    { intros p Hp. rewrite Hcvs. destruct (fo_path FO) as [X|X]; [congruence|].
      assert (p = pstr (ProvModel.o_path ob)) by congruence. subst p. rewrite Hpn. apply nps_file, Hnok. }
    destruct (update_known_eff (env_of (cfg_std 1)) Hleg Hoip s0 sd (ostr_k k) e en (ProvModel.e_exists ev) File
                He Ea Ho (tstr_ostr k) (so_file (eo_side EO sd)) ltac:(discriminate) Hnp Hclk0)
      as (s1 & Hu & F1).
    unfold st_op. fold s0. rewrite HE, Hu. cbn [rbind]. eexists. split; [reflexivity|]. split; [|split; [reflexivity|intros []; reflexivity]].
    fold stamp in F1.
    set (x1 := w_ex (gs en sd) (ev_ex (s_ex (gs en sd)) (ProvModel.e_exists ev))) in *.
    destruct (chg_entry_stamp (ss en sd x1) sd (CNum stamp) Hts) as (Hpend & Hen').
    { rewrite gs_ss_same. cbn [x1 w_ex s_oid]. rewrite Ho. reflexivity. }
    rewrite gs_ss_same, ss_ss in Hen'.
    rewrite Hen', Hpend in F1. destruct F1 as (A1 & B1 & C1 & D1 & J1).
    set (en' := ss en sd (w_chg x1 (CNum stamp))) in *.
    destruct (i_clke I e en He) as (Hmx & Hlgs).
    assert (Hc: chgv (gs en sd) <= stamp) by (unfold maxchg in Hmx; destruct sd; simpl in *; lia).
    apply (inv_event evl g w sd ev rest k e en' s1 I Hevl Hoid He2); auto.
    + rewrite A1. eapply nth_upd_at_same; eauto.
    + intros x Hne. rewrite A1. apply nth_upd_at_other. congruence.
    + unfold en'. rewrite gs_ss_same. exact Ho.
    + unfold en'. rewrite gs_ss_same. exact Hts.
    + unfold en'. rewrite (maxchg_ss_chg en sd (w_chg x1 (CNum stamp)) stamp Hc eq_refl). lia.
    + intros en0 Hen0. assert (en0 = en) by congruence. subst en0. apply upd_side_ss; reflexivity.
    + apply (EntOk_event evl (evl_set evl sd rest) g w _ e en sd k ob (ProvModel.e_exists ev) stamp EO Ho Hob); auto.
      * (* with ev off the list, what was pending stays so, except for object k of side sd *)
        intros k0 Hp. destruct (pd_set_tail evl sd ev rest k Hevl Hoid _ _ Hp) as [Y|(Y & _)]; [exact Y|destruct sd; discriminate].
      * specialize (Hlgs sd). lia.
  - destruct (update_new_eff (env_of (cfg_std 1)) Hleg Hoip s0 sd (ostr_k k) (ProvModel.e_exists ev) File false [TSwap false]
                Ea (tstr_ostr k) ltac:(discriminate) Hclk0 eq_refl) as (s1 & Hu & A1 & B1 & C1 & D1 & J1).
    unfold st_op. fold s0. rewrite HE, Hu. cbn [rbind]. eexists. split; [reflexivity|]. split; [|split; [reflexivity|intros []; reflexivity]].
    fold stamp in A1, C1, D1.
    set (e := length (ents s0)) in *.
    set (side' := w_chg (w_ex (w_oid (new_side File) (Some (ostr_k k))) (ev_ex ExUnknown (ProvModel.e_exists ev))) (CNum stamp)).
    match type of A1 with _ = _ ++ [?X] => set (en' := X) in * end.
    assert (Hen': en' = ss (new_entry File) sd side').
    { unfold en', chg_entry, chg_pending. rewrite !gs_ss_same, Hts. cbn [w_ex w_oid s_oid tstr ostr_k andb orb negb].
      rewrite !gs_ss_same, !ss_ss. reflexivity. }
    assert (Hgs: gs en' sd = side') by (rewrite Hen'; apply gs_ss_same).
    assert (Hgo: gs en' (negb sd) = new_side File) by (rewrite Hen', gs_ss_other; destruct sd; reflexivity).
    assert (Hlen2: (2 <= e)%nat).
    { destruct (i_roots I) as (e0 & e1 & _ & H1 & _).
      assert (1 < length (ents (w_st w)))%nat by (apply nth_error_Some; congruence). exact H. }
    assert (Hnew: nth_error (ents (w_st w)) e = None) by (apply nth_error_None; apply Nat.le_refl).
    assert (Hmax: maxchg en' = stamp) by (rewrite Hen'; unfold maxchg, chgv; destruct sd; simpl; lia).
    apply (inv_event evl g w sd ev rest k e en' s1 I Hevl Hoid Hlen2); auto.
    + rewrite A1. apply nth_error_mid.
    + intros x Hne. rewrite A1, nth_error_snoc. fold e. destruct (Nat.eqb_spec x e); [contradiction|reflexivity].
    + rewrite Hgs. reflexivity.
    + rewrite Hgs. exact Hts.
    + intros en0 Hen0. congruence.
    + (* the new entry: side sd shows object k, flagged and due for a refresh; the other side is empty *)
      assert (Hfl: flagP (evl_set evl sd rest) en' sd k) by (left; rewrite Hgs; exact Hts).
      assert (Hign: e_ign en' = INone) by (rewrite Hen'; apply ign_ss).
      constructor.
      * left. exact Hign.
      * destruct sd; [right|left]; (change (e_r en') with (gs en' true) || change (e_l en') with (gs en' false)); rewrite Hgs; discriminate.
      * intros sd0. destruct (side_cases sd sd0) as [->| ->].
        -- constructor; rewrite Hgs; cbn [side' w_chg w_ex w_oid s_otype s_force s_oid new_side]; try reflexivity; try discriminate.
           intros o Ho'. injection Ho' as <-. exists k, ob. repeat (split; [auto|]).
           constructor; rewrite ?Hgs, ?Hgo, ?Hign; cbn [side' w_chg w_ex w_oid s_ex s_path s_spath s_hash s_shash s_oid s_chg new_side];
             try (left; reflexivity); try discriminate; auto.
           ++ unfold ev_ex. destruct (ProvModel.e_exists ev) eqn:Eb; simpl; intros Ht; [discriminate|apply Hdead; reflexivity].
           ++ intros _. right. left. pose proof (xlg_le evl g w e sd I). change (x_lg (getx w e sd) < maxchg en'). lia.
           ++ intros _ cs Hcs. destruct (i_ghost I sd k cs Hcs) as (_ & ob2 & r & Hob2 & Hcs2).
              assert (ob2 = ob) by congruence. subst ob2.
              split; [left; reflexivity|]. split; [left; reflexivity|]. split; [exists r; exact Hcs2|].
              split; intros Hx; exfalso; apply Hx; reflexivity.
           ++ intros _ Hg. exfalso.
              pose proof (obj_at_lt _ _ _ _ Hob) as Hlt.
              destruct (i_cove I sd k Hk Hlt Hg) as (x & xn & Hxn & Hox).
              rewrite (IdxJ_holder _ _ _ _ _ (i_idx I) Hxn Hox) in Ea. discriminate.
        -- constructor; rewrite Hgo; cbn [new_side s_otype s_force s_oid s_chg s_path s_hash s_spath s_shash s_ex tchg]; try reflexivity.
           ++ intros _. repeat split.
           ++ intros o Ho'. discriminate.
Qed.

Lemma process_events_run l : forall evl g w sd,
  InvP evl g w -> evl sd = l ->
  exists w', process_events w sd l = ROk w' /\ InvP (evl_set evl sd []) g w' /\
    w_x w' = w_x w /\ forall sd0, prov_of w' sd0 = prov_of w sd0.
Proof.
  induction l as [|ev rest IH]; intros evl g w sd I Hevl.
  - exists w. split; [reflexivity|]. split; [|auto]. apply (InvP_ext evl); [|exact I].
    apply evl_set_self, Hevl.
  - destruct (process_event_run evl g w sd ev rest I Hevl) as (w1 & E1 & I1 & X1 & P1). simpl. rewrite E1. cbn [rbind].
    pose proof (evl_set_same evl sd rest) as Hr.
    destruct (IH _ g w1 sd I1 Hr) as (w' & E2 & I2 & X2 & P2). exists w'. split; [exact E2|].
    split; [|split; [congruence|intros sd0; rewrite P2; apply P1]].
    apply (InvP_ext (evl_set (evl_set evl sd rest) sd [])); [|exact I2].
    intros sd0. symmetry. apply evl_set_twice.
Qed.

Lemma InvP_cursor evl g w sd : InvP evl g w ->
  InvP evl g (with_prov w sd (ProvModel.with_cursor (prov_of w sd) (length (ProvModel.p_log (prov_of w sd))))).
Proof.
  intros I. set (w' := with_prov w sd _).
  apply (InvP_frame evl evl g w w' I); auto; try (unfold w', with_prov; destruct sd; reflexivity).
  - intros sd0. unfold w'. destruct (side_cases sd sd0) as [->| ->]; [rewrite prov_with_same; apply PWF_with_cursor|rewrite prov_with_other]; apply (i_pwf I).
  - intros sd0. unfold w', with_prov. destruct sd, sd0; reflexivity.
Qed.

(* EventManager.do never leaves the fragment *)
Lemma intake_run g w sd : Inv g w ->
  exists w', intake w sd = ROk w' /\ Inv g w' /\ w_x w' = w_x w /\
    forall sd0, ProvModel.p_heap (prov_of w' sd0) = ProvModel.p_heap (prov_of w sd0).
Proof.
  intros I. unfold intake. rewrite (read_events_all _ (i_pwf I sd)).
  set (w1 := with_prov w sd _).
  pose proof (InvP_cursor _ g w sd I) as I1. fold w1 in I1.
  destruct (process_events_run _ (real_evl w) g w1 sd I1 eq_refl) as (w' & H & I2 & X2 & P2). exists w'. split; [exact H|].
  split; [|split; [rewrite X2; unfold w1, with_prov; destruct sd; reflexivity|
                   intros sd0; rewrite P2; unfold w1, with_prov; destruct sd, sd0; reflexivity]].
  apply (InvP_ext (evl_set (real_evl w) sd [])); [|exact I2].
  intros sd0. unfold real_evl at 1. rewrite P2. destruct (side_cases sd sd0) as [->| ->].
  - rewrite evl_set_same. unfold w1, with_prov. destruct sd; simpl; apply events_from_read.
  - rewrite evl_set_other. unfold w1, with_prov. destruct sd; reflexivity.
Qed.
