(* CrashRecover.v — C07, part B: the engine's plans obey the discipline (no guard of a planned operation ever
   fails), and from EVERY crash state of a plan-driven run in which no user acts between a crash and the next
   quiet state, the recovery reaches a settled state with equal views, the origin objects untouched, at most
   one live peer per object and no ".conflicted" name.  Induction over the sequence of steps; inside a step
   every prefix of its plan is a crash point. *)
From Coq Require Import NArith List Bool Arith Lia.
From CS Require Import Sx ListFacts CrashModel CrashProofs.
Import ListNotations.

Definition same_type (a b : kind) : Prop :=
  match a, b with KFile _, KFile _ => True | KDir, KDir => True | _, _ => False end.
(* the test by which plan_sync_slot chooses between creation and rename / upload *)
Definition linked (r : ent) : bool := s_has (e_peer r) && s_live (e_peer r).

(* insync: what a covered, unmarked row promises; matches_marks: what holds outside a recovery, whatever the origin
   did *)
Definition insync (r : ent) (o p : ost) : Prop :=
  s_spath (e_org r) = Some (os_path o) /\ s_shash (e_org r) = hash_of (os_kind o) /\
  reflects p o = true /\ os_live o = true.
Definition matches_marks (r : ent) (p : ost) : Prop :=
  s_spath (e_org r) = Some (os_path p) /\ s_shash (e_org r) = hash_of (os_kind p) /\ os_live p = true.
Definition half (r : ent) (o p : ost) : Prop :=
  (s_spath (e_org r) = Some (os_path p) \/ os_path p = os_path o) /\
  (s_shash (e_org r) = hash_of (os_kind p) \/ os_kind p = os_kind o) /\
  os_conf p = false /\ same_type (os_kind p) (os_kind o).

(* rinv's linked case apart from the marks clause (rinv_linked): what holds of the recorded peer q between the
   provider writes of a sync plan and the record *)
Definition peer_mid (r : ent) (o : ost) (d ev : nat) (q : ost) : Prop :=
  (os_live o = true -> os_live q = true) /\ half r o q /\ (ev <= d -> s_changed (e_org r) = false -> insync r o q).

(* the durable invariant of one slot; rec = a crash happened and the engine has not been quiet since;
   d = the stored cursor of the origin side.  It reads the row, the origin and the peers only, never memory: a
   memory update keeps it by conversion.  By cases of the row:
     no row: nothing was made for the object and its events are still to come (d < o_ev);
     discarded: the deletion is propagated, origin and every peer are dead;
     linked (the row knows a live peer): exactly that one peer, at index 0; it is half-way between the marks and the
       origin (half: what a crash between rename, upload and commit can leave), alive if the origin is; outside a
       recovery it is still as the marks say; a covered row without change mark is in sync;
     not linked: a covered row carries the change mark (the sync is still due); there is no peer, or, only during a
       recovery, the one the interrupted sync created, which reflects the origin (it will be adopted). *)
Definition rinv (rec : bool) (d : nat) (sl : slot) : Prop :=
  let o := o_now (sl_org sl) in
  os_conf o = false /\
  match sl_row sl with
  | None => sl_peers sl = [] /\ d < o_ev (sl_org sl)
  | Some r =>
    s_has (e_org r) = true /\
    if e_disc r then os_live o = false /\ any_live (sl_peers sl) = false
    else if linked r then
      exists p, sl_peers sl = [p] /\ e_ref r = 0 /\ half r o (o_now p) /\
                (os_live o = true -> os_live (o_now p) = true) /\
                (rec = false -> matches_marks r (o_now p)) /\
                (o_ev (sl_org sl) <= d -> s_changed (e_org r) = false -> insync r o (o_now p))
    else
      (o_ev (sl_org sl) <= d -> s_changed (e_org r) = true) /\
      (sl_peers sl = [] \/
       (rec = true /\ exists p, sl_peers sl = [p] /\ os_live o = true /\ reflects (o_now p) o = true))
  end.

Definition bnd_slot (sl : slot) : Prop := sl_dirty sl = false /\ sl_mem sl = sl_row sl.

Lemma rinv_linked rec d sl r :
  sl_row sl = Some r -> e_disc r = false -> linked r = true ->
  os_conf (o_now (sl_org sl)) = false -> s_has (e_org r) = true ->
  (rinv rec d sl <->
   exists p, sl_peers sl = [p] /\ e_ref r = 0 /\ peer_mid r (o_now (sl_org sl)) d (o_ev (sl_org sl)) (o_now p) /\
             (rec = false -> matches_marks r (o_now p))).
Proof.
  intros Er Ed El Hc Hh. unfold rinv, peer_mid. rewrite Er, Ed, El. split.
  - intros (_ & _ & p & A & B & C & D & E & F). exists p. tauto.
  - intros (p & A & B & (C & D & E) & F). split; [assumption|]. split; [assumption|]. exists p. tauto.
Qed.

(* how the invariant of a slot depends on rec and on the stored cursor: (rec', d') is as good as (rec, d) when
   an object covered by d' was covered by d or its row carries the change mark, and, where a recovery is declared
   over, the object is covered and its row carries no change mark (so that the marks are in sync) *)
Lemma rinv_change rec d rec' d' sl : rinv rec d sl ->
  (forall r, sl_row sl = Some r -> o_ev (sl_org sl) <= d' -> o_ev (sl_org sl) <= d \/ s_changed (e_org r) = true) ->
  (forall r, sl_row sl = Some r -> rec = true -> rec' = false -> o_ev (sl_org sl) <= d /\ s_changed (e_org r) = false) ->
  (sl_row sl = None -> d < o_ev (sl_org sl) -> d' < o_ev (sl_org sl)) ->
  rinv rec' d' sl.
Proof.
  unfold rinv. intros [Hc H] H1 H2 H3. split; [assumption|].
  destruct (sl_row sl) as [r|]; [|destruct H; auto].
  specialize (H1 r eq_refl). specialize (H2 r eq_refl). destruct H as [Hh H]. split; [assumption|].
  destruct (e_disc r); [assumption|]. destruct (linked r).
  - destruct H as [p (Hps & Href & Hhalf & Hlive & Hmarks & Hsync)]. exists p. repeat (split; [assumption|]). split.
    + intros ->. destruct rec; [|auto]. destruct (H2 eq_refl eq_refl) as [Hle Hch].
      destruct (Hsync Hle Hch) as (I1 & I2 & I3 & I4). destruct (reflects_eq _ _ I3) as (Rp & Rk & Rl & Rc).
      unfold matches_marks. rewrite Rp, Rk. auto.
    + intros Hle Hch. destruct (H1 Hle); [auto|congruence].
  - destruct H as [A B]. split.
    + intros Hle. destruct (H1 Hle); auto.
    + destruct B as [B|[-> B]]; [now left|]. right. split; [|assumption].
      destruct rec'; [reflexivity|]. destruct (H2 eq_refl eq_refl) as [Hle Hch]. specialize (A Hle). congruence.
Qed.

Lemma rinv_weaken rec d sl : rinv rec d sl -> rinv true d sl.
Proof. intros H. apply (rinv_change rec d); auto. discriminate. Qed.

(* mstep gives sexec the event counter of the peer side and a provider write raises it (bump): srun threads the
   counter and returns it with the slot *)
Definition bump (o : sop) (np : nat) : nat := if is_provider_write o then S np else np.
Fixpoint srun (np : nat) (ops : list sop) (sl : slot) : option (slot * nat) :=
  match ops with
  | [] => Some (sl, np)
  | o :: r => match sexec np o sl with Some sl' => srun (bump o np) r sl' | None => None end
  end.
Set Implicit Arguments.
Record slot_run (x : st) (i : nat) (sl : slot) (y : st) (sl' : slot) : Prop := {
  sr_slots : slots y = set_nth i sl' (slots x);
  sr_mcur : mcur y = mcur x;
  sr_dcur : dcur y = dcur x;
  sr_nev : forall s, sel s (nev x) <= sel s (nev y);
  sr_side : sl_side sl' = sl_side sl;
  sr_org : sl_org sl' = sl_org sl }.
Unset Implicit Arguments.

Lemma run_ops_slot : forall ops x i sl sl' np',
  nth_error (slots x) i = Some sl -> srun (sel (negb (sl_side sl)) (nev x)) ops sl = Some (sl', np') ->
  exists y, run_ops x (map (MSlot i) ops) = Some y /\ slot_run x i sl y sl'.
Proof.
  induction ops as [|o r IH]; intros x i sl sl' np' Ei H; simpl in *.
  - injection H as <- <-. exists x. split; [reflexivity|]. constructor; auto. now rewrite upd_same.
  - rewrite Ei. destruct (sexec _ o sl) as [s1|] eqn:E; [|discriminate].
    destruct (sexec_side _ _ _ _ E) as [Hs Ho].
    set (x1 := {| slots := set_nth i s1 (slots x); nev := _; mcur := mcur x; dcur := dcur x |}).
    destruct (IH x1 i s1 sl' np') as [y [A R]].
    + eapply nth_upd_same; eauto.
    + rewrite Hs. unfold bump in H. subst x1; simpl. destruct (is_provider_write o); [rewrite sel_upd_same|]; exact H.
    + exists y. split; [exact A|]. constructor.
      * rewrite (sr_slots R). apply upd_twice.
      * exact (sr_mcur R).
      * exact (sr_dcur R).
      * intros s. etransitivity; [|apply (sr_nev R)]. subst x1. apply mslot_nev_le.
      * rewrite (sr_side R). exact Hs.
      * rewrite (sr_org R). exact Ho.
Qed.

Definition ent_refreshed (e : ent) (o : obj) : ent :=
  {| e_org := refreshed (e_org e) (o_now o); e_peer := e_peer e; e_ref := e_ref e; e_disc := e_disc e |}.
Definition ent_linked (o p : obj) (k : nat) : ent :=
  {| e_org := synced_side (o_now o); e_peer := synced_side (o_now p); e_ref := k; e_disc := false |}.
Definition ent_discarded (e : ent) : ent :=
  {| e_org := unchanged (e_org e) false; e_peer := unchanged (e_peer e) false; e_ref := e_ref e; e_disc := true |}.
Definition ent_marked (m : option ent) (o : obj) : ent :=
  match m with
  | None => {| e_org := marked no_side (o_now o); e_peer := no_side; e_ref := 0; e_disc := false |}
  | Some e => {| e_org := marked (e_org e) (o_now o); e_peer := e_peer e; e_ref := e_ref e; e_disc := e_disc e |}
  end.
(* commit sl e is slot_of made of sl: what SRow leaves; refreshed_slot: slot_of after SRefresh *)
Definition commit (sl : slot) (e : ent) : slot :=
  {| sl_side := sl_side sl; sl_org := sl_org sl; sl_peers := sl_peers sl; sl_mem := Some e; sl_row := Some e; sl_dirty := false |}.
Definition new_peer (o : obj) (np : nat) : obj :=
  {| o_now := {| os_path := os_path (o_now o); os_kind := os_kind (o_now o); os_live := true; os_conf := false |};
     o_past := []; o_ev := S np |}.
Definition slot_of (sd : bool) (o : obj) (ps : list obj) (r : ent) : slot :=
  {| sl_side := sd; sl_org := o; sl_peers := ps; sl_mem := Some r; sl_row := Some r; sl_dirty := false |}.

Definition refreshed_slot (sd : bool) (o : obj) (ps : list obj) (r : ent) : slot :=
  with_mem (slot_of sd o ps r) (ent_refreshed r o).

Lemma fresh_ent_refreshed r o : fresh (ent_refreshed r o) o = true.
Proof. apply fresh_refreshed. Qed.

Lemma reflects_new_peer o np : reflects (o_now (new_peer o np)) (o_now o) = true.
Proof. unfold reflects, new_peer; simpl. now rewrite N.eqb_refl, kind_eqb_refl. Qed.

Lemma any_live_single p : any_live [p] = os_live (o_now p).
Proof. unfold any_live; simpl. apply orb_false_r. Qed.

Lemma no_live_peers ps : any_live ps = false ->
  flat_map view_of ps = [] /\ live_count ps = 0 /\ existsb (fun o => os_live (o_now o) && os_conf (o_now o)) ps = false.
Proof.
  unfold any_live. induction ps as [|p ps IH]; simpl; intros Ha; [auto|].
  apply orb_false_iff in Ha as [Hp Hps]. destruct (IH Hps) as (I1 & I2 & I3).
  unfold view_of, live_count in *. simpl. rewrite Hp. simpl. auto.
Qed.

Definition done_slot (sl : slot) : Prop := exists r, sl_row sl = Some r /\ s_changed (e_org r) = false.

(* A plan runs from s without a failing guard.  The slot after each of its prefixes is a crash point and has to be
   recoverable (rinv true); only the last one is committed and has to satisfy the invariant of the run it began in
   (rinv rec) *)
Definition runs_ok (rec : bool) (d n : nat) (ops : list sop) (s : slot) (Q : slot -> Prop) : Prop :=
  (forall k, exists sl' np', srun n (firstn k ops) s = Some (sl', np') /\ rinv true d sl') /\
  exists sl' np', srun n ops s = Some (sl', np') /\ bnd_slot sl' /\ rinv rec d sl' /\ Q sl'.

Lemma runs_cons rec d n o ops s s' Q :
  sexec n o s = Some s' -> rinv true d s -> runs_ok rec d (bump o n) ops s' Q -> runs_ok rec d n (o :: ops) s Q.
Proof.
  intros E Hs [HF H]. split.
  - intros [|k]; [exists s, n; auto|]. cbn [firstn srun]. rewrite E. apply HF.
  - cbn [srun]. rewrite E. exact H.
Qed.

Lemma runs_commit rec d n s e (Q : slot -> Prop) :
  sl_mem s = Some e -> rinv true d s -> rinv rec d (commit s e) -> Q (commit s e) -> runs_ok rec d n [SRow] s Q.
Proof.
  intros Hm Hs Hc HQ.
  assert (E : srun n [SRow] s = Some (commit s e, n)) by (cbn [srun sexec]; now rewrite Hm).
  split.
  - intros [|k]; [exists s, n; auto|]. cbn [firstn]. rewrite firstn_nil, E. eauto using rinv_weaken.
  - exists (commit s e), n. split; [exact E|]. split; [split; reflexivity|]. split; assumption.
Qed.

Lemma runs_refresh rec d np sd o ps r ops Q :
  rinv true d (slot_of sd o ps r) -> runs_ok rec d np ops (refreshed_slot sd o ps r) Q ->
  runs_ok rec d np (SRefresh :: ops) (slot_of sd o ps r) Q.
Proof. intros Ht H. eapply runs_cons; [reflexivity|exact Ht|exact H]. Qed.

Lemma runs_discard rec d n sd o ps e r dirty :
  s_has (e_org e) = true -> e_disc e || fresh e o = true ->
  os_live (o_now o) = false -> any_live ps = false ->
  let s := {| sl_side := sd; sl_org := o; sl_peers := ps; sl_mem := Some e; sl_row := Some r; sl_dirty := dirty |} in
  rinv true d s -> runs_ok rec d n [SDiscard; SRow] s done_slot.
Proof.
  intros Hh Hg Hl Ha s Hs.
  apply runs_cons with (s' := with_mem s (ent_discarded e)); [simpl; now rewrite Hg, Hl, Ha|exact Hs|].
  apply (runs_commit _ _ _ _ (ent_discarded e)); [reflexivity|exact Hs| |eexists; split; reflexivity].
  split; [exact (proj1 Hs)|]. simpl. rewrite Hl, Ha. auto.
Qed.

Lemma rinv_linked_entry rc d sd o p mem dirty :
  os_conf (o_now o) = false -> os_live (o_now o) = true -> reflects (o_now p) (o_now o) = true ->
  rinv rc d {| sl_side := sd; sl_org := o; sl_peers := [p]; sl_mem := mem; sl_row := Some (ent_linked o p 0); sl_dirty := dirty |}.
Proof.
  intros Hc Hl Hr. pose proof (reflects_eq _ _ Hr) as (Rp & Rk & Rl & Rc).
  unfold rinv; simpl. split; [assumption|]. split; [reflexivity|].
  exists p. split; [reflexivity|]. split; [reflexivity|]. split.
  - unfold half; simpl. rewrite Rk. repeat split; auto. destruct (os_kind (o_now o)); exact I.
  - split; [auto|]. split.
    + intros _. unfold matches_marks; simpl. rewrite Rp, Rk. auto.
    + intros _ _. unfold insync; simpl. auto.
Qed.

Lemma runs_link rec d n sd o q r e :
  os_live (o_now o) = true -> fresh e o = true -> e_disc e = false ->
  reflects (o_now q) (o_now o) = true ->
  let s := {| sl_side := sd; sl_org := o; sl_peers := [q]; sl_mem := Some e; sl_row := Some r; sl_dirty := true |} in
  rinv true d s -> runs_ok rec d n [SLink 0; SRow] s done_slot.
Proof.
  intros Hl Hf Ed Hrf s Hs.
  apply runs_cons with (s' := with_mem s (ent_linked o q 0)); [simpl; now rewrite Hf, Hl, Ed, Hrf|exact Hs|].
  apply (runs_commit _ _ _ _ (ent_linked o q 0)); [reflexivity|exact Hs| |eexists; split; reflexivity].
  apply rinv_linked_entry; [exact (proj1 Hs)|exact Hl|exact Hrf].
Qed.

(* rename, upload and delete of the recorded peer are instances *)
Lemma peer_mid_write r o d ev q q' : peer_mid r o d ev q ->
  (os_live o = true -> os_live q' = true) -> (os_conf q = false -> os_conf q' = false) ->
  os_path q' = os_path q \/ os_path q' = os_path o -> os_kind q' = os_kind q \/ os_kind q' = os_kind o ->
  peer_mid r o d ev q'.
Proof.
  intros (_ & (H1 & H2 & H3 & H4) & Hi) Hl Hc Hp Hk. split; [exact Hl|]. split.
  - split; [destruct Hp as [->| ->]; auto|]. split; [destruct Hk as [->| ->]; auto|]. split; [auto|].
    destruct Hk as [->| ->]; [exact H4|destruct (os_kind o); exact I].
  - intros A B. destruct (Hi A B) as (I1 & I2 & I3 & I4). pose proof (reflects_eq _ _ I3) as (Rp & Rk & _ & _).
    unfold insync, reflects. repeat split; auto.
    replace (os_path q') with (os_path o) by (destruct Hp; congruence).
    replace (os_kind q') with (os_kind o) by (destruct Hk; congruence).
    now rewrite N.eqb_refl, kind_eqb_refl, Hl, Hc.
Qed.

Lemma hash_of_inj a b : same_type a b -> hash_of a = hash_of b -> a = b.
Proof. destruct a, b; simpl; try tauto; congruence. Qed.

(* the two conditional parts of plan_sync_slot for a linked entry whose peer is peer 0 *)
Definition fix_path (r : ent) (o : ost) : list sop :=
  if opt_eqb (s_spath (e_org r)) (Some (os_path o)) then [] else [SPRename 0].
Definition fix_content (know : bool) (r : ent) (o p : ost) : list sop :=
  if opt_eqb (s_shash (e_org r)) (hash_of (os_kind o)) then []
  else if know && kind_eqb (os_kind p) (os_kind o) then []
  else match os_kind o with KFile _ => [SPUpload 0] | KDir => [] end.

(* the plans for a linked entry r after SRefresh: of a dead origin o ([runs_delete_linked]), then, from Hl on, of a live
   one; mid_ok q is the invariant of their provider writes *)
Section Linked.
  Variables (rec : bool) (d : nat) (sd : bool) (o p : obj) (r : ent) (know : bool).
  Hypotheses (Hconf : os_conf (o_now o) = false) (Hhas : s_has (e_org r) = true) (Ed : e_disc r = false)
             (El : linked r = true) (Er : e_ref r = 0).
  Let mid_slot q := refreshed_slot sd o [q] r.
  Let mid_ok q := peer_mid r (o_now o) d (o_ev o) (o_now q).

  Lemma rinv_mid q : mid_ok q -> rinv true d (mid_slot q).
  Proof.
    intros HP. apply (rinv_linked true d (mid_slot q) r eq_refl Ed El Hconf Hhas).
    exists q. split; [reflexivity|]. split; [exact Er|]. split; [exact HP|discriminate].
  Qed.

  (* the delete_synced branch of plan_sync_slot: the recorded peer is deleted if it is still there *)
  Lemma runs_delete_linked np : os_live (o_now o) = false -> mid_ok p ->
    runs_ok rec d np ((if os_live (o_now p) then [SPDelete 0] else []) ++ [SDiscard; SRow]) (mid_slot p) done_slot.
  Proof.
    intros Hl HP. pose proof (fresh_ent_refreshed r o) as Hfr. pose proof (rinv_mid p HP) as H1.
    destruct (os_live (o_now p)) eqn:Lp; cbn [app].
    - set (p' := push p {| os_path := os_path (o_now p); os_kind := os_kind (o_now p); os_live := false; os_conf := os_conf (o_now p) |} (S np)).
      apply runs_cons with (s' := mid_slot p'); [cbn -[fresh]; now rewrite Hfr, Hl, Lp|exact H1|].
      apply runs_discard; auto; [apply orb_true_iff; now right|]. apply rinv_mid.
      apply (peer_mid_write _ _ _ _ _ _ HP); simpl; auto. congruence.
    - apply runs_discard; auto; [apply orb_true_iff; now right|rewrite <- Lp; apply any_live_single].
  Qed.

  Hypothesis (Hl : os_live (o_now o) = true).

  Lemma runs_mid_link q n : mid_ok q -> reflects (o_now q) (o_now o) = true -> runs_ok rec d n [SLink 0; SRow] (mid_slot q) done_slot.
  Proof. intros HP Hrf. apply runs_link; auto; [apply fresh_ent_refreshed|now apply rinv_mid]. Qed.

  Lemma runs_upload q n : mid_ok q -> os_path (o_now q) = os_path (o_now o) -> os_kind (o_now q) = os_kind (o_now p) ->
    runs_ok rec d n (fix_content know r (o_now o) (o_now p) ++ [SLink 0; SRow]) (mid_slot q) done_slot.
  Proof.
    intros HP Hpath Hkp. pose proof HP as (Lq & (Hq1 & Hq2 & Hq3 & Hq4) & Hqi). specialize (Lq Hl).
    assert (Hrefl : os_kind (o_now q) = os_kind (o_now o) -> reflects (o_now q) (o_now o) = true).
    { intros Hk. unfold reflects. rewrite Hpath, Hk, N.eqb_refl, kind_eqb_refl, Lq, Hq3. reflexivity. }
    unfold fix_content. destruct (opt_eqb (s_shash (e_org r)) (hash_of (os_kind (o_now o)))) eqn:Cu.
    - (* the marks say the content is there *)
      apply runs_mid_link; [assumption|]. apply Hrefl. apply opt_eqb_eq in Cu.
      destruct Hq2 as [Hq2|Hq2]; [|assumption]. apply hash_of_inj; [assumption|congruence].
    - destruct (know && kind_eqb (os_kind (o_now p)) (os_kind (o_now o))) eqn:Ck.
      { (* the entry knows the peer already has this content: merged, no provider write *)
        apply runs_mid_link; [assumption|]. apply Hrefl. apply andb_true_iff in Ck as [_ Ck].
        apply kind_eqb_eq in Ck. congruence. }
      destruct (os_kind (o_now o)) as [c|] eqn:Ko.
      + destruct (os_kind (o_now q)) as [c'|] eqn:Kq; [|destruct Hq4].
        set (q' := push q {| os_path := os_path (o_now q); os_kind := KFile c; os_live := true; os_conf := os_conf (o_now q) |} (S n)).
        assert (HP' : mid_ok q').
        { subst q'. apply (peer_mid_write _ _ _ _ _ _ HP); simpl; auto. }
        apply runs_cons with (s' := mid_slot q'); [simpl; now rewrite fresh_ent_refreshed, Hl, Lq, Ko, Kq|now apply rinv_mid|].
        apply runs_mid_link; [assumption|].
        subst q'. unfold reflects; simpl. rewrite Hpath, Ko, N.eqb_refl. simpl. rewrite N.eqb_refl, Hq3. reflexivity.
      + apply runs_mid_link; [assumption|]. apply Hrefl. destruct (os_kind (o_now q)); [destruct Hq4|reflexivity].
  Qed.

  Lemma runs_linked np : mid_ok p ->
    runs_ok rec d np (fix_path r (o_now o) ++ fix_content know r (o_now o) (o_now p) ++ [SLink 0; SRow])
            (refreshed_slot sd o [p] r) done_slot.
  Proof.
    intros HP0.
    unfold fix_path. destruct (opt_eqb (s_spath (e_org r)) (Some (os_path (o_now o)))) eqn:Cr.
    - apply runs_upload; [assumption| |reflexivity]. apply opt_eqb_eq in Cr.
      destruct HP0 as (_ & ([H|H] & _) & _); [congruence|assumption].
    - set (q' := push p {| os_path := os_path (o_now o); os_kind := os_kind (o_now p); os_live := true; os_conf := false |} (S np)).
      assert (HP' : mid_ok q') by (subst q'; apply (peer_mid_write _ _ _ _ _ _ HP0); simpl; auto).
      apply runs_cons with (s' := mid_slot q'); [simpl; now rewrite fresh_ent_refreshed, Hl, (proj1 HP0 Hl)|now apply rinv_mid|].
      apply runs_upload; [assumption|reflexivity|reflexivity].
  Qed.
End Linked.

(* creation: nothing at the translated path *)
Lemma runs_create rec d np sd o r :
  e_disc r = false -> os_live (o_now o) = true -> linked r = false -> rinv true d (slot_of sd o [] r) ->
  runs_ok rec d np [SPCreate; SLink 0; SRow] (refreshed_slot sd o [] r) done_slot.
Proof.
  intros Ed Hl El H1. pose proof (fresh_ent_refreshed r o) as Hfr.
  pose proof H1 as [Hconf [Hhas Hr']]. cbn [slot_of sl_org sl_peers sl_row] in Hconf, Hhas, Hr'. rewrite Ed, El in Hr'.
  apply runs_cons with (s' := refreshed_slot sd o [new_peer o np] r);
    [cbn -[fresh]; unfold linked in El; now rewrite Hfr, Hl, El|exact H1|].
  apply runs_link; auto using reflects_new_peer.
  unfold rinv; simpl. split; [assumption|]. split; [assumption|]. rewrite Ed, El.
  split; [apply Hr'|]. right. split; [reflexivity|]. exists (new_peer o np).
  split; [reflexivity|]. split; [assumption|]. apply reflects_new_peer.
Qed.

Lemma sync_slot_ok rec d np sl know : bnd_slot sl -> rinv rec d sl ->
  runs_ok rec d np (plan_sync_slot true know sl) sl (fun sl' => o_ev (sl_org sl) <= d -> done_slot sl').
Proof.
  intros [Hd Hm] Hr. destruct sl as [sd o ps mem row dirty]. simpl in Hd, Hm. subst dirty mem.
  pose proof (rinv_weaken _ _ _ Hr) as Ht. unfold plan_sync_slot. cbn [sl_mem sl_row].
  destruct row as [r|].
  2:{ (* no row: nothing in memory, the plan is empty; the object is not covered *)
      split.
      - intros k. rewrite firstn_nil. eexists _, np. split; [reflexivity|exact Ht].
      - eexists _, np. split; [reflexivity|]. split; [split; reflexivity|]. split; [exact Hr|].
        intros Hle. destruct Hr as (_ & _ & Hlt). cbn in Hlt, Hle. lia. }
  enough (runs_ok rec d np (plan_sync_slot true know (slot_of sd o ps r)) (slot_of sd o ps r) done_slot)
    as [HF (sl' & np' & A & B & C & D)] by (split; [exact HF|]; exists sl', np'; auto).
  fold (slot_of sd o ps r) in Hr, Ht. pose proof Hr as [Hconf [Hhas Hr']]. cbn [slot_of sl_org sl_peers sl_row] in Hconf, Hhas, Hr'.
  unfold plan_sync_slot. cbn [slot_of sl_mem sl_org sl_peers].
  destruct (e_disc r) eqn:Ed.
  { (* pre_sync: a discarded entry is marked finished *)
    destruct Hr'. apply runs_discard; auto. now rewrite Ed. }
  fold (linked r). destruct (linked r) eqn:El.
  - apply (rinv_linked rec d (slot_of sd o ps r) r eq_refl Ed El Hconf Hhas) in Hr as [p (E & Er & HP & _)].
    cbn [slot_of sl_peers sl_org] in E, HP. subst ps. pose proof El as Eh. apply andb_true_iff in Eh as [Eh _].
    rewrite Eh, Er. cbn [nth_error].
    (* with the recorded peer at index 0 (Er) what plan_sync_slot lists after SRefresh IS, by conversion, the plan of
       runs_delete_linked, resp. fix_path r (o_now o) ++ fix_content know r (o_now o) (o_now p) ++ [SLink 0; SRow] *)
    destruct (os_live (o_now o)) eqn:Hl; cbn [negb].
    + apply runs_refresh; [exact Ht|]. apply runs_linked; assumption.
    + apply runs_refresh; [exact Ht|]. apply runs_delete_linked; assumption.
  - destruct Hr' as [Hch [->|[-> [p (-> & Hl & Hrf)]]]].
    + destruct (os_live (o_now o)) eqn:Hl; cbn [negb]; [now apply runs_refresh, runs_create|].
      (* delete_synced without a peer *)
      replace (if s_has (e_peer r) then _ else _) with (@nil sop) by (destruct (s_has (e_peer r)); [destruct (e_ref r)|]; reflexivity).
      apply runs_refresh; [exact Ht|]. apply runs_discard; auto. apply orb_true_iff. right. apply fresh_ent_refreshed.
    + (* half-recorded creation: the peer is there with the same content: adopted, no provider write *)
      rewrite Hl. cbn [negb]. pose proof (reflects_eq _ _ Hrf) as (Rp & Rk & Rl & Rc).
      replace (first_live_at (os_path (o_now o)) [p]) with (Some 0)
        by (unfold first_live_at, live_at; now rewrite Rl, Rc, Rp, N.eqb_refl).
      cbn [nth_error]. rewrite Rk, kind_eqb_refl.
      apply runs_refresh; [exact Ht|]. apply runs_link; auto. apply fresh_ent_refreshed.
Qed.

Lemma rinv_marked rec d sl : rinv rec d sl -> rinv rec d (commit sl (ent_marked (sl_row sl) (sl_org sl))).
Proof.
  unfold rinv; simpl. intros [Hc H]. split; [assumption|]. destruct (sl_row sl) as [r|]; simpl.
  - destruct H as [Hh H]. split; [reflexivity|]. destruct (e_disc r); [assumption|].
    change (linked {| e_org := marked (e_org r) (o_now (sl_org sl)); e_peer := e_peer r; e_ref := e_ref r; e_disc := false |})
      with (linked r).
    destruct (linked r).
    + (* the change mark makes the in-sync clause vacuous; the others do not read what SMark writes *)
      destruct H as [p (Hps & Href & Hhalf & Hlive & Hmarks & _)]. exists p. split; [assumption|]. split; [assumption|].
      split; [exact Hhalf|]. split; [assumption|]. split; [exact Hmarks|]. intros _ Hch. discriminate.
    + destruct H as [_ B]. split; [reflexivity|assumption].
  - destruct H as [-> _]. split; [reflexivity|]. split; [reflexivity|]. left. reflexivity.
Qed.

Lemma mark_slot_ok rec d np sl : bnd_slot sl -> rinv rec d sl -> runs_ok rec d np [SMark; SRow] sl (fun _ => True).
Proof.
  intros [Hd Hm] Hr. pose proof (rinv_weaken _ _ _ Hr) as Ht. eapply runs_cons; [reflexivity|exact Ht|].
  apply (runs_commit _ _ _ _ (ent_marked (sl_mem sl) (sl_org sl))); [reflexivity|exact Ht| |exact I].
  rewrite Hm. exact (rinv_marked _ _ sl Hr).
Qed.

(* binv: the invariant at the boundaries between engine steps (CrashProofs.inv holds after every micro operation,
   this one only there); binv_at rec x is binv of the configuration with these two parts *)
Definition good_slot (rec : bool) (x : st) (sl : slot) : Prop :=
  bnd_slot sl /\ rinv rec (sel (sl_side sl) (dcur x)) sl /\ o_ev (sl_org sl) <= sel (sl_side sl) (nev x).
Definition binv (c : cfg) : Prop :=
  let x := c_st c in
  mcur x = dcur x /\ (forall s, sel s (dcur x) <= sel s (nev x)) /\ Forall (good_slot (c_rec c) x) (slots x).

Definition binv_at (rec : bool) (x : st) : Prop := binv {| c_st := x; c_rec := rec |}.

Lemma binv_cfg c : binv c <-> binv_at (c_rec c) (c_st c).
Proof. now destruct c. Qed.

Lemma binv_cfg0 : binv cfg0.
Proof. split; [reflexivity|]. split; [intros [|]; simpl; lia|constructor]. Qed.

Lemma binv_good rec x sl : binv_at rec x -> In sl (slots x) -> good_slot rec x sl.
Proof. intros (_ & _ & Hf). now apply Forall_forall. Qed.

Lemma good_slot_counters rec x y sl :
  dcur y = dcur x -> (forall s, sel s (nev x) <= sel s (nev y)) -> good_slot rec x sl -> good_slot rec y sl.
Proof. intros Hd Hn (A & B & C). split; [assumption|]. rewrite Hd. split; [assumption|]. specialize (Hn (sl_side sl)). lia. Qed.

Lemma binv_set_slot rec x y i sl' :
  binv_at rec x -> slots y = set_nth i sl' (slots x) -> mcur y = mcur x -> dcur y = dcur x ->
  (forall s, sel s (nev x) <= sel s (nev y)) -> good_slot rec y sl' -> binv_at rec y.
Proof.
  intros (Hm & Hdn & Hf) Hs Hmy Hdy Hn Hsl. cbn [c_st c_rec] in *. split; [simpl; congruence|]. split; simpl.
  - intros s. rewrite Hdy. specialize (Hdn s). specialize (Hn s). lia.
  - rewrite Hs. apply Forall_upd; [|exact Hsl]. eapply Forall_impl; [|exact Hf]. intros a. now apply good_slot_counters.
Qed.

(* a crash asks for the durable part of the invariant only *)
Lemma crash_binv x :
  (forall s, sel s (dcur x) <= sel s (nev x)) ->
  (forall sl, In sl (slots x) -> rinv true (sel (sl_side sl) (dcur x)) sl /\ o_ev (sl_org sl) <= sel (sl_side sl) (nev x)) ->
  binv_at true (crash x).
Proof.
  intros Hdn Hf. split; [reflexivity|]. split; [exact Hdn|]. apply Forall_forall. intros z Hz.
  apply in_map_iff in Hz as [sl [<- Hin]]. destruct (Hf sl Hin).
  split; [split; reflexivity|]. split; assumption.
Qed.

Lemma binv_crash rec x : binv_at rec x -> binv_at true (crash x).
Proof.
  intros (Hm & Hdn & Hf). apply crash_binv; [exact Hdn|]. rewrite Forall_forall in Hf.
  intros sl Hin. destruct (Hf sl Hin) as (_ & B & C). split; [exact (rinv_weaken _ _ _ B)|exact C].
Qed.

Lemma binv_rec_weaken x : binv {| c_st := x; c_rec := false |} -> binv {| c_st := x; c_rec := true |}.
Proof.
  intros (Hm & Hdn & Hf). split; [assumption|]. split; [assumption|]. simpl in *.
  eapply Forall_impl; [|exact Hf]. intros a (A & B & C). split; [assumption|]. split; [|assumption]. exact (rinv_weaken _ _ _ B).
Qed.

Lemma rinv_advance rec d d' sl :
  rinv rec d sl -> (o_ev (sl_org sl) <= d \/ row_marked sl = true) -> rinv rec d' sl.
Proof.
  intros H Hg. apply (rinv_change rec d); [exact H| | |].
  - intros r Er _. destruct Hg as [Hg|Hg]; [now left|right]. apply row_marked_iff in Hg as (r' & Er' & Hg & _). congruence.
  - intros r _ -> [=].
  - intros Er Hlt. destruct Hg as [Hg|Hg]; [lia|]. apply row_marked_iff in Hg as (r' & Er' & _). congruence.
Qed.

Lemma upd_same_pair {T} s (v : T) p q : p = q -> upd s v p = upd s v q.
Proof. now intros ->. Qed.

(* the guard of MAdv is what lets the slots' invariant follow the cursor *)
Lemma kend_binv rec x s y : binv_at rec x -> run_ops x [MAdv s; MCursor s] = Some y -> binv_at rec y.
Proof.
  intros (Hm & Hdn & Hf) Hrun. cbn [c_st c_rec] in Hm, Hdn, Hf. cbn [run_ops] in Hrun.
  destruct (mstep x (MAdv s)) as [z|] eqn:Ez; [|discriminate]. apply mstep_adv in Ez as [G ->].
  simpl in Hrun. injection Hrun as <-.
  split; [simpl; rewrite sel_upd_same; now rewrite Hm|]. simpl. split.
  - intros t. rewrite sel_upd_same, sel_upd. destruct (Bool.eqb t s) eqn:E; [apply eqb_prop in E; subst t; lia|apply Hdn].
  - apply Forall_forall. intros sl Hin. rewrite Forall_forall in Hf. destruct (Hf sl Hin) as (A & B & C).
    split; [assumption|]. simpl. split; [|assumption]. rewrite sel_upd_same, sel_upd.
    destruct (Bool.eqb (sl_side sl) s) eqn:E; [|assumption]. apply eqb_prop in E.
    apply (rinv_advance _ (sel (sl_side sl) (dcur x))); [assumption|].
    destruct (G sl Hin E) as [L|L]; [left|right; exact L]. rewrite E, <- Hm. exact L.
Qed.

Lemma user_change_props o u s' : user_change o u = Some s' ->
  os_live (o_now o) = true /\ os_conf s' = os_conf (o_now o) /\
  (forall k, same_type k (os_kind (o_now o)) -> same_type k (os_kind s')).
Proof.
  unfold user_change. destruct (os_live (o_now o)) eqn:L; simpl; [|discriminate].
  destruct u as [s p k|i c|i p|i]; try discriminate.
  - destruct (os_kind (o_now o)) eqn:K; [|discriminate]. intros H; injection H as <-. simpl. repeat split; auto.
  - intros H; injection H as <-. simpl. auto.
  - intros H; injection H as <-. simpl. auto.
Qed.

Lemma rinv_user d sl s' n u :
  user_change (sl_org sl) u = Some s' -> d < n -> rinv false d sl -> rinv false d (with_org sl (push (sl_org sl) s' n)).
Proof.
  intros Hu Hn [Hc H]. destruct (user_change_props _ _ _ Hu) as (Hl & Hcf & Hty).
  unfold rinv, with_org; simpl. split; [congruence|].
  destruct (sl_row sl) as [r|]; [|destruct H as [A _]; split; [assumption|lia]].
  destruct H as [Hh H]. split; [assumption|]. destruct (e_disc r); [destruct H; congruence|].
  destruct (linked r).
  - (* outside a recovery the peer is as the marks say: half holds whatever the origin becomes *)
    destruct H as [p (Hps & Href & (_ & _ & Hpc & Hty') & Hlive & Hmarks & _)]. destruct (Hmarks eq_refl) as (M1 & M2 & M3).
    exists p. split; [assumption|]. split; [assumption|]. split.
    + unfold half. split; [left; assumption|]. split; [left; assumption|]. split; [assumption|auto].
    + split; [auto|]. split; [auto|]. intros Hle. lia.
  - destruct H as [A [B|[B _]]]; [|discriminate]. split; [intros Hle; lia|left; assumption].
Qed.

Lemma user_binv x u : binv_at false x -> binv_at false (user x u).
Proof.
  intros Hb. pose proof Hb as (Hm & Hdn & Hf). cbn [c_st c_rec] in Hm, Hdn, Hf. apply user_cases; [|exact Hb|].
  - intros s p k. split; [assumption|]. simpl. split; [intros t; specialize (Hdn t); pose proof (sel_upd_S s (nev x) t); lia|].
    apply Forall_app. split.
    + eapply Forall_impl; [|exact Hf]. intros a. apply (good_slot_counters _ x); [reflexivity|apply sel_upd_S].
    + constructor; [|constructor]. split; [split; reflexivity|]. simpl. rewrite sel_upd_same. split; [|lia].
      unfold rinv; simpl. split; [reflexivity|]. split; [reflexivity|]. specialize (Hdn s). lia.
  - intros i sl s' Ei Hu. eapply (binv_set_slot false x _ i); try reflexivity; [exact Hb|apply sel_upd_S|].
    destruct (binv_good _ _ _ Hb (nth_error_In _ _ Ei)) as (A & B & C).
    split; [exact A|]. simpl. rewrite sel_upd_same. split; [|lia].
    apply (rinv_user _ _ _ _ u); [assumption| |assumption]. specialize (Hdn (sl_side sl)). lia.
Qed.

Lemma slot_settled_iff x sl : slot_settled x sl = true <->
  sl_dirty sl = false /\ o_ev (sl_org sl) <= sel (sl_side sl) (dcur x) /\ done_slot sl.
Proof.
  unfold slot_settled, done_slot. rewrite !andb_true_iff, negb_true_iff, Nat.leb_le.
  destruct (sl_row sl) as [r|].
  - rewrite negb_true_iff. split; [intros [[A B] C]; eauto|intros (A & B & r' & [= <-] & C); auto].
  - split; [intros [_ [=]]|intros (_ & _ & r & [=] & _)].
Qed.

Lemma settled_slots x sl : settled x = true -> In sl (slots x) -> slot_settled x sl = true.
Proof. unfold settled. intros Hs. repeat (apply andb_true_iff in Hs as [Hs _]). now apply forallb_forall. Qed.

Lemma rinv_settled x sl : rinv true (sel (sl_side sl) (dcur x)) sl -> slot_settled x sl = true ->
  rinv false (sel (sl_side sl) (dcur x)) sl.
Proof.
  intros H Hs. apply slot_settled_iff in Hs as (_ & Hle & r & Er & Hr). apply (rinv_change true _ _ _ _ H); auto.
  intros r' Er' _ _. rewrite Er in Er'. injection Er' as <-. auto.
Qed.

Lemma binv_settle y : binv_at true y -> settled y = true -> binv_at false y.
Proof.
  intros Hb Hs. pose proof Hb as (Hm & Hdn & _). split; [assumption|]. split; [assumption|].
  apply Forall_forall. intros sl Hin. destruct (binv_good _ _ _ Hb Hin) as (A & B & C).
  split; [assumption|]. split; [|assumption]. apply rinv_settled; [exact B|now apply settled_slots].
Qed.

Lemma do_plan_noslot x i ops : nth_error (slots x) i = None -> do_plan x (map (MSlot i) ops) = x.
Proof. intros E. unfold do_plan. destruct ops; simpl; [reflexivity|]. now rewrite E. Qed.

(* a plan on slot i that runs well on the slot alone (Hrun), inside the machine *)
Section SlotOps.
  Variables (rec : bool) (x : st) (i : nat) (sl : slot) (ops : list sop) (Q : slot -> Prop).
  Hypotheses (Hb : binv_at rec x) (Ei : nth_error (slots x) i = Some sl)
             (Hrun : bnd_slot sl -> rinv rec (sel (sl_side sl) (dcur x)) sl ->
                     runs_ok rec (sel (sl_side sl) (dcur x)) (sel (negb (sl_side sl)) (nev x)) ops sl Q).

  Lemma slot_ops_run :
    exists y sl', run_ops x (map (MSlot i) ops) = Some y /\ slot_run x i sl y sl' /\ Q sl' /\ binv_at rec y.
  Proof.
    destruct (binv_good _ _ _ Hb (nth_error_In _ _ Ei)) as (A & B & C).
    destruct (Hrun A B) as [_ [sl' [np' (Hs & Hbd & Hr & HQ)]]].
    destruct (run_ops_slot _ _ _ _ _ _ Ei Hs) as [y [Hy R]].
    exists y, sl'. split; [exact Hy|]. split; [exact R|]. split; [exact HQ|].
    apply (binv_set_slot _ x y i sl' Hb (sr_slots R) (sr_mcur R) (sr_dcur R) (sr_nev R)).
    split; [exact Hbd|]. rewrite (sr_side R), (sr_org R), (sr_dcur R). split; [exact Hr|].
    pose proof (sr_nev R (sl_side sl)). lia.
  Qed.

  Lemma slot_ops_binv : binv_at rec (do_plan x (map (MSlot i) ops)).
  Proof. destruct slot_ops_run as (y & sl' & Hy & _ & _ & Hby). unfold do_plan. now rewrite Hy. Qed.

  (* the slot after k operations satisfies rinv true, and a crash asks for no more *)
  Lemma slot_ops_crash k : binv_at true (crash (do_plan x (firstn k (map (MSlot i) ops)))).
  Proof.
    destruct (binv_good _ _ _ Hb (nth_error_In _ _ Ei)) as (A & B & C). pose proof Hb as (_ & Hdn & _). cbn [c_st] in Hdn.
    destruct (Hrun A B) as [HF _]. destruct (HF k) as [sk [nk [Hk Hrk]]].
    destruct (run_ops_slot _ _ _ _ _ _ Ei Hk) as [y [Hy R]].
    rewrite firstn_map. unfold do_plan. rewrite Hy. apply crash_binv.
    - intros s. rewrite (sr_dcur R). specialize (Hdn s). pose proof (sr_nev R s). lia.
    - intros z Hz. rewrite (sr_slots R) in Hz. rewrite (sr_dcur R). apply in_upd in Hz as [->|Hz].
      + rewrite (sr_side R), (sr_org R). split; [exact Hrk|]. pose proof (sr_nev R (sl_side sl)). lia.
      + destruct (binv_good _ _ _ Hb Hz) as (_ & B' & C'). split; [exact (rinv_weaken _ _ _ B')|].
        pose proof (sr_nev R (sl_side z)). lia.
  Qed.
End SlotOps.

Lemma plan_step_binv rec x m : binv_at rec x ->
  binv_at rec (do_plan x (plan_of true x m)) /\
  forall k, binv_at true (crash (do_plan x (firstn k (plan_of true x m)))).
Proof.
  intros Hb. destruct m as [i|s|i]; simpl plan_of.
  - change [MSlot i SMark; MSlot i SRow] with (map (MSlot i) [SMark; SRow]).
    destruct (nth_error (slots x) i) as [sl|] eqn:Ei.
    + pose proof (mark_slot_ok rec (sel (sl_side sl) (dcur x)) (sel (negb (sl_side sl)) (nev x)) sl) as Hrun.
      split; [exact (slot_ops_binv _ _ _ _ _ _ Hb Ei Hrun)|exact (slot_ops_crash _ _ _ _ _ _ Hb Ei Hrun)].
    + split; [|intros k; rewrite firstn_map]; rewrite do_plan_noslot by assumption; [exact Hb|exact (binv_crash _ _ Hb)].
  - (* KEnd: a crash after the first operation finds the stored state of before, the in-memory cursor is lost *)
    assert (Hfull : binv_at rec (do_plan x [MAdv s; MCursor s])).
    { unfold do_plan. destruct (run_ops x [MAdv s; MCursor s]) as [y|] eqn:Er; [exact (kend_binv _ _ _ _ Hb Er)|exact Hb]. }
    split; [exact Hfull|]. intros [|[|k]].
    + exact (binv_crash _ _ Hb).
    + unfold do_plan. simpl. destruct (forallb _ (slots x)); exact (binv_crash _ _ Hb).
    + cbn [firstn]. rewrite firstn_nil. exact (binv_crash _ _ Hfull).
  - unfold plan_sync. destruct (nth_error (slots x) i) as [sl|] eqn:Ei.
    + pose proof (sync_slot_ok rec (sel (sl_side sl) (dcur x)) (sel (negb (sl_side sl)) (nev x)) sl (knows_peers x sl)) as Hrun.
      split; [exact (slot_ops_binv _ _ _ _ _ _ Hb Ei Hrun)|exact (slot_ops_crash _ _ _ _ _ _ Hb Ei Hrun)].
    + split; [exact Hb|]. intros k. rewrite firstn_nil. exact (binv_crash _ _ Hb).
Qed.

Lemma estep_binv c l d : binv c -> estep true c l = Some d -> binv d.
Proof.
  intros Hb Hs. apply binv_cfg in Hb. destruct c as [x rec]. cbn [c_st c_rec] in Hb. destruct l as [u|m|m k]; simpl in Hs.
  - destruct rec; [discriminate|]. injection Hs as <-. exact (user_binv x u Hb).
  - injection Hs as <-. destruct (plan_step_binv rec x m Hb) as [Hy _].
    set (y := do_plan x (plan_of true x m)) in *.
    destruct rec; simpl; [|exact Hy].
    destruct (settled y) eqn:Es; simpl; [exact (binv_settle y Hy Es)|exact Hy].
  - injection Hs as <-. destruct (plan_step_binv rec x m Hb) as [_ Hk]. apply Hk.
Qed.

Theorem erun_binv : forall ls c d, binv c -> erun true c ls = Some d -> binv d.
Proof.
  induction ls as [|l ls IH]; intros c d Hb Hr; simpl in Hr.
  - now injection Hr as <-.
  - destruct (estep true c l) as [c1|] eqn:E; [|discriminate]. eapply IH; [|exact Hr]. eapply estep_binv; eauto.
Qed.

(* the test of plan_marks: an event of side s beyond the in-memory position c *)
Definition to_mark (s : bool) (c : nat) (sl : slot) : bool := Bool.eqb (sl_side sl) s && Nat.ltb c (o_ev (sl_org sl)).
Definition mark_commit (sl : slot) : slot := commit sl (ent_marked (sl_mem sl) (sl_org sl)).
Definition mark_if (s : bool) (c : nat) (sl : slot) : slot := if to_mark s c sl then mark_commit sl else sl.

Lemma run_ops_app : forall l1 l2 x, run_ops x (l1 ++ l2) = match run_ops x l1 with Some y => run_ops y l2 | None => None end.
Proof. induction l1 as [|m r IH]; intros l2 x; simpl; [reflexivity|]. destruct (mstep x m); auto. Qed.

Lemma mark_commit_run done sl rest nv mc dc :
  run_ops {| slots := done ++ sl :: rest; nev := nv; mcur := mc; dcur := dc |}
          [MSlot (length done) SMark; MSlot (length done) SRow] =
  Some {| slots := done ++ mark_commit sl :: rest; nev := nv; mcur := mc; dcur := dc |}.
Proof.
  simpl. rewrite nth_error_mid. simpl. rewrite upd_app, nth_error_mid. simpl. now rewrite upd_app.
Qed.

(* the marks of an intake, computed: the slots before index (length done) are done with, plan_marks walks the rest *)
Lemma marks_run s c : forall rest done nv mc dc,
  run_ops {| slots := done ++ rest; nev := nv; mcur := mc; dcur := dc |} (plan_marks s c rest (length done)) =
  Some {| slots := done ++ map (mark_if s c) rest; nev := nv; mcur := mc; dcur := dc |}.
Proof.
  induction rest as [|sl rest IH]; intros done nv mc dc; [reflexivity|].
  specialize (IH (done ++ [mark_if s c sl]) nv mc dc). rewrite last_length, <- !app_assoc in IH.
  cbn [plan_marks map]. unfold mark_if in *. fold (to_mark s c sl). destruct (to_mark s c sl); [|exact IH].
  rewrite run_ops_app, mark_commit_run. exact IH.
Qed.

Lemma mark_commit_good rec x sl : good_slot rec x sl -> good_slot rec x (mark_commit sl).
Proof.
  intros ((Hd & Hm) & B & C). split; [split; reflexivity|]. simpl. split; [|assumption].
  unfold mark_commit. rewrite Hm. now apply rinv_marked.
Qed.

Lemma mark_commit_marked sl : row_marked (mark_commit sl) = true.
Proof. unfold row_marked, mark_commit; simpl. destruct (sl_mem sl); reflexivity. Qed.

Lemma mark_if_org s c sl : sl_org (mark_if s c sl) = sl_org sl.
Proof. unfold mark_if. now destruct (to_mark s c sl). Qed.

Lemma mark_if_covered s c sl : (sl_side sl = s -> o_ev (sl_org sl) <= c) -> mark_if s c sl = sl.
Proof.
  intros H. unfold mark_if, to_mark. destruct (Bool.eqb (sl_side sl) s) eqn:E; [|reflexivity].
  apply eqb_prop in E. apply H, Nat.ltb_ge in E. now rewrite E.
Qed.

(* what an intake computes, whatever the state: no guard of its plan can fail, since the marks it commits are what
   the guard of MAdv asks for *)
Definition marked_st (s : bool) (x : st) : st :=
  {| slots := map (mark_if s (sel s (mcur x))) (slots x); nev := nev x; mcur := mcur x; dcur := dcur x |}.
Definition intake_st (s : bool) (x : st) : st :=
  {| slots := slots (marked_st s x); nev := nev x;
     mcur := upd s (sel s (nev x)) (mcur x); dcur := upd s (sel s (nev x)) (dcur x) |}.

Lemma kend_intake s x : run_ops (marked_st s x) [MAdv s; MCursor s] = Some (intake_st s x).
Proof.
  assert (G : adv_ok (marked_st s x) s).
  { intros z Hz Es. apply in_map_iff in Hz as [sl [<- Hin]]. unfold mark_if in *. cbn [mcur marked_st].
    destruct (to_mark s (sel s (mcur x)) sl) eqn:T; [right; apply mark_commit_marked|left].
    unfold to_mark in T. rewrite Es, eqb_reflx in T. now apply Nat.ltb_ge in T. }
  cbn [run_ops]. rewrite (proj2 (mstep_adv _ s _) (conj G eq_refl)). cbn. now rewrite sel_upd_same.
Qed.

Lemma intake_eq s x : do_intake s x = intake_st s x.
Proof.
  unfold do_intake, plan_intake, do_plan. rewrite run_ops_app.
  replace (run_ops x (plan_marks _ _ _ _)) with (Some (marked_st s x)); [now rewrite kend_intake|].
  destruct x as [sls nv mc dc]. symmetry. exact (marks_run s _ sls [] nv mc dc).
Qed.

Lemma intake_binv rec s x : binv_at rec x -> binv_at rec (do_intake s x).
Proof.
  intros (Hm & Hdn & Hf). rewrite intake_eq. apply (kend_binv rec (marked_st s x) s); [|apply kend_intake].
  split; [assumption|]. split; [assumption|]. apply Forall_forall. intros z Hz.
  apply in_map_iff in Hz as [sl [<- Hin]]. rewrite Forall_forall in Hf. specialize (Hf sl Hin).
  unfold mark_if. destruct (to_mark _ _ sl); [apply mark_commit_good|]; exact Hf.
Qed.

Definition all_cov (x : st) : Prop := forall sl, In sl (slots x) -> o_ev (sl_org sl) <= sel (sl_side sl) (dcur x).

Lemma upd_both {T} (n p : T * T) : upd true (sel true n) (upd false (sel false n) p) = n.
Proof. now destruct n, p. Qed.

Set Implicit Arguments.
Record caught_up (x y : st) : Prop := {
  cu_nev : nev y = nev x;
  cu_dcur : dcur y = nev x;
  cu_mcur : mcur y = nev x;
  cu_origins : origins y = origins x;
  cu_slots : all_cov x -> slots y = slots x }.
Unset Implicit Arguments.

Lemma intakes_binv rec x : binv_at rec x -> binv_at rec (do_intake true (do_intake false x)).
Proof. intros Hb. now apply intake_binv, intake_binv. Qed.

Lemma intakes_ok rec x : binv_at rec x -> caught_up x (do_intake true (do_intake false x)).
Proof.
  intros (Hm & _). cbn [c_st] in Hm. rewrite !intake_eq.
  constructor; unfold origins; cbn [intake_st marked_st slots nev mcur dcur]; rewrite ?upd_both, ?map_map; try reflexivity.
  - apply map_ext. intros sl. now rewrite !mark_if_org.
  - intros Hc. rewrite <- (map_id (slots x)) at 2. apply map_ext_in. intros sl Hin. specialize (Hc sl Hin).
    rewrite Hm, (mark_if_covered false), (mark_if_covered true); [reflexivity| |].
    + intros E. rewrite E in Hc. exact Hc.
    + intros E. rewrite E in Hc. exact Hc.
Qed.

Lemma caught_up_cov rec x y : binv_at rec y -> caught_up x y -> all_cov y.
Proof. intros Hb U sl Hin. rewrite (cu_dcur U), <- (cu_nev U). apply (binv_good _ _ _ Hb Hin). Qed.

Set Implicit Arguments.
Record synced (n : nat) (x b : st) : Prop := {
  sy_cov : all_cov b;
  sy_origins : origins b = origins x;
  sy_length : length (slots b) = length (slots x);
  sy_done : forall i sl, i < n -> nth_error (slots b) i = Some sl -> done_slot sl }.
Unset Implicit Arguments.

(* induction on n: do_syncs syncs slot n last, and that step (slot_ops_run) replaces slot n only: the slots below n
   stay done, the frame facts are those of slot_run *)
Lemma syncs_ok rec x : binv_at rec x -> all_cov x -> forall n, n <= length (slots x) ->
  binv_at rec (do_syncs true x n) /\ synced n x (do_syncs true x n).
Proof.
  intros Hb Hcov. induction n as [|n IH]; intros Hn; cbn [do_syncs].
  - split; [exact Hb|]. constructor; try reflexivity; [exact Hcov|]. intros i sl Hi. lia.
  - destruct IH as [B1 S]; [lia|]. remember (do_syncs true x n) as b eqn:Eb. clear Eb.
    pose proof (sy_length S) as Hlen.
    destruct (nth_error (slots b) n) as [sl|] eqn:Ei; [|apply nth_error_None in Ei; lia].
    pose proof (nth_error_In _ _ Ei) as Hin.
    unfold do_sync, plan_sync, do_plan. rewrite Ei.
    destruct (slot_ops_run rec b n sl _ _ B1 Ei (sync_slot_ok rec _ _ sl (knows_peers b sl)))
      as (y & sl' & Hy & R & Hdone & By).
    rewrite Hy. split; [exact By|]. constructor.
    + intros z Hz. rewrite (sr_slots R) in Hz. rewrite (sr_dcur R). apply in_upd in Hz as [->|Hz].
      * rewrite (sr_side R), (sr_org R). exact (sy_cov S sl Hin).
      * exact (sy_cov S z Hz).
    + rewrite <- (sy_origins S). unfold origins. rewrite (sr_slots R). apply (map_upd_same sl_org _ _ _ sl Ei (sr_org R)).
    + rewrite (sr_slots R), upd_length. exact Hlen.
    + intros i z Hi. rewrite (sr_slots R). destruct (Nat.eq_dec i n) as [->|Hne].
      * rewrite (nth_upd_same _ _ _ _ Ei). intros [= <-]. exact (Hdone (sy_cov S sl Hin)).
      * rewrite nth_upd_other by congruence. apply (sy_done S). lia.
Qed.

Lemma quiet_settled rec x y : binv_at rec y -> caught_up x y ->
  (forall sl, In sl (slots y) -> done_slot sl) -> settled y = true.
Proof.
  intros Hb U Hdone. pose proof (caught_up_cov rec x y Hb U) as Hcov.
  unfold settled. rewrite (cu_mcur U), (cu_dcur U), (cu_nev U), !Nat.eqb_refl, !andb_true_r.
  apply forallb_forall. intros sl Hin. apply slot_settled_iff. split; [apply (binv_good _ _ _ Hb Hin)|auto].
Qed.

Lemma settled_slot_views x sl : rinv false (sel (sl_side sl) (dcur x)) sl -> slot_settled x sl = true ->
  slot_view false sl = slot_view true sl /\
  existsb (fun o => os_live (o_now o) && os_conf (o_now o)) (sl_org sl :: sl_peers sl) = false /\
  live_count (sl_peers sl) <= 1.
Proof.
  intros Hr Hs. apply slot_settled_iff in Hs as (_ & Hle & r & Er & Hch).
  pose proof Hr as [Hc H]. rewrite Er in H. destruct H as [Hh H].
  destruct (e_disc r) eqn:Ed.
  - (* discarded *)
    destruct H as [Hl Ha]. destruct (no_live_peers _ Ha) as (V1 & V2 & V3). split.
    + unfold slot_view. rewrite V1. unfold view_of. rewrite Hl. now destruct (Bool.eqb (sl_side sl) false), (Bool.eqb (sl_side sl) true).
    + simpl. rewrite Hl, V3. split; [reflexivity|lia].
  - destruct (linked r) eqn:El.
    + (* linked *)
      apply (rinv_linked _ _ sl r Er Ed El Hc Hh) in Hr as [p (A & _ & (_ & _ & Hsync) & _)].
      destruct (Hsync Hle Hch) as (I1 & I2 & I3 & I4).
      destruct (reflects_eq _ _ I3) as (Rp & Rk & Rl & Rc). split.
      * unfold slot_view. rewrite A. simpl. rewrite app_nil_r. unfold view_of. rewrite I4, Rl, Rp, Rk, Rc, Hc.
        now destruct (Bool.eqb (sl_side sl) false), (Bool.eqb (sl_side sl) true).
      * rewrite A. simpl. rewrite Hc, Rc, !andb_false_r. split; [reflexivity|]. unfold live_count; simpl. destruct (os_live (o_now p)); simpl; lia.
    + (* not linked: a covered row carries the change mark *)
      destruct H as [H _]. specialize (H Hle). congruence.
Qed.

Theorem settled_views x : binv_at false x -> settled x = true ->
  view false x = view true x /\ has_conflicted x = false /\ no_duplicate x = true.
Proof.
  intros Hb Hs.
  pose proof (fun sl Hin => settled_slot_views x sl (proj1 (proj2 (binv_good _ _ _ Hb Hin))) (settled_slots x sl Hs Hin)) as Hper.
  split; [|split].
  - unfold view. rewrite !flat_map_concat_map. f_equal. apply map_ext_in. intros sl Hin. apply Hper, Hin.
  - unfold has_conflicted. destruct (existsb _ (slots x)) eqn:E; [|reflexivity].
    apply existsb_exists in E as [sl [Hin E]]. destruct (Hper sl Hin) as (_ & Hn & _). congruence.
  - apply forallb_forall. intros sl Hin. apply Nat.leb_le, Hper, Hin.
Qed.

Definition converged (x y : st) : Prop :=
  settled y = true /\ view false y = view true y /\ has_conflicted y = false /\ no_duplicate y = true /\
  origins y = origins x.

Theorem recover_converges c : binv c -> converged (c_st c) (recover (c_st c)).
Proof.
  intros Hb. apply binv_cfg, binv_crash in Hb. unfold recover, recover_with. cbv zeta.
  set (a := do_intake true (do_intake false (crash (c_st c)))).
  pose proof (intakes_binv true _ Hb : binv_at true a) as Ha. pose proof (intakes_ok true _ Hb : caught_up _ a) as Ua.
  pose proof (caught_up_cov true _ a Ha Ua) as Ca.
  destruct (syncs_ok true a Ha Ca _ (le_n _)) as [Hb' S].
  set (b := do_syncs true a (length (slots a))) in *.
  set (y := do_intake true (do_intake false b)).
  pose proof (intakes_binv true b Hb' : binv_at true y) as Hy. pose proof (intakes_ok true b Hb' : caught_up b y) as Uy.
  assert (Hs : settled y = true).
  { apply (quiet_settled true b); [exact Hy|exact Uy|].
    intros sl Hin. rewrite (cu_slots Uy (sy_cov S)) in Hin. apply In_nth_error in Hin as [i Hi]. refine (sy_done S _ Hi).
    rewrite <- (sy_length S). apply nth_error_Some. congruence. }
  split; [exact Hs|]. destruct (settled_views y (binv_settle y Hy Hs) Hs) as (V & C & D).
  split; [exact V|]. split; [exact C|]. split; [exact D|].
  rewrite (cu_origins Uy), (sy_origins S), (cu_origins Ua). apply map_map.
Qed.
