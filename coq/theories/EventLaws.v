(* EventLaws.v — C14 laws about event delivery, for every state that satisfies the C11 index invariant: the re-read of the
   truth by id (get_latest_side), what the laws compare (abs_entry, eqv, eqv_noprio), two copies of one event and their repair
   by the re-read, and, for any delivery for one id (run_events, delivered), that the re-read forgets which delivery it was. *)
From Coq Require Import NArith List Bool Arith Lia.
From CS Require Import Sx Str PathModel PathLaws StateModel StateProofs StatePathProofs EventModel EventProofs.
Import ListNotations.

(* the side / the entry after get_latest_side found the object *)
Definition gl_side (cv : conv) (x : sidest) (i : pinfo) : sidest :=
  mkSide (i_ot i) (s_oid x) (Some (nps cv (i_path i)))
         (match i_ot i, i_hash i with File, None => i_hoid i | _, _ => i_hash i end) (s_spath x) (s_shash x) ExExists (s_chg x) (s_force x).
Definition gl_entry (cv : conv) (en : entry) (sd : bool) (i : pinfo) : entry :=
  with_prio (ss en sd (gl_side cv (gs en sd) i)) (ev_prio (gs en sd) (Some (nps cv (i_path i))) (e_prio en)).

Lemma bind_Ok {T} (r : res T) : (x <- r ;; Ok x) = r.
Proof. destruct r; reflexivity. Qed.

(* the provider still has the object: hash, exists, otype, the hash of a file that reports none, and the path are written;
   the side is flagged already, so no new stamp is taken *)
Lemma get_latest_side_some_spec E s e sd i en (o : str) s' :
  IdxJ s -> nth_error (ents s) e = Some en -> s_oid (gs en sd) = Some o -> o <> [] -> i_ot i <> Dir ->
  tchg (s_chg (gs en sd)) = true ->
  get_latest_side E s e sd (Some i) = Ok s' ->
  wrote s e en sd (gl_side (cvs E sd) (gs en sd) i) (ev_prio (gs en sd) (Some (nps (cvs E sd) (i_path i))) (e_prio en)) s'.
Proof.
  intros HJ Hn Ho Hne Hot Hch H. unfold get_latest_side in H.
  rewrite (get_ent_nth _ _ _ Hn) in H. cbn [bind] in H. cbv zeta in H.
  rewrite Ho, Hch in H. cbn [negb] in H. rewrite andb_false_r, bind_Ok in H.
  pose proof (wrote_start s e en sd HJ Hn) as W. set (x0 := gs en sd) in *.
  bind_inv H sa Wa. apply (wrote_unless W) in Wa;
    [|apply keeps_w_hash|intros Eh; apply w_hash_same, oN_eqb_eq, Eh].
  bind_inv H sb Wb. apply (wrote_plain Wa) in Wb; [|apply keeps_w_ex].
  bind_inv H sc Wc. apply (wrote_plain Wb) in Wc; [|apply keeps_w_otype].
  clear W Wa Wb. set (x3 := w_otype (w_ex (w_hash x0 (i_hash i)) ExExists) (i_ot i)) in *.
  rewrite (wrote_get Wc) in H. cbn [bind] in H. rewrite gs_written in H. cbn [x3 s_hash s_path w_otype w_ex w_hash] in H.
  bind_inv H s_h E0.
  assert (Wd: wrote s e en sd (match i_ot i, i_hash i with File, None => w_hash x3 (i_hoid i) | _, _ => x3 end) (e_prio en) s_h).
  { destruct (i_ot i), (i_hash i); try (injection E0 as <-; exact Wc).
    apply (wrote_plain Wc) in E0; [exact E0|apply keeps_w_hash]. }
  clear Wc E0. set (x4 := match i_ot i, i_hash i with File, None => w_hash x3 (i_hoid i) | _, _ => x3 end) in *.
  assert (Hx4: s_path x4 = s_path x0 /\ s_otype x4 = i_ot i /\ s_oid x4 = Some o /\ s_chg x4 = s_chg x0).
  { unfold x4, x3. destruct (i_ot i), (i_hash i); repeat split; exact Ho. }
  destruct Hx4 as [Hp4 [Ht4 [Ho4 Hc4]]].
  set (np := nps (cvs E sd) (i_path i)) in *. bind_inv H se E0.
  assert (We: wrote s e en sd (w_path x4 (Some np)) (ev_prio x0 (Some np) (e_prio en)) se).
  { unfold ev_prio. rewrite <- Hp4. rewrite <- Hp4 in E0. destruct (ostr_eqb (s_path x4) (Some np)) eqn:Ep.
    - injection E0 as <-. rewrite andb_false_r, (w_path_same _ _ (proj1 (ostr_eqb_eq _ _) Ep)). exact Wd.
    - bind_inv E0 x E1. rewrite <- Ht4 in Hot. pose proof (wrote_path Wd Hot Ho4 Hne E1) as W.
      rewrite (wrote_get W) in E0. cbn [bind] in E0. rewrite gs_written in E0. cbn [s_chg w_path] in E0.
      rewrite Hc4, Hch in E0. cbn [negb] in E0. rewrite andb_false_r in E0. injection E0 as <-. rewrite Ep in W. exact W. }
  rewrite (wrote_get We) in H. cbn [bind] in H. injection H as <-.
  replace (gl_side (cvs E sd) x0 i) with (w_path x4 (Some np)); [exact We|].
  unfold x4, x3, gl_side. fold np. destruct (i_ot i) eqn:Eo, (i_hash i); try contradiction; destruct x0; cbn; rewrite ?Eo; reflexivity.
Qed.

(* an id-stable provider that does not know the id: the object is gone, whatever `exists` said before *)
Lemma no_info_ex_id_stable x : no_info_ex false x = ExTrashed.
Proof. destruct x; reflexivity. Qed.

(* the provider no longer has the object *)
Lemma get_latest_side_none_spec E s e sd en (o : str) s' :
  IdxJ s -> nth_error (ents s) e = Some en -> s_oid (gs en sd) = Some o ->
  get_latest_side E s e sd None = Ok s' ->
  wrote s e en sd (w_ex (gs en sd) (no_info_ex (oip E sd) (s_ex (gs en sd)))) (e_prio en) s'.
Proof.
  intros HJ Hn Ho H. unfold get_latest_side in H. rewrite (get_ent_nth _ _ _ Hn) in H. cbn [bind] in H. cbv zeta in H.
  rewrite Ho in H. apply (wrote_plain (wrote_start s e en sd HJ Hn)) in H; [exact H|apply keeps_w_ex].
Qed.

(* abs_entry / eqv forget: the numeric change stamps (kept: whether a side is flagged), the dirty set, the clock, the last
   change stamp, the tape, the insertion order of the two index dictionaries. *)
Definition abs_side (x : sidest) :=
  (s_otype x, s_oid x, s_path x, s_hash x, s_spath x, s_shash x, s_ex x, tchg (s_chg x), s_force x).
Definition abs_entry (en : entry) := (abs_side (e_l en), abs_side (e_r en), e_ign en, e_prio en).

Definition eqv (s s' : state) : Prop :=
  map abs_entry (ents s) = map abs_entry (ents s') /\
  (forall e, set_mem e (cset s) = set_mem e (cset s')) /\
  (forall sd o, al_get o (oids s sd) = al_get o (oids s' sd)) /\
  (forall sd p o, slot_get s sd p o = slot_get s' sd p o).

Definition abs_noprio (en : entry) := (abs_side (e_l en), abs_side (e_r en), e_ign en).
Definition eqv_noprio (s s' : state) : Prop :=
  map abs_noprio (ents s) = map abs_noprio (ents s') /\
  (forall e, set_mem e (cset s) = set_mem e (cset s')) /\
  (forall sd o, al_get o (oids s sd) = al_get o (oids s' sd)) /\
  (forall sd p o, slot_get s sd p o = slot_get s' sd p o).

Lemma absnp_oid_path s s' : map abs_noprio (ents s) = map abs_noprio (ents s') ->
  forall e sd, oid_of s e sd = oid_of s' e sd /\ path_of s e sd = path_of s' e sd.
Proof.
  intros H e sd. split; [apply (ents_proj_eq abs_noprio s_oid)|apply (ents_proj_eq abs_noprio s_path)]; try exact H;
    intros [] [] [] Ek; unfold abs_noprio, abs_side in Ek; cbn [gs]; congruence.
Qed.
Lemma eqv_noprio_intro s s' : IdxJ s -> IdxJ s' -> map abs_noprio (ents s) = map abs_noprio (ents s') ->
  (forall e, set_mem e (cset s) = set_mem e (cset s')) -> eqv_noprio s s'.
Proof.
  intros HJ HJ' He Hc. destruct (index_determined _ _ HJ HJ' (absnp_oid_path _ _ He)) as [A B].
  split; [exact He|]. split; [exact Hc|]. split; [exact A|exact B].
Qed.
(* abs_noprio is abs_entry without its last component *)
Lemma eqv_intro s s' : IdxJ s -> IdxJ s' -> map abs_entry (ents s) = map abs_entry (ents s') ->
  (forall e, set_mem e (cset s) = set_mem e (cset s')) -> eqv s s'.
Proof.
  intros HJ HJ' He Hc. split; [exact He|]. apply (eqv_noprio_intro s s' HJ HJ'); [|exact Hc].
  apply (f_equal (map fst)) in He. rewrite !map_map in He. exact He.
Qed.

(* `exists` of the entry that holds o, as stored *)
Definition stored_ex (s : state) (sd : bool) (o : str) : option exst :=
  match al_get o (oids s sd) with
  | Some e => match nth_error (ents s) e with Some en => Some (s_ex (gs en sd)) | None => None end
  | None => None
  end.

Lemma ex_rule_idem old ex : ~ (ex = Some true /\ old = ExTrashed) -> ex_rule (ex_rule old ex) ex = ex_rule old ex.
Proof. intros H. destruct old, ex as [[|]|]; try reflexivity. exfalso. apply H. split; reflexivity. Qed.

(* the second copy of an event finds its own path in place: the priority is not reset again *)
Lemma ev_prio_again x ot (o : str) np h ex c p : ev_prio (ev_side x ot o np h ex c) np p = p.
Proof. unfold ev_prio. destruct np; [|reflexivity]. cbn [ev_side s_path]. rewrite ostr_eqb_refl, andb_false_r. reflexivity. Qed.
Lemma ev_entry_twice en sd ot (o : str) np h ex c1 c2 :
  ev_entry (ev_entry en sd ot o np h ex c1) sd ot o np h ex c2 =
  with_prio (ss en sd (ev_side (ev_side (gs en sd) ot o np h ex c1) ot o np h ex c2)) (ev_prio (gs en sd) np (e_prio en)).
Proof. unfold ev_entry. rewrite gs_written, prio_with_prio, ev_prio_again. apply ss_with_prio_twice. Qed.

Lemma abs_entry_side en sd x y p : abs_side x = abs_side y -> abs_entry (with_prio (ss en sd x) p) = abs_entry (with_prio (ss en sd y) p).
Proof. intros H. destruct en, sd; unfold abs_entry; cbn; rewrite H; reflexivity. Qed.

Lemma abs_ev_entry_twice en sd ot (o : str) np h ex c1 c2 :
  tchg c1 = tchg c2 -> ~ (ex = Some true /\ s_ex (gs en sd) = ExTrashed) ->
  abs_entry (ev_entry (ev_entry en sd ot o np h ex c1) sd ot o np h ex c2) = abs_entry (ev_entry en sd ot o np h ex c1).
Proof.
  intros H Hex. rewrite ev_entry_twice. apply abs_entry_side.
  unfold abs_side, ev_side. cbn. rewrite H, (ex_rule_idem _ _ Hex). destruct np, h; reflexivity.
Qed.

(* two copies of one event in a row: the first makes (or finds) the entry at upd_target, the second rewrites it *)
Lemma update_twice E s sd ot (o : str) path h ex t1 t2 s1 s2 :
  IdxJ s -> oip E sd = false -> ot <> Dir -> o <> [] ->
  update E (st_tape s t1) sd (Some ot) (Some o) path h ex None = Ok s1 ->
  update E (st_tape s1 t2) sd (Some ot) (Some o) path h ex None = Ok s2 ->
  exists en c1 c2, tchg c1 = true /\ tchg c2 = true /\
    nth_error (upd_base s sd o ot) (upd_target s sd o) = Some en /\ (al_get o (oids s sd) = None -> en = new_entry ot) /\
    nth_error (ents s1) (upd_target s sd o) = Some (ev_entry en sd ot o (omap (nps (cvs E sd)) path) h ex c1) /\
    ents s2 = list_upd (ents s1) (upd_target s sd o)
                (ev_entry (ev_entry en sd ot o (omap (nps (cvs E sd)) path) h ex c1) sd ot o (omap (nps (cvs E sd)) path) h ex c2) /\
    (forall e', set_mem e' (cset s1) = set_mem e' (cset s2)) /\ IdxJ s1 /\ IdxJ s2.
Proof.
  intros HJ Hoip Hot Hne H1 H2.
  destruct (update_spec _ _ _ _ _ _ _ _ _ (IdxJ_st_tape _ t1 HJ) Hoip Hot Hne H1) as [en [c1 [Hn [Hc1 [Hnew [_ [He1 [Hm1 HJ1]]]]]]]].
  change (upd_target (st_tape s t1) sd o) with (upd_target s sd o) in *.
  assert (Hn1: nth_error (ents s1) (upd_target s sd o) = Some (ev_entry en sd ot o (omap (nps (cvs E sd)) path) h ex c1)).
  { rewrite He1. apply (nth_upd_at_same _ _ _ _ Hn). }
  destruct (update_held _ _ _ _ _ _ _ _ _ _ _ (IdxJ_st_tape _ t2 HJ1) Hoip Hot Hne Hn1 (ev_entry_oid _ _ _ _ _ _ _ _) H2) as [c2 [Hc2 [He2 [Hm2 HJ2]]]].
  exists en, c1, c2. repeat (split; [assumption|]). split; [|split; assumption].
  intros e'. rewrite Hm2. cbn [cset st_tape]. rewrite Hm1. destruct (Nat.eqb e' (upd_target s sd o)); reflexivity.
Qed.

(* spl ("same but the payload"): the two entries agree on everything an event does not write: the other side, the ignore reason, and on the
   event's side the id, the sync markers, force_sync and whether the side is flagged *)
Definition spl (sd : bool) (a b : entry) : Prop :=
  abs_side (gs a (negb sd)) = abs_side (gs b (negb sd)) /\ e_ign a = e_ign b /\
  s_oid (gs a sd) = s_oid (gs b sd) /\ s_spath (gs a sd) = s_spath (gs b sd) /\ s_shash (gs a sd) = s_shash (gs b sd) /\
  s_force (gs a sd) = s_force (gs b sd) /\ tchg (s_chg (gs a sd)) = tchg (s_chg (gs b sd)).
Lemma spl_refl sd a : spl sd a a. Proof. repeat split. Qed.
Lemma spl_sym sd a b : spl sd a b -> spl sd b a.
Proof. intros [A [B [C [D [F [G H]]]]]]. repeat split; symmetry; assumption. Qed.
Lemma spl_trans sd a b c : spl sd a b -> spl sd b c -> spl sd a c.
Proof. intros [A [B [C [D [F [G H]]]]]] [A' [B' [C' [D' [F' [G' H']]]]]]. repeat split; etransitivity; eassumption. Qed.

Lemma abs_noprio_ext a b sd :
  abs_side (gs a sd) = abs_side (gs b sd) -> abs_side (gs a (negb sd)) = abs_side (gs b (negb sd)) -> e_ign a = e_ign b ->
  abs_noprio a = abs_noprio b.
Proof. destruct a, b, sd; unfold abs_noprio; simpl; intros -> -> ->; reflexivity. Qed.

Lemma gl_congr cv a b sd i : spl sd a b -> abs_noprio (gl_entry cv a sd i) = abs_noprio (gl_entry cv b sd i).
Proof.
  intros [A [B [C [D [F [G H]]]]]]. unfold gl_entry. apply (abs_noprio_ext _ _ sd).
  - rewrite !gs_with_prio, !gs_ss_same. unfold gl_side, abs_side. cbn. rewrite C, D, F, G, H. reflexivity.
  - rewrite !gs_with_prio, !gs_ss_other. exact A.
  - rewrite !ign_with_prio, !ign_ss. exact B.
Qed.

(* duplicate delivery is repaired by the re-read even in the case of EventRefute.update_idempotent_full (TRASHED + exists) *)
Lemma dup_exists_resolved_by_get_latest E s sd ot (o : str) path h ex t1 t2 s1 s2 info s1' s2' :
  IdxJ s -> oip E sd = false -> ot <> Dir -> o <> [] ->
  (forall i, info = Some i -> i_ot i <> Dir) ->
  update E (st_tape s t1) sd (Some ot) (Some o) path h ex None = Ok s1 ->
  update E (st_tape s1 t2) sd (Some ot) (Some o) path h ex None = Ok s2 ->
  get_latest_side E s1 (upd_target s sd o) sd info = Ok s1' ->
  get_latest_side E s2 (upd_target s sd o) sd info = Ok s2' ->
  eqv s1' s2'.
Proof.
  intros HJ Hoip Hot Hne Hinfo H1 H2 G1 G2.
  destruct (update_twice _ _ _ _ _ _ _ _ _ _ _ _ HJ Hoip Hot Hne H1 H2) as [en [c1 [c2 [Hc1 [Hc2 [_ [_ [Hn1 [He2 [Hcs [HJ1 HJ2]]]]]]]]]]].
  set (tgt := upd_target s sd o) in *. set (np := omap (nps (cvs E sd)) path) in *.
  set (a := ev_entry en sd ot o np h ex c1) in *. set (b := ev_entry a sd ot o np h ex c2) in *.
  assert (Hn2: nth_error (ents s2) tgt = Some b) by (rewrite He2; apply (nth_upd_at_same _ _ _ _ Hn1)).
  assert (Hca: tchg (s_chg (gs a sd)) = true) by (unfold a; rewrite ev_entry_chg; exact Hc1).
  assert (Hcb: tchg (s_chg (gs b sd)) = true) by (unfold b; rewrite ev_entry_chg; exact Hc2).
  (* both re-reads write the event's side of entry tgt; a and b are en with that side and the priority replaced *)
  assert (Hfin: forall f1 p1 f2 p2, wrote s1 tgt a sd f1 p1 s1' -> wrote s2 tgt b sd f2 p2 s2' ->
            abs_side f1 = abs_side f2 -> p1 = p2 -> eqv s1' s2').
  { intros f1 p1 f2 p2 (_ & C1 & A1 & B1 & _) (_ & C2 & A2 & B2 & _) Hf ->.
    apply eqv_intro; [exact C1|exact C2| |intros e'; rewrite B1, B2; apply Hcs].
    rewrite A1, A2, He2, upd_at_twice, !map_upd_at. f_equal.
    unfold b, a. rewrite ev_entry_twice. unfold ev_entry. rewrite !ss_with_prio_twice. apply abs_entry_side, Hf. }
  destruct info as [i|].
  - apply (Hfin _ _ _ _ (get_latest_side_some_spec _ _ _ _ _ _ _ _ HJ1 Hn1 (ev_entry_oid _ _ _ _ _ _ _ _) Hne (Hinfo i eq_refl) Hca G1)
                        (get_latest_side_some_spec _ _ _ _ _ _ _ _ HJ2 Hn2 (ev_entry_oid _ _ _ _ _ _ _ _) Hne (Hinfo i eq_refl) Hcb G2)).
    + unfold b, a. rewrite !gs_ev_entry. unfold abs_side, gl_side, ev_side. cbn. rewrite Hc1, Hc2. reflexivity.
    + unfold b, a. rewrite !gs_ev_entry, ev_entry_twice. unfold ev_entry. rewrite !prio_with_prio.
      unfold ev_prio at 1 3. cbn [ev_side s_path]. destruct np; reflexivity.
  - apply (Hfin _ _ _ _ (get_latest_side_none_spec _ _ _ _ _ _ _ HJ1 Hn1 (ev_entry_oid _ _ _ _ _ _ _ _) G1)
                        (get_latest_side_none_spec _ _ _ _ _ _ _ HJ2 Hn2 (ev_entry_oid _ _ _ _ _ _ _ _) G2)).
    + unfold b, a. rewrite Hoip, !no_info_ex_id_stable, !gs_ev_entry. unfold abs_side, ev_side. cbn. rewrite Hc1, Hc2. destruct np, h; reflexivity.
    + unfold b, a. rewrite ev_entry_twice. unfold ev_entry. rewrite !prio_with_prio. reflexivity.
Qed.

(* an event for a fixed side and id: what still varies (otype, path, hash, exists) and the tape its update consumes *)
Record fevent := mkFe { fe_ot : otype; fe_path : option str; fe_hash : option N; fe_ex : option bool; fe_tape : list titem }.
Fixpoint run_events (E : env) (s : state) (sd : bool) (o : str) (l : list fevent) : res state :=
  match l with
  | [] => Ok s
  | ev :: r =>
    s' <- update E (st_tape s (fe_tape ev)) sd (Some (fe_ot ev)) (Some o) (fe_path ev) (fe_hash ev) (fe_ex ev) None ;;
    run_events E s' sd o r
  end.

Lemma spl_oid sd a b : spl sd a b -> s_oid (gs a sd) = s_oid (gs b sd).
Proof. intros (_ & _ & H & _). exact H. Qed.
Lemma spl_chg sd a b : spl sd a b -> tchg (s_chg (gs a sd)) = tchg (s_chg (gs b sd)).
Proof. intros (_ & _ & _ & _ & _ & _ & H). exact H. Qed.
Lemma spl_ev_entry en sd ot (o : str) np h ex c : s_oid (gs en sd) = Some o -> tchg (s_chg (gs en sd)) = tchg c ->
  spl sd en (ev_entry en sd ot o np h ex c).
Proof. intros Ho Hc. repeat split; rewrite ?gs_ev_entry, ?gs_ev_entry_other, ?ign_ev_entry; cbn; try reflexivity; assumption. Qed.
Lemma spl_ev_entries en sd ot ot' (o : str) np np' h h' ex ex' c c' : tchg c = tchg c' ->
  spl sd (ev_entry en sd ot o np h ex c) (ev_entry en sd ot' o np' h' ex' c').
Proof. intros Hc. repeat split; rewrite ?gs_ev_entry, ?gs_ev_entry_other, ?ign_ev_entry; cbn; try reflexivity; exact Hc. Qed.
Lemma spl_flagged sd en ot (o : str) np h ex c en' : tchg c = true -> spl sd (ev_entry en sd ot o np h ex c) en' ->
  s_oid (gs en' sd) = Some o /\ tchg (s_chg (gs en' sd)) = true.
Proof. intros Hc S. rewrite <- (spl_oid _ _ _ S), <- (spl_chg _ _ _ S), ev_entry_oid, ev_entry_chg. auto. Qed.

(* state after at least one event for the id of a (the entry the first event left at tgt): only entry tgt differs from
   [base], and from a only in what events write *)
Definition touched (base : list entry) (cs0 : list eid) (tgt : eid) (sd : bool) (a : entry) (s' : state) : Prop :=
  IdxJ s' /\ exists en', nth_error (ents s') tgt = Some en' /\ ents s' = list_upd base tgt en' /\ spl sd a en' /\
    (forall e', set_mem e' (cset s') = Nat.eqb e' tgt || set_mem e' cs0).

(* s1 comes from s by a delivery for (sd, o) that began with ev: the entry en0 it found (or made), the first stamp c *)
Definition delivered (E : env) (s : state) (sd : bool) (o : str) (ev : fevent) (s1 : state) : Prop :=
  exists en0 c, nth_error (upd_base s sd o (fe_ot ev)) (upd_target s sd o) = Some en0 /\
    tchg c = true /\
    touched (upd_base s sd o (fe_ot ev)) (cset s) (upd_target s sd o) sd
            (ev_entry en0 sd (fe_ot ev) o (omap (nps (cvs E sd)) (fe_path ev)) (fe_hash ev) (fe_ex ev) c) s1.

(* st_tape leaves target and base alone (by conversion) *)
Lemma delivered_first E s sd (o : str) ev s1 :
  IdxJ s -> oip E sd = false -> fe_ot ev <> Dir -> o <> [] ->
  update E (st_tape s (fe_tape ev)) sd (Some (fe_ot ev)) (Some o) (fe_path ev) (fe_hash ev) (fe_ex ev) None = Ok s1 ->
  delivered E s sd o ev s1.
Proof.
  intros HJ Hoip Hot Hne H.
  destruct (update_spec _ _ _ _ _ _ _ _ _ (IdxJ_st_tape _ (fe_tape ev) HJ) Hoip Hot Hne H) as [en [c [Hn [Hc [_ [_ [He [Hm HJ1]]]]]]]].
  exists en, c. split; [exact Hn|]. split; [exact Hc|].
  split; [exact HJ1|]. eexists. split; [rewrite He; apply (nth_upd_at_same _ _ _ _ Hn)|]. split; [exact He|]. split; [apply spl_refl|exact Hm].
Qed.

Lemma touched_next E base cs0 tgt sd (o : str) a s1 ev s2 :
  touched base cs0 tgt sd a s1 -> s_oid (gs a sd) = Some o -> tchg (s_chg (gs a sd)) = true ->
  oip E sd = false -> fe_ot ev <> Dir -> o <> [] ->
  update E (st_tape s1 (fe_tape ev)) sd (Some (fe_ot ev)) (Some o) (fe_path ev) (fe_hash ev) (fe_ex ev) None = Ok s2 ->
  touched base cs0 tgt sd a s2.
Proof.
  intros [HJ1 [en1 [Hn1 [He1 [S Hm]]]]] Hoa Hca Hoip Hot Hne H.
  rewrite (spl_oid _ _ _ S) in Hoa. rewrite (spl_chg _ _ _ S) in Hca.
  destruct (update_held _ _ _ _ _ _ _ _ _ _ _ (IdxJ_st_tape _ (fe_tape ev) HJ1) Hoip Hot Hne Hn1 Hoa H) as [c [Hcc [He [Hm2 HJ2]]]].
  cbn [ents cset st_tape] in He, Hm2.
  split; [exact HJ2|]. eexists. split; [rewrite He; apply (nth_upd_at_same _ _ _ _ Hn1)|]. split; [rewrite He, He1, upd_at_twice; reflexivity|].
  split; [exact (spl_trans _ _ _ _ S (spl_ev_entry _ _ _ _ _ _ _ _ Hoa (eq_trans Hca (eq_sym Hcc))))|].
  intros e'. rewrite Hm2, Hm. destruct (Nat.eqb e' tgt); reflexivity.
Qed.

Lemma delivered_more E s sd (o : str) ev : forall l s1 s2,
  delivered E s sd o ev s1 -> oip E sd = false -> o <> [] -> Forall (fun ev => fe_ot ev <> Dir) l ->
  run_events E s1 sd o l = Ok s2 -> delivered E s sd o ev s2.
Proof.
  induction l as [|ev' l IH]; intros s1 s2 Hd Hoip Hne Hall H; cbn [run_events] in H.
  - injection H as <-. exact Hd.
  - inversion Hall as [|? ? Hev Hall']; subst. bind_inv H sm Eu.
    apply (IH sm s2); try assumption. destruct Hd as (en0 & c & Hn & Hc & Ht).
    exists en0, c. split; [exact Hn|]. split; [exact Hc|].
    refine (touched_next _ _ _ _ _ o _ _ _ _ Ht (ev_entry_oid _ _ _ _ _ _ _ _) _ Hoip Hev Hne Eu). rewrite ev_entry_chg. exact Hc.
Qed.

Lemma delivered_run E s sd (o : str) ev l s1 :
  IdxJ s -> oip E sd = false -> o <> [] -> Forall (fun ev => fe_ot ev <> Dir) (ev :: l) ->
  run_events E s sd o (ev :: l) = Ok s1 ->
  delivered E s sd o ev s1.
Proof.
  intros HJ Hoip Hne Hall R. cbn [run_events] in R. bind_inv R sm E0. inversion Hall as [|? ? Hev Hall']; subst.
  exact (delivered_more _ _ _ _ _ _ _ _ (delivered_first _ _ _ _ _ _ HJ Hoip Hev Hne E0) Hoip Hne Hall' R).
Qed.

Lemma delivered_target E s sd (o : str) ev s1 : delivered E s sd o ev s1 ->
  IdxJ s1 /\ exists en1, nth_error (ents s1) (upd_target s sd o) = Some en1 /\
    ents s1 = list_upd (upd_base s sd o (fe_ot ev)) (upd_target s sd o) en1 /\
    s_oid (gs en1 sd) = Some o /\ tchg (s_chg (gs en1 sd)) = true.
Proof.
  intros (en0 & c & _ & Hc & HJ1 & en1 & Hn1 & He1 & S & _).
  split; [exact HJ1|]. exists en1. split; [exact Hn1|]. split; [exact He1|]. exact (spl_flagged _ _ _ _ _ _ _ _ _ Hc S).
Qed.

(* the re-read makes the outcome independent of which events were delivered, how often, in which order and
   with which payload, up to the priority (eqv_noprio; with it the statement is false, EventRefute): what counts is the
   ignore reason, the other side, the id, the sync markers, force_sync and the provider's answer *)
Lemma same_oid_any_delivery E s sd (o : str) ev1 l1 ev2 l2 s1 s2 i s1' s2' :
  IdxJ s -> oip E sd = false -> o <> [] -> i_ot i <> Dir ->
  Forall (fun ev => fe_ot ev <> Dir) (ev1 :: l1) -> Forall (fun ev => fe_ot ev <> Dir) (ev2 :: l2) ->
  (al_get o (oids s sd) = None -> fe_ot ev1 = fe_ot ev2) ->
  run_events E s sd o (ev1 :: l1) = Ok s1 -> run_events E s sd o (ev2 :: l2) = Ok s2 ->
  get_latest_side E s1 (upd_target s sd o) sd (Some i) = Ok s1' ->
  get_latest_side E s2 (upd_target s sd o) sd (Some i) = Ok s2' ->
  eqv_noprio s1' s2'.
Proof.
  intros HJ Hoip Hne Hi Hall1 Hall2 Hsame R1 R2 G1 G2.
  destruct (delivered_run _ _ _ _ _ _ _ HJ Hoip Hne Hall1 R1) as (ena & c1 & Hna & Hc1 & HJ1 & en1 & Hn1 & He1 & S1 & Hm1).
  destruct (delivered_run _ _ _ _ _ _ _ HJ Hoip Hne Hall2 R2) as (enb & c2 & Hnb & Hc2 & HJ2 & en2 & Hn2 & He2 & S2 & Hm2).
  destruct (spl_flagged _ _ _ _ _ _ _ _ _ Hc1 S1) as [Ho1 Hf1]. destruct (spl_flagged _ _ _ _ _ _ _ _ _ Hc2 S2) as [Ho2 Hf2].
  set (tgt := upd_target s sd o) in *.
  destruct (get_latest_side_some_spec _ _ _ _ _ _ _ _ HJ1 Hn1 Ho1 Hne Hi Hf1 G1) as (_ & Z1 & X1 & Y1 & _).
  destruct (get_latest_side_some_spec _ _ _ _ _ _ _ _ HJ2 Hn2 Ho2 Hne Hi Hf2 G2) as (_ & Z2 & X2 & Y2 & _).
  (* both deliveries started from the same entry of the same list *)
  assert (Hb: upd_base s sd o (fe_ot ev1) = upd_base s sd o (fe_ot ev2)).
  { destruct (al_get o (oids s sd)) as [e0|] eqn:Ea; [|rewrite (Hsame eq_refl); reflexivity].
    rewrite !(proj2 (upd_known s sd o _ e0 Ea)). reflexivity. }
  rewrite <- Hb in *. rewrite Hna in Hnb. injection Hnb as <-.
  pose proof (spl_trans _ _ _ _ (spl_sym _ _ _ S1) (spl_trans _ _ _ _ (spl_ev_entries ena sd _ _ o _ _ _ _ _ _ _ _ (eq_trans Hc1 (eq_sym Hc2))) S2)) as Hspl.
  assert (Hents: map abs_noprio (ents s1') = map abs_noprio (ents s2')).
  { rewrite X1, X2, He1, He2, !upd_at_twice, !map_upd_at. f_equal. apply gl_congr, Hspl. }
  apply eqv_noprio_intro; [exact Z1|exact Z2|exact Hents|].
  intros e'. rewrite Y1, Y2, Hm1, Hm2. reflexivity.
Qed.
