(* AlgoInv.v — the coupling invariant of the algorithm layer on fragment F1 ([InvP]; AlgoCheck.inv_code evaluates its
   decidable core), its frame lemmas and the master preservation lemma ([inv_engine], over [touch]: what a step on one
   entry does to the engine's own state); preservation by the steps themselves is proved in the files that import this
   one.
   Names in the layer: X_eff = what a StateModel setter does to one entry (AlgoState); X_w = the same for the state
   operation of AlgoModel, on worlds (AlgoSync, AlgoFinish, AlgoSyncEntry); X_run = "the call answers ROk with a result
   such that .."; X_spec = what a call does: an equation or a run form (AlgoProv, AlgoSyncEntry), in AlgoStep with
   [answers] where the call can also stop; X_pres = the invariant holds after the call, an engine call's ROk answer being
   a hypothesis, X_total = the call never answers OutOfFragment (the forms PropAlgo.v and the later Algo files cite);
   X_inv = inversion of a call that answered ROk; inv_X (and init_inv, run_inv) = the invariant holds after X;
   runs_X = X as a link of a refresh chain ([AlgoSync.runs]).
   The pending events are a parameter ([evl]: per side, the events not yet taken in) so that the same
   definition serves inside the intake loop, where the cursor has already moved but the events are still
   being applied one by one. *)
From Coq Require Import NArith List Bool Arith Lia.
From CS Require Import Str StateModel StateProofs AlgoModel AlgoCheck AlgoState AlgoProv.
Import ListNotations.
Local Open Scope N_scope.

Definition evlist := bool -> list ProvModel.event.
Definition pd (evl : evlist) (sd : bool) (k : nat) : bool := existsb (ev_for k) (evl sd).
Definition real_evl (w : world) : evlist := fun sd => ProvModel.events_from (prov_of w sd).

(* three names for "an event for cell k waits": AlgoCheck.pending (of a world), AlgoProv.pend (of a provider), pd (of a
   list of events); the proofs use pd *)
Lemma pending_pd w sd k : pending w sd k = pd (real_evl w) sd k.
Proof. reflexivity. Qed.
Lemma pd_real w sd k : pd (real_evl w) sd k = pend (prov_of w sd) k.
Proof. reflexivity. Qed.

Definition ostr_k (k : nat) : str := [N.of_nat k].
Lemma kstr_kid k : kstr (kid_of k) = ostr_k k. Proof. reflexivity. Qed.
Lemma oidk_ostr k : oidk (Some (ostr_k k)) = Some k.
Proof. unfold oidk, ostr_k. rewrite Nnat.Nat2N.id. reflexivity. Qed.
Lemma skey_ostr k : skey false (ostr_k k) = Some (kid_of k). Proof. reflexivity. Qed.
Lemma tstr_ostr k : tstr (Some (ostr_k k)) = true. Proof. reflexivity. Qed.
Lemma ostr_k_inj a b : ostr_k a = ostr_k b -> a = b.
Proof. unfold ostr_k. intros H. injection H as H. apply Nnat.Nat2N.inj. exact H. Qed.

Definition flagP (evl : evlist) (en : StateModel.entry) (sd : bool) (k : nat) : Prop :=
  tchg (s_chg (gs en sd)) = true \/ pd evl sd k = true.

(* the state's picture of side sd agrees with the provider object ob *)
Definition freshP (x : sidest) (ob : ProvModel.obj) : Prop :=
  if ProvModel.o_exists ob
  then s_ex x = ExExists /\ s_hash x = Some (ProvModel.o_data ob) /\ s_path x = Some (pstr (ProvModel.o_path ob))
  else ex_in_gone (s_ex x) = true.

Definition popt (p : option str) (q : str) : Prop := p = None \/ p = Some q.
Definition hopt (h : option N) (cs : list N) : Prop := h = None \/ exists d, h = Some d /\ In d cs.

(* a side that has an id: heap cell k = object ob of that side's provider.  The letters of AlgoCheck.side_ok and of
   DESIGN.md: K = fo_K, D' (AlgoCheck: (D)) = fo_disc, C1 / C2 = fo_c1 / fo_c2, J = the last clause but one of fo_owner (A = i_cov of InvP) *)
Record FullOk (evl : evlist) (g : ghost) (w : world) (e : nat) (en : StateModel.entry) (sd : bool) (k : nat) (ob : ProvModel.obj) : Prop := {
  fo_trash : s_ex (gs en sd) = ExTrashed -> ProvModel.o_exists ob = false;
  fo_K : is_discarded (e_ign en) = false -> pd evl sd k = true \/ (x_lg (getx w e sd) < maxchg en) \/ freshP (gs en sd) ob;
  fo_path : popt (s_path (gs en sd)) (pstr (ProvModel.o_path ob));
  fo_spath : popt (s_spath (gs en sd)) (pstr (ProvModel.o_path ob));
  fo_disc : is_discarded (e_ign en) = true -> ProvModel.o_exists ob = false;
  fo_c1 : is_discarded (e_ign en) = false -> s_oid (gs en (negb sd)) = None -> flagP evl en sd k;
  fo_c2 : is_discarded (e_ign en) = false -> s_oid (gs en (negb sd)) <> None ->
          flagP evl en sd k \/
          (ProvModel.o_exists ob = true /\ s_spath (gs en sd) = Some (pstr (ProvModel.o_path ob)) /\
           s_shash (gs en sd) = Some (ProvModel.o_data ob));
  (* owner side: the object was made by a user of this side; cs = the contents written to it, latest first *)
  fo_owner : is_discarded (e_ign en) = false -> forall cs, g_get k (g_of g sd) = Some cs ->
          hopt (s_hash (gs en sd)) cs /\ hopt (s_shash (gs en sd)) cs /\
          (exists r, cs = ProvModel.o_data ob :: r) /\
          (s_path (gs en sd) <> None -> s_hash (gs en sd) <> None) /\
          (s_oid (gs en (negb sd)) <> None ->
             s_spath (gs en sd) <> None /\ s_shash (gs en sd) <> None /\
             (s_shash (gs en (negb sd)) = Some (ProvModel.o_data ob) \/
              (s_shash (gs en sd) <> Some (ProvModel.o_data ob) /\ flagP evl en sd k)) /\
             (forall k', s_oid (gs en (negb sd)) = Some (ostr_k k') -> g_get k' (g_of g (negb sd)) = None));
  (* owner side, continued: never synchronised = no sync markers; a sync path was a path *)
  fo_owner2 : is_discarded (e_ign en) = false -> forall cs, g_get k (g_of g sd) = Some cs ->
          (s_oid (gs en (negb sd)) = None -> s_spath (gs en sd) = None /\ s_shash (gs en sd) = None) /\
          (s_spath (gs en sd) <> None -> s_path (gs en sd) <> None);
  (* mirror side: made and written by the engine only *)
  fo_mirror : is_discarded (e_ign en) = false -> g_get k (g_of g sd) = None ->
          ProvModel.o_exists ob = true /\ s_ex (gs en sd) = ExExists /\
          s_shash (gs en sd) = Some (ProvModel.o_data ob) /\ s_hash (gs en sd) = Some (ProvModel.o_data ob) /\
          s_spath (gs en sd) = Some (pstr (ProvModel.o_path ob)) /\ s_path (gs en sd) = Some (pstr (ProvModel.o_path ob)) /\
          exists k' ob', s_oid (gs en (negb sd)) = Some (ostr_k k') /\ obj_at w (negb sd) k' = Some ob' /\
                         leaf (ProvModel.o_path ob) = leaf (ProvModel.o_path ob') /\ g_get k' (g_of g (negb sd)) <> None
}.
Arguments fo_trash {evl g w e en sd k ob}.
Arguments fo_K {evl g w e en sd k ob}.
Arguments fo_path {evl g w e en sd k ob}.
Arguments fo_spath {evl g w e en sd k ob}.
Arguments fo_disc {evl g w e en sd k ob}.
Arguments fo_c1 {evl g w e en sd k ob}.
Arguments fo_c2 {evl g w e en sd k ob}.
Arguments fo_owner {evl g w e en sd k ob}.
Arguments fo_owner2 {evl g w e en sd k ob}.
Arguments fo_mirror {evl g w e en sd k ob}.

Record SideOk (evl : evlist) (g : ghost) (w : world) (e : nat) (en : StateModel.entry) (sd : bool) : Prop := {
  so_file : s_otype (gs en sd) = File;
  so_nofrc : s_force (gs en sd) = false;
  so_empty : s_oid (gs en sd) = None ->
             tchg (s_chg (gs en sd)) = false /\ s_path (gs en sd) = None /\ s_hash (gs en sd) = None /\
             s_spath (gs en sd) = None /\ s_shash (gs en sd) = None;
  so_empty_ex : s_oid (gs en sd) = None -> is_discarded (e_ign en) = false -> s_ex (gs en sd) = ExUnknown;
  so_full : forall o, s_oid (gs en sd) = Some o ->
            exists k ob, o = ostr_k k /\ obj_at w sd k = Some ob /\ (2 <= k)%nat /\ FullOk evl g w e en sd k ob
}.
Arguments so_file {evl g w e en sd}.
Arguments so_nofrc {evl g w e en sd}.
Arguments so_empty {evl g w e en sd}.
Arguments so_empty_ex {evl g w e en sd}.
Arguments so_full {evl g w e en sd}.

Record EntOk (evl : evlist) (g : ghost) (w : world) (e : nat) (en : StateModel.entry) : Prop := {
  eo_ign : e_ign en = INone \/ e_ign en = IDiscarded;
  eo_some : s_oid (e_l en) <> None \/ s_oid (e_r en) <> None;
  eo_side : forall sd, SideOk evl g w e en sd
}.
Arguments eo_ign {evl g w e en}.
Arguments eo_some {evl g w e en}.
Arguments eo_side {evl g w e en}.

Lemma owner_peer evl g w e en s k ob cs k' :
  is_discarded (e_ign en) = false -> FullOk evl g w e en s k ob -> g_get k (g_of g s) = Some cs ->
  s_oid (gs en (negb s)) = Some (ostr_k k') -> g_get k' (g_of g (negb s)) = None.
Proof. intros Hnd FO Hg Ho'. apply (fo_owner FO Hnd cs Hg); congruence. Qed.

Section Owner.
Variables (evl : evlist) (g : ghost) (w : world) (e : nat) (en : StateModel.entry) (sd : bool) (k : nat) (ob : ProvModel.obj)
          (cs : list N).
Hypothesis F : FullOk evl g w e en sd k ob.
Hypothesis Hd : is_discarded (e_ign en) = false.
Hypothesis Hcs : g_get k (g_of g sd) = Some cs.
Lemma fo_hash_in : hopt (s_hash (gs en sd)) cs /\ (s_path (gs en sd) <> None -> s_hash (gs en sd) <> None).
Proof. destruct (fo_owner F Hd cs Hcs) as (P1 & _ & _ & P4 & _). auto. Qed.
Lemma fo_head : exists r, cs = ProvModel.o_data ob :: r.
Proof. apply (fo_owner F Hd cs Hcs). Qed.
Lemma fo_paired : s_oid (gs en (negb sd)) <> None -> s_spath (gs en sd) <> None.
Proof. intros H. apply (fo_owner F Hd cs Hcs), H. Qed.
End Owner.
Arguments fo_hash_in {evl g w e en sd k ob cs}.
Arguments fo_head {evl g w e en sd k ob cs}.
Arguments fo_paired {evl g w e en sd k ob cs}.

Lemma obj_at_prov w w' sd k : prov_of w' sd = prov_of w sd -> obj_at w' sd k = obj_at w sd k.
Proof. intros H. unfold obj_at. rewrite H. reflexivity. Qed.
Lemma obj_at_lt w sd k ob : obj_at w sd k = Some ob -> (k < length (ProvModel.p_heap (prov_of w sd)))%nat.
Proof. intros H. apply nth_error_Some. unfold obj_at in H. congruence. Qed.

(* a provider of the fragment: account root, sync root, then files directly in the sync root *)
Record ShapeOk (w : world) (sd : bool) : Prop := {
  sh_root0 : exists r0, obj_at w sd 0 = Some r0 /\ ProvModel.o_exists r0 = true /\ ProvModel.o_path r0 = [] /\ ProvModel.o_kind r0 = ProvModel.KDir;
  sh_root1 : exists r1, obj_at w sd 1 = Some r1 /\ ProvModel.o_exists r1 = true /\ ProvModel.o_path r1 = [root_name sd] /\ ProvModel.o_kind r1 = ProvModel.KDir;
  sh_files : forall k ob, (2 <= k)%nat -> obj_at w sd k = Some ob ->
             ProvModel.o_kind ob = ProvModel.KFile /\ exists n, ProvModel.o_path ob = [root_name sd; n] /\ name_ok n = true
}.
Arguments sh_root0 {w sd}.
Arguments sh_root1 {w sd}.
Arguments sh_files {w sd}.

(* what a pending event says about its object *)
Definition LogOk (evl : evlist) (w : world) (sd : bool) : Prop :=
  forall ev, In ev (evl sd) ->
    exists k ob, ProvModel.e_oid ev = kid_of k /\ (2 <= k)%nat /\ obj_at w sd k = Some ob /\
                 ProvModel.e_otype ev = ProvModel.o_kind ob /\
                 (ProvModel.e_exists ev = false -> ProvModel.o_exists ob = false).

Definition root_ent_ok (s : StateModel.state) : Prop :=
  exists e0 e1, nth_error (ents s) 0 = Some e0 /\ nth_error (ents s) 1 = Some e1 /\
    tchg (s_chg (e_l e0)) = false /\ tchg (s_chg (e_r e0)) = false /\
    s_otype (e_l e0) = Dir /\ s_otype (e_r e0) = Dir /\
    s_oid (e_l e0) = Some (ostr_k 1) /\ s_oid (e_r e0) = Some (ostr_k 1) /\
    is_discarded (e_ign e1) = true /\ s_oid (e_l e1) = None /\ s_oid (e_r e1) = None /\
    tchg (s_chg (e_l e1)) = false /\ tchg (s_chg (e_r e1)) = false /\
    set_mem 0%nat (cset s) = false /\ set_mem 1%nat (cset s) = false.

(* a side that has been refreshed since its entry last changed shows an existing object with its path, or a gone one *)
Definition ShapeS (x : sidest) : Prop := (s_ex x = ExExists /\ s_path x <> None) \/ ex_in_gone (s_ex x) = true.
Definition Seen (w : world) (e : nat) (en : StateModel.entry) (sd : bool) : Prop :=
  s_oid (gs en sd) <> None -> is_discarded (e_ign en) = false -> maxchg en <= x_lg (getx w e sd) -> ShapeS (gs en sd).

Record InvP (evl : evlist) (g : ghost) (w : world) : Prop := {
  i_cfg : w_cfg w = cfg_std 1;
  i_pwf : forall sd, PWF (prov_of w sd);
  i_shape : forall sd, ShapeOk w sd;
  i_log : forall sd, LogOk evl w sd;
  i_idx : IdxJ (w_st w);
  i_tape : tape (w_st w) = [];
  (* the change set is complete (StateProofs.cs_complete: every flagged entry is in it), within the table, and exact:
     only entries with a change flag and an id are pending *)
  i_csc : cs_complete (w_st w);
  i_csb : forall x, set_mem x (cset (w_st w)) = true -> (x < length (ents (w_st w)))%nat;
  i_cse : forall e en, nth_error (ents (w_st w)) e = Some en -> set_mem e (cset (w_st w)) = true -> flagged en = true;
  i_clk : lastch (w_st w) <= now (w_st w);
  (* a punt moves a stamp one unit past the clock reading of its step; the next step's tick is 1000 units *)
  i_clke : forall e en, nth_error (ents (w_st w)) e = Some en ->
           maxchg en <= now (w_st w) + 1 /\ forall sd, x_lg (getx w e sd) <= now (w_st w) + 1;
  i_roots : root_ent_ok (w_st w);
  i_cov : forall sd k, (2 <= k)%nat -> (k < length (ProvModel.p_heap (prov_of w sd)))%nat ->
          (exists e en, nth_error (ents (w_st w)) e = Some en /\ s_oid (gs en sd) = Some (ostr_k k)) \/ pd evl sd k = true;
  i_ents : forall e en, (2 <= e)%nat -> nth_error (ents (w_st w)) e = Some en -> EntOk evl g w e en;
  (* an object the engine made has an entry from the moment it exists *)
  i_cove : forall sd k, (2 <= k)%nat -> (k < length (ProvModel.p_heap (prov_of w sd)))%nat -> g_get k (g_of g sd) = None ->
           exists e en, nth_error (ents (w_st w)) e = Some en /\ s_oid (gs en sd) = Some (ostr_k k);
  i_ghost : forall sd k cs, g_get k (g_of g sd) = Some cs ->
            (2 <= k)%nat /\ exists ob r, obj_at w sd k = Some ob /\ cs = ProvModel.o_data ob :: r;
  i_xlen : forall e sd, (length (ents (w_st w)) <= e)%nat -> getx w e sd = x0;
  i_seen : forall e en sd, (2 <= e)%nat -> nth_error (ents (w_st w)) e = Some en -> Seen w e en sd
}.
Arguments i_cfg {evl g w}.
Arguments i_pwf {evl g w}.
Arguments i_shape {evl g w}.
Arguments i_log {evl g w}.
Arguments i_idx {evl g w}.
Arguments i_tape {evl g w}.
Arguments i_csc {evl g w}.
Arguments i_csb {evl g w}.
Arguments i_cse {evl g w}.
Arguments i_clk {evl g w}.
Arguments i_clke {evl g w}.
Arguments i_roots {evl g w}.
Arguments i_cov {evl g w}.
Arguments i_ents {evl g w}.
Arguments i_cove {evl g w}.
Arguments i_ghost {evl g w}.
Arguments i_xlen {evl g w}.
Arguments i_seen {evl g w}.

Definition Inv (g : ghost) (w : world) : Prop := InvP (real_evl w) g w.

Lemma heap_ge2 g w sd : Inv g w -> (2 <= length (ProvModel.p_heap (prov_of w sd)))%nat.
Proof.
  intros I. destruct (sh_root1 (i_shape I sd)) as (r1 & Hr1 & _). unfold obj_at in Hr1.
  apply (proj1 (nth_error_Some _ 1%nat)). congruence.
Qed.

Lemma roots_oid s e en sd : root_ent_ok s -> (e < 2)%nat -> nth_error (ents s) e = Some en ->
  s_oid (gs en sd) = Some (ostr_k 1) \/ s_oid (gs en sd) = None.
Proof.
  intros (e0 & e1 & H0 & H1 & _ & _ & _ & _ & Ho0L & Ho0R & _ & Ho1L & Ho1R & _) He Hn.
  destruct e as [|[|e]]; [| |lia].
  - rewrite H0 in Hn. injection Hn as <-. left. destruct sd; assumption.
  - rewrite H1 in Hn. injection Hn as <-. right. destruct sd; assumption.
Qed.
Lemma roots_not_pending s : root_ent_ok s -> set_mem 0%nat (cset s) = false /\ set_mem 1%nat (cset s) = false.
Proof. intros (e0 & e1 & _ & _ & _ & _ & _ & _ & _ & _ & _ & _ & _ & _ & _ & R). exact R. Qed.

Lemma entry_ge2 evl g w e en sd k : InvP evl g w -> nth_error (ents (w_st w)) e = Some en ->
  s_oid (gs en sd) = Some (ostr_k k) -> (2 <= k)%nat -> (2 <= e)%nat.
Proof.
  intros I He Ho Hk. destruct (Nat.le_gt_cases 2 e) as [H|H]; [exact H|exfalso].
  destruct (roots_oid _ e en sd (i_roots I) H He) as [X|X]; [|congruence].
  assert (E1: ostr_k 1 = ostr_k k) by congruence. apply ostr_k_inj in E1. lia.
Qed.

(* clause [fo_K]: the side is due for a refresh, or shows its object as it is *)
Definition dueP (evl : evlist) (w : world) (e : nat) (en : StateModel.entry) (sd : bool) (k : nat) (ob : ProvModel.obj) : Prop :=
  pd evl sd k = true \/ x_lg (getx w e sd) < maxchg en \/ freshP (gs en sd) ob.

(* the premise is the body of AlgoLatest.ReadyS / AlgoFinish.ReadyAll *)
Lemma ready_due evl w e en sd k ob : pd evl sd k = true \/ freshP (gs en sd) ob -> dueP evl w e en sd k ob.
Proof. intros [X|X]; [left; exact X|right; right; exact X]. Qed.

Lemma fo_due evl g w e en sd k ob : FullOk evl g w e en sd k ob -> is_discarded (e_ign en) = false -> dueP evl w e en sd k ob.
Proof. intros F. exact (fo_K F). Qed.
Arguments fo_due {evl g w e en sd k ob}.

Lemma dueP_mono evl evl' w w' e en en' sd k ob :
  dueP evl w e en sd k ob -> (pd evl sd k = true -> pd evl' sd k = true) ->
  x_lg (getx w' e sd) = x_lg (getx w e sd) -> maxchg en <= maxchg en' -> gs en' sd = gs en sd ->
  dueP evl' w' e en' sd k ob.
Proof. intros [A|[A|A]] Hpd Hlg Hmax Hgs; [left; auto|right; left; rewrite Hlg; lia|right; right; rewrite Hgs; exact A]. Qed.

(* side sd of an entry is not rewritten (the other side may be, keeping its id and its sync hash) *)
Lemma FullOk_frame evl evl' g g' w w' e en en' sd k ob :
  FullOk evl g w e en sd k ob ->
  gs en' sd = gs en sd -> e_ign en' = e_ign en ->
  s_oid (gs en' (negb sd)) = s_oid (gs en (negb sd)) -> s_shash (gs en' (negb sd)) = s_shash (gs en (negb sd)) ->
  (is_discarded (e_ign en) = false -> dueP evl' w' e en' sd k ob) ->
  (pd evl sd k = true -> pd evl' sd k = true) ->
  g_get k (g_of g' sd) = g_get k (g_of g sd) ->
  (forall k', s_oid (gs en (negb sd)) = Some (ostr_k k') ->
     g_get k' (g_of g (negb sd)) = None -> g_get k' (g_of g' (negb sd)) = None) ->
  (forall k' ob', s_oid (gs en (negb sd)) = Some (ostr_k k') -> obj_at w (negb sd) k' = Some ob' ->
     g_get k' (g_of g (negb sd)) <> None ->
     exists ob'', obj_at w' (negb sd) k' = Some ob'' /\ leaf (ProvModel.o_path ob'') = leaf (ProvModel.o_path ob') /\
                  g_get k' (g_of g' (negb sd)) <> None) ->
  FullOk evl' g' w' e en' sd k ob.
Proof.
  intros F Hs Hi Ho Hh Hdue Hpd Hg Hown Hmir.
  assert (Hfl: flagP evl en sd k -> flagP evl' en' sd k) by (intros [X|X]; [left; rewrite Hs; exact X|right; auto]).
  destruct F as [Ftrash FK Fpath Fspath Fdisc Fc1 Fc2 Fown Fown2 Fmir]. constructor; rewrite ?Hs, ?Hi, ?Ho, ?Hh, ?Hg; auto.
  - (* fo_K *) intros Hd. rewrite <- Hs. exact (Hdue Hd).
  - (* fo_c2 *) intros Hd Hp. destruct (Fc2 Hd Hp) as [A|A]; auto.
  - (* fo_owner *) intros Hd cs Hcs. destruct (Fown Hd cs Hcs) as (A & B & C & D & E0). repeat (split; [assumption|]).
    intros Hp. destruct (E0 Hp) as (E1 & E2 & E3 & E4). repeat (split; [assumption|]). split.
    + destruct E3 as [E3|(E3 & E5)]; auto.
    + intros k' Hk'. apply (Hown k' Hk'), E4, Hk'.
  - (* fo_mirror *) intros Hd Hcs. destruct (Fmir Hd Hcs) as (A & B & C & D & E0 & F0 & (k' & ob' & G1 & G2 & G3 & G4)).
    destruct (Hmir k' ob' G1 G2 G4) as (ob'' & M1 & M2 & M3). repeat (split; [assumption|]). exists k', ob''. rewrite M2. auto.
Qed.

Lemma EntOk_frame evl evl' g g' w w' e en :
  EntOk evl g w e en ->
  (forall sd, x_lg (getx w' e sd) = x_lg (getx w e sd)) ->
  (forall sd k, s_oid (gs en sd) = Some (ostr_k k) ->
     obj_at w' sd k = obj_at w sd k /\ (pd evl sd k = true -> pd evl' sd k = true) /\
     g_get k (g_of g' sd) = g_get k (g_of g sd)) ->
  EntOk evl' g' w' e en.
Proof.
  intros [A B C] Hlg H. constructor; auto. intros sd. destruct (C sd) as [c1 c2 c3 c5 c4]. constructor; auto.
  intros o Ho. destruct (c4 o Ho) as (k & ob & -> & Hob & Hk & F). destruct (H sd k Ho) as (H1 & H2 & H3).
  exists k, ob. split; [reflexivity|]. split; [rewrite H1; exact Hob|]. split; [exact Hk|].
  apply (FullOk_frame evl evl' g g' w w' e en en sd k ob F); auto.
  - intros Hd. apply (dueP_mono evl evl' w w' e en en sd k ob (fo_due F Hd)); auto. apply N.le_refl.
  - intros k' Hk' Hn. destruct (H (negb sd) k' Hk') as (_ & _ & H6). congruence.
  - intros k' ob' Hk' Hob' Hn. destruct (H (negb sd) k' Hk') as (H4 & _ & H6). exists ob'. rewrite H4, H6. auto.
Qed.

Lemma sbp_gs a b sd : same_but_prio a b -> gs a sd = gs b sd.
Proof. intros (A & B & _). destruct sd; simpl; congruence. Qed.
Lemma sbp_maxchg a b : same_but_prio a b -> maxchg a = maxchg b.
Proof. intros (A & B & _). unfold maxchg, chgv. rewrite A, B. reflexivity. Qed.
Lemma sbp_flagged a b : same_but_prio a b -> flagged a = flagged b.
Proof. intros (A & B & _). unfold flagged. rewrite A, B. reflexivity. Qed.

Lemma EntOk_sbp evl g w e a b : same_but_prio a b -> EntOk evl g w e a -> EntOk evl g w e b.
Proof.
  intros S [A B C]. destruct a as [l r i p], b as [l' r' i' p']. destruct S as (S1 & S2 & S3). simpl in S1, S2, S3. subst l' r' i'.
  constructor; try assumption.
  intros sd. destruct (C sd) as [c1 c2 c3 c5 c4]. constructor; try assumption.
  intros o Ho. destruct (c4 o Ho) as (k & ob & X1 & X2 & X3 & X4). exists k, ob. repeat (split; [assumption|]).
  destruct X4. constructor; assumption.
Qed.

(* a new entry can only be e *)
Definition others_kept (l l' : list StateModel.entry) (e : nat) : Prop :=
  (forall x, (length l <= x)%nat -> x <> e -> nth_error l' x = None) /\
  (forall x xn, x <> e -> nth_error l x = Some xn -> exists xn', nth_error l' x = Some xn' /\ same_but_prio xn xn').

Lemma others_same l l' e : (forall x, x <> e -> nth_error l' x = nth_error l x) -> others_kept l l' e.
Proof.
  intros H. split.
  - intros x Hx Hne. rewrite (H x Hne). apply nth_error_None. exact Hx.
  - intros x xn Hne Hxn. exists xn. split; [rewrite (H x Hne); exact Hxn|apply same_but_prio_refl].
Qed.

Lemma others_kept_length l l' e en' : others_kept l l' e -> nth_error l' e = Some en' -> (length l <= length l')%nat.
Proof.
  intros (_ & Hoth) Hen'. destruct (Nat.le_gt_cases (length l) (length l')) as [Hle|Hgt]; [exact Hle|exfalso].
  destruct (nth_error l (length l')) as [xn|] eqn:Hxn; [|apply nth_error_None in Hxn; lia].
  assert (Hn: nth_error l' (length l') = None) by (apply nth_error_None, Nat.le_refl).
  destruct (Nat.eq_dec (length l') e) as [Heq|Hne]; [congruence|].
  destruct (Hoth _ xn Hne Hxn) as (xn' & Hxn' & _). congruence.
Qed.

(* what a step on entry e does to the part of the world that is the engine's own (sync state, extension records), as
   the invariant reads it; the providers are not mentioned *)
Record touch (w w' : world) (e : nat) (en' : StateModel.entry) : Prop := {
  t_cfg : w_cfg w' = w_cfg w;
  t_nth : nth_error (ents (w_st w')) e = Some en';
  t_oth : others_kept (ents (w_st w)) (ents (w_st w')) e;
  t_cs : forall x, x <> e -> set_mem x (cset (w_st w')) = set_mem x (cset (w_st w));
  t_cse : set_mem e (cset (w_st w')) = flagged en';
  t_now : now (w_st w) <= now (w_st w');
  t_clk : lastch (w_st w) <= now (w_st w) -> lastch (w_st w') <= now (w_st w');
  t_tape : tape (w_st w') = [];
  t_idx : IdxJ (w_st w) -> IdxJ (w_st w');
  t_x : forall x sd, x <> e -> getx w' x sd = getx w x sd
}.
Arguments t_cfg {w w' e en'}.
Arguments t_nth {w w' e en'}.
Arguments t_oth {w w' e en'}.
Arguments t_cs {w w' e en'}.
Arguments t_cse {w w' e en'}.
Arguments t_now {w w' e en'}.
Arguments t_clk {w w' e en'}.
Arguments t_tape {w w' e en'}.
Arguments t_idx {w w' e en'}.
Arguments t_x {w w' e en'}.

Lemma touch_from w w0 w' e en' :
  w_cfg w0 = w_cfg w -> w_st w0 = w_st w -> (forall x sd, x <> e -> getx w0 x sd = getx w x sd) ->
  touch w0 w' e en' -> touch w w' e en'.
Proof.
  intros A B C T. constructor; rewrite <- ?B; try apply T.
  - rewrite <- A. apply T.
  - intros x sd H. rewrite (t_x T x sd H). apply C, H.
Qed.

Lemma inv_mem evl g w e en : InvP evl g w -> nth_error (ents (w_st w)) e = Some en -> set_mem e (cset (w_st w)) = flagged en.
Proof.
  intros I Hn. destruct (flagged en) eqn:F; [apply (i_csc I e en Hn F)|].
  destruct (set_mem e (cset (w_st w))) eqn:M; [|reflexivity]. rewrite <- F. symmetry. apply (i_cse I e en Hn M).
Qed.

(* object k of side sd is the engine's to change *)
Definition cell_free (g : ghost) (w : world) (e : nat) (sd : bool) (k : nat) : Prop :=
  g_get k (g_of g sd) = None /\
  forall x xn, x <> e -> nth_error (ents (w_st w)) x = Some xn -> s_oid (gs xn sd) <> Some (ostr_k k).

(* a step of the engine on one entry e; the ghost is the same *)
Lemma inv_engine evl evl' g w w' e en' :
  InvP evl g w -> touch w w' e en' -> (2 <= e)%nat ->
  maxchg en' <= now (w_st w') + 1 -> (forall sd, x_lg (getx w' e sd) <= now (w_st w') + 1) ->
  (forall sd, PWF (prov_of w' sd) /\ ShapeOk w' sd /\ LogOk evl' w' sd) ->
  (forall sd k, obj_at w' sd k = obj_at w sd k \/ cell_free g w e sd k /\ s_oid (gs en' sd) = Some (ostr_k k)) ->
  (forall en sd, nth_error (ents (w_st w)) e = Some en -> s_oid (gs en sd) <> None -> s_oid (gs en' sd) = s_oid (gs en sd)) ->
  (forall sd k, pd evl sd k = true -> pd evl' sd k = true \/ s_oid (gs en' sd) = Some (ostr_k k)) ->
  EntOk evl' g w' e en' -> (forall sd, Seen w' e en' sd) ->
  InvP evl' g w'.
Proof.
  intros I [Tcfg Hen' Toth Hcs Tcse Tnow Tclk Ttape Tidx Hx] He Hmax Hlg Hprov Hobj Hkeep Hpd HE Hseen.
  pose proof (others_kept_length _ _ _ _ Toth Hen') as Hlen. destruct Toth as (Hnew & Hoth).
  specialize (Tidx (i_idx I)).
  (* an entry of w' is the touched one, or an entry of w up to its priority *)
  assert (Hold: forall x xn', nth_error (ents (w_st w')) x = Some xn' ->
                x = e /\ xn' = en' \/ x <> e /\ exists xn, nth_error (ents (w_st w)) x = Some xn /\ same_but_prio xn xn').
  { intros x xn' Hx'. destruct (Nat.eq_dec x e) as [->|Hne]; [left; split; congruence|right; split; [exact Hne|]].
    destruct (nth_error (ents (w_st w)) x) as [xn|] eqn:Ex.
    - destruct (Hoth x xn Hne Ex) as (y & Hy & S). exists xn. split; [reflexivity|]. congruence.
    - apply nth_error_None in Ex. rewrite (Hnew x Ex Hne) in Hx'. discriminate. }
  (* a cell of w' was there before, or is the new one entry e points to *)
  assert (Hheap: forall sd k, (k < length (ProvModel.p_heap (prov_of w' sd)))%nat ->
            (k < length (ProvModel.p_heap (prov_of w sd)))%nat \/ s_oid (gs en' sd) = Some (ostr_k k)).
  { intros sd k Hlt. destruct (Hobj sd k) as [X|(_ & X)]; [left|right; exact X].
    apply nth_error_Some. apply nth_error_Some in Hlt. unfold obj_at in X. congruence. }
  assert (Hent: forall sd o, (exists x xn, nth_error (ents (w_st w)) x = Some xn /\ s_oid (gs xn sd) = Some o) ->
                exists x xn', nth_error (ents (w_st w')) x = Some xn' /\ s_oid (gs xn' sd) = Some o).
  { intros sd o (x & xn & Hxn & Ho). exists x. destruct (Nat.eq_dec x e) as [->|Hne].
    - exists en'. split; [exact Hen'|]. rewrite (Hkeep xn sd Hxn); congruence.
    - destruct (Hoth x xn Hne Hxn) as (xn' & Hxn' & S). exists xn'. rewrite <- (sbp_gs _ _ sd S). auto. }
  constructor.
  - rewrite Tcfg. apply (i_cfg I).
  - (* i_pwf *) intros sd. apply (Hprov sd).
  - (* i_shape *) intros sd. apply (Hprov sd).
  - (* i_log *) intros sd. apply (Hprov sd).
  - exact Tidx.
  - exact Ttape.
  - (* i_csc *) intros x xn' Hx' Hfl. destruct (Hold x xn' Hx') as [[-> ->]|(Hne & xn & Hxn & S)]; [congruence|].
    rewrite (Hcs x Hne). apply (i_csc I x xn Hxn). rewrite (sbp_flagged _ _ S). exact Hfl.
  - (* i_csb *) intros x Hm. destruct (Nat.eq_dec x e) as [->|Hne].
    + apply nth_error_Some. congruence.
    + rewrite (Hcs x Hne) in Hm. pose proof (i_csb I x Hm). lia.
  - (* i_cse *) intros x xn' Hx' Hm. destruct (Hold x xn' Hx') as [[-> ->]|(Hne & xn & Hxn & S)]; [congruence|].
    rewrite (Hcs x Hne) in Hm. rewrite <- (sbp_flagged _ _ S). apply (i_cse I x xn Hxn Hm).
  - apply Tclk, (i_clk I).
  - (* i_clke *) intros x xn' Hx'. destruct (Hold x xn' Hx') as [[-> ->]|(Hne & xn & Hxn & S)]; [split; [exact Hmax|exact Hlg]|].
    destruct (i_clke I x xn Hxn) as (A & B).
    rewrite <- (sbp_maxchg _ _ S). split; [lia|]. intros sd. rewrite (Hx x sd Hne). specialize (B sd). lia.
  - destruct (i_roots I) as (e0 & e1 & H0 & H1 & R).
    destruct (Hoth 0%nat e0 ltac:(lia) H0) as (e0' & H0' & (S0l & S0r & S0i)).
    destruct (Hoth 1%nat e1 ltac:(lia) H1) as (e1' & H1' & (S1l & S1r & S1i)).
    exists e0', e1'. rewrite <- S0l, <- S0r, <- S1l, <- S1r, <- S1i. split; [exact H0'|]. split; [exact H1'|].
    rewrite (Hcs 0%nat ltac:(lia)), (Hcs 1%nat ltac:(lia)). exact R.
  - (* i_cov *) intros sd k Hk Hlt. destruct (Hheap sd k Hlt) as [Hlt0|X]; [|left; eauto].
    destruct (i_cov I sd k Hk Hlt0) as [F|Hp]; [left; apply Hent, F|].
    destruct (Hpd sd k Hp) as [Y|Y]; [right; exact Y|left; eauto].
  - (* i_ents *) intros x xn' Hx2 Hx'. destruct (Hold x xn' Hx') as [[-> ->]|(Hne & xn & Hxn & S)]; [exact HE|].
    apply (EntOk_sbp _ _ _ _ xn xn' S).
    apply (EntOk_frame evl evl' g g w w' x xn (i_ents I x xn Hx2 Hxn)).
    + intros sd. rewrite (Hx x sd Hne). reflexivity.
    + intros sd k Ho. split; [|split; [|reflexivity]].
      * destruct (Hobj sd k) as [X|((_ & X) & _)]; [exact X|destruct (X x xn Hne Hxn Ho)].
      * (* an event that is no longer pending is about an object of e, and ids are unique *)
        intros Hp. destruct (Hpd sd k Hp) as [Y|Y]; [exact Y|]. exfalso. apply Hne.
        apply (idx_unique_ent _ sd (ostr_k k) x e xn' en' Tidx Hx'); [rewrite <- (sbp_gs _ _ sd S); exact Ho|exact Hen'|exact Y].
  - intros sd k Hk Hlt Hg. destruct (Hheap sd k Hlt) as [Hlt0|X]; [|eauto]. apply Hent, (i_cove I sd k Hk Hlt0 Hg).
  - intros sd k cs Hg. destruct (Hobj sd k) as [X|((X & _) & _)]; [|congruence]. rewrite X. apply (i_ghost I sd k cs Hg).
  - (* i_xlen *) intros x sd Hx'. destruct (Nat.eq_dec x e) as [->|Hne].
    + exfalso. assert (e < length (ents (w_st w')))%nat by (apply nth_error_Some; congruence). lia.
    + rewrite (Hx x sd Hne). apply (i_xlen I). lia.
  - (* i_seen *) intros x xn' sd Hx2 Hx'. destruct (Hold x xn' Hx') as [[-> ->]|(Hne & xn & Hxn & S)]; [apply Hseen|].
    pose proof (i_seen I x xn sd Hx2 Hxn) as X.
    unfold Seen in *. rewrite <- (sbp_gs _ _ sd S), (Hx x sd Hne), <- (sbp_maxchg _ _ S).
    destruct S as (_ & _ & S3). rewrite <- S3. exact X.
Qed.

Lemma prov_of_with_st w s sd : prov_of (with_st w s) sd = prov_of w sd. Proof. destruct sd; reflexivity. Qed.
Lemma prov_with_same w sd p : prov_of (with_prov w sd p) sd = p. Proof. destruct sd; reflexivity. Qed.
Lemma prov_with_other w sd p : prov_of (with_prov w sd p) (negb sd) = prov_of w (negb sd). Proof. destruct sd; reflexivity. Qed.
Lemma prov_of_with_x w x sd : prov_of (with_x w x) sd = prov_of w sd. Proof. destruct sd; reflexivity. Qed.
Lemma prov_of_setx w e sd0 f sd : prov_of (setx w e sd0 f) sd = prov_of w sd. Proof. destruct sd; reflexivity. Qed.

Lemma nth_xupd_same l e f : nth e (xupd l e f) (x0, x0) = f (nth e l (x0, x0)).
Proof.
  revert l. induction e as [|e IH]; intros [|p r]; simpl; auto.
  - rewrite IH. destruct e; reflexivity.
Qed.
Lemma nth_xupd_other l e x f : x <> e -> nth x (xupd l e f) (x0, x0) = nth x l (x0, x0).
Proof.
  revert l x. induction e as [|e IH]; intros [|p r] [|x] H; simpl; auto; try congruence.
  - destruct x; reflexivity.
  - rewrite IH by congruence. destruct x; reflexivity.
Qed.
Lemma getx_setx_same w e sd f : getx (setx w e sd f) e sd = f (getx w e sd).
Proof. unfold getx, setx, with_x. cbn [w_x]. rewrite nth_xupd_same. destruct sd; reflexivity. Qed.
Lemma getx_setx_other_side w e sd f : getx (setx w e sd f) e (negb sd) = getx w e (negb sd).
Proof. unfold getx, setx, with_x. cbn [w_x]. rewrite nth_xupd_same. destruct sd; reflexivity. Qed.
Lemma getx_setx_other w e sd f x sd' : x <> e -> getx (setx w e sd f) x sd' = getx w x sd'.
Proof. intros H. unfold getx, setx, with_x. cbn [w_x]. rewrite nth_xupd_other by exact H. reflexivity. Qed.

Lemma ShapeOk_ext w w' sd : (forall k, obj_at w' sd k = obj_at w sd k) -> ShapeOk w sd -> ShapeOk w' sd.
Proof. intros H [A B C]. constructor; [rewrite H; exact A|rewrite H; exact B|intros k ob Hk Hob; rewrite H in Hob; apply (C k ob Hk Hob)]. Qed.
Lemma LogOk_ext evl evl' w w' sd : (forall k, obj_at w' sd k = obj_at w sd k) -> (forall ev, In ev (evl' sd) -> In ev (evl sd)) ->
  LogOk evl w sd -> LogOk evl' w' sd.
Proof.
  intros H Hin L ev Hev. destruct (L ev (Hin ev Hev)) as (k & ob & A & B & C & D). exists k, ob. rewrite H. auto.
Qed.

Lemma side_cases sd sd0 : sd0 = sd \/ sd0 = negb sd.
Proof. destruct sd, sd0; auto. Qed.
Lemma both_sides s (P : bool -> Prop) : P s -> P (negb s) -> forall sd, P sd.
Proof. intros A B sd. destruct (side_cases s sd) as [-> | ->]; assumption. Qed.

(* what a provider call on cell k of side t leaves *)
Record put_world (w w' : world) (t : bool) (k : nat) (o : ProvModel.obj) : Prop := {
  cw_prov : forall sd, PWF (prov_of w' sd) /\ ShapeOk w' sd /\ LogOk (real_evl w') w' sd;
  cw_pending : forall sd j, pd (real_evl w) sd j = true -> pd (real_evl w') sd j = true;
  cw_new : pd (real_evl w') t k = true;
  cw_cell : obj_at w' t k = Some o;
  cw_others : forall j, j <> k -> obj_at w' t j = obj_at w t j;
  cw_peer : forall j, obj_at w' (negb t) j = obj_at w (negb t) j
}.

(* a provider call, by a user or by the engine *)
Lemma cell_put_world g w w' t k o ev :
  Inv g w -> prov_of w' (negb t) = prov_of w (negb t) -> cell_put (prov_of w t) (prov_of w' t) k o ev ->
  (2 <= k)%nat -> ProvModel.o_kind o = ProvModel.KFile -> (exists n, ProvModel.o_path o = [root_name t; n] /\ name_ok n = true) ->
  (forall ob, obj_at w t k = Some ob -> ProvModel.o_exists ob = false -> ProvModel.o_exists o = false) ->
  put_world w w' t k o.
Proof.
  intros I Hpo C Hk2 Hkf Hpath Hdead. pose proof (i_pwf I t) as W.
  assert (Hobt: obj_at w' t k = Some o) by (unfold obj_at; rewrite (cp_heap _ _ _ _ _ C), Nat.eqb_refl; reflexivity).
  assert (Hobj: forall j, j <> k -> obj_at w' t j = obj_at w t j).
  { intros j Hne. unfold obj_at. rewrite (cp_heap _ _ _ _ _ C). destruct (Nat.eqb_spec j k); [contradiction|reflexivity]. }
  assert (Hobjo: forall j, obj_at w' (negb t) j = obj_at w (negb t) j) by (intros; apply obj_at_prov, Hpo).
  assert (Hpd: forall j, pd (real_evl w') t j = (pd (real_evl w) t j || Nat.eqb j k)%bool) by (intros j; rewrite !pd_real; apply (cell_put_pend _ _ _ _ _ j W C)).
  destruct (cp_ev _ _ _ _ _ C) as (Evo & Evk & Evx).
  (* side t: cell k is a file of the fragment and its event speaks of it; an event about k logged earlier now meets o,
     which is dead if the old cell was; the other side is untouched *)
  constructor; [| |rewrite Hpd, Nat.eqb_refl; apply orb_true_r|exact Hobt|exact Hobj|exact Hobjo].
  - intros sd. destruct (side_cases t sd) as [->| ->].
    + split; [apply (cp_pwf _ _ _ _ _ C)|]. split.
      * destruct (i_shape I t) as [S0 S1 S2]. constructor; [rewrite Hobj by lia; exact S0|rewrite Hobj by lia; exact S1|].
        intros j ob Hj Hob. destruct (Nat.eq_dec j k) as [->|Hne]; [assert (ob = o) by congruence; subst ob; auto|].
        rewrite Hobj in Hob by exact Hne. apply (S2 j ob Hj Hob).
      * intros ev0 Hin. unfold real_evl in Hin. rewrite (cell_put_events _ _ _ _ _ W C) in Hin.
        apply in_app_or in Hin as [Hin|[<-|[]]]; [|exists k, o; auto].
        destruct (i_log I t ev0 Hin) as (j & ob & A & B & C0 & D & F).
        destruct (Nat.eq_dec j k) as [->|Hne]; [|exists j, ob; rewrite Hobj by exact Hne; auto].
        exists k, o. split; [exact A|]. split; [exact B|]. split; [exact Hobt|].
        destruct (sh_files (i_shape I t) k ob B C0) as (Hk1 & _). split; [congruence|].
        intros Hx0. apply (Hdead ob C0 (F Hx0)).
    + rewrite Hpo. split; [apply (i_pwf I)|]. split; [apply (ShapeOk_ext w w' (negb t) Hobjo (i_shape I (negb t)))|].
      apply (LogOk_ext (real_evl w) (real_evl w') w w' (negb t) Hobjo); [|apply (i_log I)].
      intros ev0. unfold real_evl. rewrite Hpo. auto.
  - intros sd j X. destruct (side_cases t sd) as [->| ->]; [rewrite Hpd, X; reflexivity|]. unfold pd, real_evl in *. rewrite Hpo. exact X.
Qed.

(* The invariant reads a world through its configuration, the entries / indexes / change set / clock of the sync state,
   the extension records and the providers' objects; the pending events count up to equality side by side.  The clock may
   have advanced; cursors, logs and the dirty set are not looked at. *)
Lemma InvP_frame evl evl' g w w' :
  InvP evl g w -> w_cfg w' = w_cfg w -> w_x w' = w_x w ->
  ents (w_st w') = ents (w_st w) -> iview (w_st w') = iview (w_st w) -> cset (w_st w') = cset (w_st w) ->
  now (w_st w) <= now (w_st w') -> lastch (w_st w') = lastch (w_st w) -> tape (w_st w') = tape (w_st w) ->
  (forall sd, PWF (prov_of w' sd)) ->
  (forall sd, ProvModel.p_heap (prov_of w' sd) = ProvModel.p_heap (prov_of w sd)) ->
  (forall sd, evl' sd = evl sd) -> InvP evl' g w'.
Proof.
  intros I Hcfg Hx Hents Hiv Hcs Hnow Hlast Htape Hpwf Hheap Hev.
  assert (Hgx: forall e sd, getx w' e sd = getx w e sd) by (intros; unfold getx; rewrite Hx; reflexivity).
  assert (Hobj: forall sd k, obj_at w' sd k = obj_at w sd k) by (intros; unfold obj_at; rewrite Hheap; reflexivity).
  assert (Hpd: forall sd k, pd evl' sd k = pd evl sd k) by (intros; unfold pd; rewrite Hev; reflexivity).
  constructor; rewrite ?Hents, ?Hcs, ?Htape, ?Hlast; try (apply I).
  - (* i_cfg *) rewrite Hcfg. apply I.
  - exact Hpwf.
  - intros sd. apply (ShapeOk_ext w w' sd (Hobj sd) (i_shape I sd)).
  - intros sd. apply (LogOk_ext evl evl' w w' sd (Hobj sd)); [intros ev; rewrite Hev; auto|apply (i_log I)].
  - apply (IdxJ_view (w_st w)); [exact Hiv|apply I].
  - intros e en Hn Hf. rewrite Hents in Hn. rewrite Hcs. apply (i_csc I e en Hn Hf).
  - pose proof (i_clk I). lia.
  - intros e en Hn. destruct (i_clke I e en Hn) as (A & B). split; [lia|]. intros sd. rewrite Hgx. specialize (B sd). lia.
  - destruct (i_roots I) as (e0 & e1 & R). exists e0, e1. rewrite Hents, Hcs. exact R.
  - intros sd k Hk Hlt. rewrite Hheap in Hlt. rewrite Hpd. apply (i_cov I sd k Hk Hlt).
  - intros e en He Hn. apply (EntOk_frame evl evl' g g w w' e en (i_ents I e en He Hn)); [intros; rewrite Hgx; reflexivity|].
    intros sd k Ho. split; [apply Hobj|]. split; [rewrite Hpd; auto|reflexivity].
  - intros sd k Hk Hlt Hg. rewrite Hheap in Hlt. apply (i_cove I sd k Hk Hlt Hg).
  - intros sd k cs Hg. rewrite Hobj. apply (i_ghost I sd k cs Hg).
  - intros e sd He. rewrite Hgx. apply (i_xlen I), He.
  - intros e en sd He Hn. unfold Seen. rewrite Hgx. apply (i_seen I e en sd He Hn).
Qed.

Lemma InvP_ext evl evl' g w : (forall sd, evl' sd = evl sd) -> InvP evl g w -> InvP evl' g w.
Proof. intros Hev I. apply (InvP_frame evl evl' g w w I); auto; [apply N.le_refl|apply I]. Qed.
Lemma Inv_same_prov g w w1 : (forall sd, prov_of w1 sd = prov_of w sd) -> InvP (real_evl w) g w1 -> Inv g w1.
Proof. intros Hp. apply InvP_ext. intros sd. unfold real_evl. rewrite Hp. reflexivity. Qed.

(* no temp file outlives an engine step (kept apart from InvP: it fails, for the entry in progress, inside a sync step) *)
Definition NoTmp (w : world) : Prop := forall e sd, x_tfile (getx w e sd) = None.

(* P of an ROk result, Q of an OutOfFragment code: one statement for "the invariant is kept" and "the fragment is not left" *)
Definition answers {T} (r : result T) (P : T -> Prop) (Q : N -> Prop) : Prop :=
  match r with ROk x => P x | OutOfFragment c => Q c end.
Lemma answers_ok {T} (r : result T) P Q x : answers r P Q -> r = ROk x -> P x.
Proof. intros S ->. exact S. Qed.
Lemma answers_stop {T} (r : result T) P Q c : answers r P Q -> r = OutOfFragment c -> Q c.
Proof. intros S ->. exact S. Qed.
Lemma answers_any {T} (r : result T) : answers r (fun _ => True) (fun _ => True).
Proof. destruct r; exact I. Qed.
Lemma answers_and {T} (r : result T) (P P' : T -> Prop) Q :
  answers r P Q -> answers r P' (fun _ => True) -> answers r (fun x => P x /\ P' x) Q.
Proof. destruct r; cbn; auto. Qed.
Lemma answers_bind {T U} (m : result T) (f : T -> result U) R (Q' : N -> Prop) P (Q : N -> Prop) :
  answers m R Q' -> (forall c, Q' c -> Q c) -> (forall x, R x -> answers (f x) P Q) -> answers (x <- m ;; f x) P Q.
Proof. intros S HQ HR. destruct m; cbn [answers rbind] in *; auto. Qed.
