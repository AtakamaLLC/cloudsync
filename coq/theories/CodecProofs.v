(* CodecProofs.v — C08: the codec of CodecModel.v.  What the wire does to a value (tuplify), serialize / deserialize of
   a side and of an entry, [roundtrip_char] (the complete characterisation of a round trip, from which the "what
   survives" theorems follow), the rows of older releases, and which rows [load_rows] keeps and drops
   ([load_rows_in], [load_rows_bad]; PropC07.C07_bad_rows_dropped_not_fatal is the pair). *)
From Coq Require Import NArith ZArith List Bool Lia.
From CS Require Import Sx Str StrLemmas CodecModel.
Import ListNotations.
Local Open Scope N_scope.

(* [mp] recurses through [list mp] and [list (mp * mp)]: the generated [mp_ind] has no hypothesis about the
   elements of those lists, so the principle with [Forall] premises is built by hand *)
Section MpInd.
  Variable P : mp -> Prop.
  Hypothesis HNil : P MNil.
  Hypothesis HBool : forall b, P (MBool b).
  Hypothesis HInt : forall z, P (MInt z).
  Hypothesis HFloat : forall t, P (MFloat t).
  Hypothesis HStr : forall s, P (MStr s).
  Hypothesis HBin : forall s, P (MBin s).
  Hypothesis HTup : forall l, Forall P l -> P (MTup l).
  Hypothesis HList : forall l, Forall P l -> P (MList l).
  Hypothesis HMap : forall kvs, Forall (fun kv => P (fst kv) /\ P (snd kv)) kvs -> P (MMap kvs).

  Fixpoint mp_induct (v : mp) : P v :=
    let all := fix go (l : list mp) : Forall P l :=
                 match l with
                 | [] => Forall_nil _
                 | x :: r => Forall_cons x (mp_induct x) (go r)
                 end in
    match v with
    | MNil => HNil
    | MBool b => HBool b
    | MInt z => HInt z
    | MFloat t => HFloat t
    | MStr s => HStr s
    | MBin s => HBin s
    | MTup l => HTup l (all l)
    | MList l => HList l (all l)
    | MMap kvs =>
      HMap kvs ((fix go (l : list (mp * mp)) : Forall (fun kv => P (fst kv) /\ P (snd kv)) l :=
                   match l with
                   | [] => Forall_nil _
                   | kv :: r =>
                     Forall_cons kv
                       (match kv as kv0 return P (fst kv0) /\ P (snd kv0) with
                        | (k, x) => conj (mp_induct k) (mp_induct x)
                        end) (go r)
                   end) kvs)
    end.
End MpInd.

Lemma listfree_tuplify : forall v, listfree v = true -> tuplify v = v.
Proof.
  induction v as [| | | | | |l IH|l IH|kvs IH] using mp_induct; simpl; intros H;
    try reflexivity; try discriminate; f_equal.
  - induction IH as [|x r Hx _ IHr]; simpl in *; [reflexivity|].
    apply andb_true_iff in H as [H1 H2]. now rewrite Hx, IHr.
  - induction IH as [|[k x] r [Hk Hx] _ IHr]; simpl in *; [reflexivity|].
    apply andb_true_iff in H as [H1 H2]. apply andb_true_iff in H1 as [H0 H1]. now rewrite Hk, Hx, IHr.
Qed.

Lemma pack_ok v : ints_ok v = true -> pack v = Some (tuplify v).
Proof. intros H. unfold pack. rewrite H. reflexivity. Qed.

Lemma truthy_tuplify : forall v, truthy (tuplify v) = truthy v.
Proof. destruct v as [| | | | | |l|l|l]; simpl; try reflexivity; now destruct l. Qed.

Lemma is_nil_tuplify : forall v, is_nil (tuplify v) = is_nil v.
Proof. now destruct v. Qed.

Lemma mtime_ok_tuplify : forall v, mtime_ok (tuplify v) = mtime_ok v.
Proof. now destruct v. Qed.

Lemma tuplify_idem : forall v, tuplify (tuplify v) = tuplify v.
Proof.
  induction v as [| | | | | |l IH|l IH|kvs IH] using mp_induct; simpl; try reflexivity;
    f_equal; rewrite map_map; apply map_ext_in; rewrite Forall_forall in IH; [exact IH | exact IH |].
  intros [k x] Hx. destruct (IH _ Hx) as [Hk Hv]. simpl in *. now rewrite Hk, Hv.
Qed.

Lemma mp_eqb_refl : forall v, mp_eqb v v = true.
Proof.
  induction v as [| |z|t|s|s|l IH|l IH|kvs IH] using mp_induct; simpl; try reflexivity.
  - now destruct b.
  - apply Z.eqb_refl.
  - apply N.eqb_refl.
  - apply str_eqb_refl.
  - apply str_eqb_refl.
  - induction IH as [|x r Hx Hr IHr]; [reflexivity|]. now rewrite Hx, IHr.
  - induction IH as [|x r Hx Hr IHr]; [reflexivity|]. now rewrite Hx, IHr.
  - induction IH as [|[k x] r [Hk Hx] Hr IHr]; [reflexivity|]. simpl in *. now rewrite Hk, Hx, IHr.
Qed.

(* [cbn] on a deserialisation stops at the parsers, where the three lemmas below are rewritten with *)
Local Arguments parse_otype : simpl never.
Local Arguments parse_exists : simpl never.
Local Arguments parse_saved : simpl never.
Lemma otype_parse : forall o, parse_otype (MStr (otype_val o)) = Some o.
Proof. now destruct o. Qed.
Lemma exists_parse : forall x, parse_exists (MStr (exi_val x)) = Some x.
Proof. now destruct x. Qed.
Lemma saved_parse : forall o,
  parse_saved (match o with None => MNil | Some x => MStr (exi_val x) end) = o.
Proof. destruct o as [x|]; [now destruct x | reflexivity]. Qed.

(* norm_side = what the wire does (tup_side), then the reset of the fields that are not serialised (strip_side) *)
Definition tup_side (s : side) : side :=
  mkSide (s_otype s) (tuplify (s_side s)) (tuplify (s_hash s)) (tuplify (s_changed s))
         (tuplify (s_sync_hash s)) (tuplify (s_sync_path s)) (tuplify (s_path s)) (tuplify (s_oid s))
         (s_exists s) (tuplify (s_temp_file s)) (tuplify (s_size s)) (tuplify (s_mtime s))
         (s_saved s) (s_force_sync s) (s_last_gotten s).
Definition strip_side (s : side) : side :=
  mkSide (s_otype s) (s_side s) (s_hash s) (s_changed s) (s_sync_hash s) (s_sync_path s) (s_path s)
         (s_oid s) (s_exists s) (s_temp_file s) (s_size s) (s_mtime s) (s_saved s) false (MFloat 0).

Lemma norm_side_eq : forall s, norm_side s = strip_side (tup_side s).
Proof. reflexivity. Qed.

Lemma tuplify_ser_side : forall s, tuplify (ser_side s) = ser_side (tup_side s).
Proof.
  intros s. unfold ser_side, side_kvs, KV. cbn [tuplify map tup_side s_saved]. now destruct (s_saved s).
Qed.

Lemma deser_ser_side : forall s,
  deser_side (ser_side s) = if mtime_ok (s_mtime s) then Some (strip_side s) else None.
Proof.
  intros [ot sd h ch sh sp p oid ex tf sz mt sv fs lg].
  cbn. rewrite otype_parse. cbn. rewrite exists_parse, saved_parse. reflexivity.
Qed.

Definition tup_entry (e : entry) : entry :=
  mkEntry (tup_side (e_s0 e)) (tup_side (e_s1 e)) (e_ignored e) (tuplify (e_priority e)) (e_sid e).

Lemma tuplify_ser_entry : forall e, tuplify (ser_entry e) = ser_entry (tup_entry e).
Proof.
  intros e. unfold ser_entry, entry_kvs, KV. cbn [tuplify map]. now rewrite !tuplify_ser_side.
Qed.

Lemma parse_ignored_ser : forall e, parse_ignored (entry_kvs e) = e_ignored e.
Proof. intros e. unfold parse_ignored, entry_kvs, KV. now destruct (e_ignored e). Qed.

Lemma deser_ser_entry : forall sid e,
  deser_entry sid (ser_entry e) =
  if mtime_ok (s_mtime (e_s0 e)) && mtime_ok (s_mtime (e_s1 e))
  then Some (mkEntry (strip_side (e_s0 e)) (strip_side (e_s1 e)) (e_ignored e) (MInt 0%Z) (Some sid))
  else None.
Proof.
  intros sid e. unfold deser_entry, ser_entry. rewrite parse_ignored_ser.
  change (lookup k_side0 _) with (Some (ser_side (e_s0 e))).
  change (lookup k_side1 _) with (Some (ser_side (e_s1 e))).
  cbn [bind]. rewrite !deser_ser_side.
  destruct (mtime_ok (s_mtime (e_s0 e))), (mtime_ok (s_mtime (e_s1 e))); reflexivity.
Qed.

(* the complete characterisation of serialize -> dumps -> loads -> deserialize *)
Definition survives (e : entry) : bool :=
  ints_ok (ser_entry e) && keys_ok (tuplify (ser_entry e))
  && mtime_ok (s_mtime (e_s0 e)) && mtime_ok (s_mtime (e_s1 e)).

Lemma roundtrip_char : forall sid e,
  roundtrip sid e = if survives e then Some (norm_entry sid e) else None.
Proof.
  intros sid e. unfold roundtrip, survives, pack, load_row, unpack.
  destruct (ints_ok (ser_entry e)); [|reflexivity]. cbn [bind andb].
  destruct (keys_ok (tuplify (ser_entry e))); [|reflexivity]. cbn [bind andb].
  rewrite tuplify_ser_entry, deser_ser_entry.
  cbn [tup_entry e_s0 e_s1 tup_side s_mtime e_ignored]. rewrite !mtime_ok_tuplify.
  destruct (mtime_ok (s_mtime (e_s0 e)) && mtime_ok (s_mtime (e_s1 e))); reflexivity.
Qed.

(* the fields the property lists *)
Definition same_side (a b : side) : Prop :=
  s_otype a = s_otype b /\ s_side a = s_side b /\ s_hash a = s_hash b /\ s_changed a = s_changed b /\
  s_sync_hash a = s_sync_hash b /\ s_sync_path a = s_sync_path b /\ s_path a = s_path b /\
  s_oid a = s_oid b /\ s_exists a = s_exists b /\ s_temp_file a = s_temp_file b /\
  s_size a = s_size b /\ s_mtime a = s_mtime b /\ s_saved a = s_saved b.
Definition same_synced (a b : entry) : Prop :=
  same_side (e_s0 a) (e_s0 b) /\ same_side (e_s1 a) (e_s1 b) /\ e_ignored a = e_ignored b.

Lemma same_side_path_oid a b : same_side a b -> s_path a = s_path b /\ s_oid a = s_oid b.
Proof. unfold same_side. tauto. Qed.

(* well-formed field shapes: 64-bit integers, str/bytes dict keys, no Python lists, numeric mtime *)
Definition wf_entry (e : entry) : bool :=
  ints_ok (ser_entry e) && keys_ok (ser_entry e) && listfree (ser_entry e)
  && mtime_ok (s_mtime (e_s0 e)) && mtime_ok (s_mtime (e_s1 e)).

Lemma wf_entry_ints e : wf_entry e = true -> ints_ok (ser_entry e) = true.
Proof. unfold wf_entry. rewrite !andb_true_iff. tauto. Qed.

(* A side without Python lists is serialised to a value the wire leaves alone, and the
   serialisation determines every listed field. *)
Lemma listfree_side_fields : forall s, listfree (ser_side s) = true -> same_side s (norm_side s).
Proof.
  intros s H. apply listfree_tuplify in H. rewrite tuplify_ser_side in H.
  unfold ser_side, side_kvs, KV in H. injection H; intros.
  repeat split; try reflexivity; symmetry; assumption.
Qed.

Lemma wf_entry_survives : forall sid e, wf_entry e = true ->
  survives e = true /\ same_synced e (norm_entry sid e).
Proof.
  intros sid e. unfold wf_entry, survives. rewrite !andb_true_iff. intros [[[[Hi Hk] Hl] Hm0] Hm1].
  rewrite (listfree_tuplify _ Hl). split; [tauto|].
  unfold ser_entry, entry_kvs, KV in Hl. cbn [listfree forallb] in Hl. rewrite !andb_true_iff in Hl.
  destruct Hl as [[_ L0] [[_ L1] _]].
  split; [|split]; [apply listfree_side_fields, L0 | apply listfree_side_fields, L1 | reflexivity].
Qed.

Lemma roundtrip_norm : forall sid e e', roundtrip sid e = Some e' -> e' = norm_entry sid e.
Proof. intros sid e e' H. rewrite roundtrip_char in H. destruct (survives e); congruence. Qed.

Lemma norm_trash_pending : forall sid e,
  is_trash (norm_entry sid e) = is_trash e /\ pending (norm_entry sid e) = pending e.
Proof.
  intros sid e. unfold is_trash, pending, pending_side, norm_entry, norm_side. cbn.
  now rewrite !is_nil_tuplify, !truthy_tuplify.
Qed.

(* a side as releases before 10/21/19 wrote it: boolean/None existence, no size/mtime/_saved_exists *)
Definition legacy_side_kvs (s : side) (lex : mp) : list (mp * mp) :=
  [ KV k_otype (MStr (otype_val (s_otype s)));
    KV k_side (s_side s);
    KV k_hash (s_hash s);
    KV k_changed (s_changed s);
    KV k_sync_hash (s_sync_hash s);
    KV k_path (s_path s);
    KV k_sync_path (s_sync_path s);
    KV k_oid (s_oid s);
    KV k_exists lex;
    KV k_temp_file (s_temp_file s) ].

Inductive legacy_tail :=
| LtNothing                  (* neither 'ignored' nor 'priority' *)
| LtDiscardedKey             (* 'discarded': True *)
| LtConflictedKey            (* 'conflicted': True *)
| LtTrashedReason            (* 'ignored': 'trashed' *)
| LtReason (i : ign)         (* 'ignored': a current value, no 'priority' *)
| LtBadReason.               (* 'ignored': an unknown string *)

Definition legacy_tail_kvs (t : legacy_tail) : list (mp * mp) :=
  match t with
  | LtNothing => []
  | LtDiscardedKey => [KV k_discarded (MBool true)]
  | LtConflictedKey => [KV k_conflicted (MBool true)]
  | LtTrashedReason => [KV k_ignored (MStr v_trashed)]
  | LtReason i => [KV k_ignored (MStr (ign_val i))]
  | LtBadReason => [KV k_ignored (MStr k_otype)]     (* "otype": some string that is no ignore reason *)
  end.
Definition legacy_tail_ign (t : legacy_tail) : ign :=
  match t with
  | LtNothing => INone
  | LtDiscardedKey => IDiscarded
  | LtConflictedKey => IConflict
  | LtTrashedReason => IDiscarded
  | LtReason i => i
  | LtBadReason => INone
  end.

Definition legacy_row (s0 s1 : side) (lex0 lex1 : mp) (t : legacy_tail) : mp :=
  MMap (KV k_side0 (MMap (legacy_side_kvs s0 lex0)) :: KV k_side1 (MMap (legacy_side_kvs s1 lex1))
        :: legacy_tail_kvs t).

(* what such a side loads as: existence translated to x, size / mtime / _saved_exists at their defaults *)
Definition legacy_side_loaded (s : side) (x : exi) : side :=
  mkSide (s_otype s) (s_side s) (s_hash s) (s_changed s) (s_sync_hash s) (s_sync_path s) (s_path s)
         (s_oid s) x (s_temp_file s) MNil MNil None false (MFloat 0).

Lemma deser_legacy_side : forall s lex x, parse_exists lex = Some x ->
  deser_side (MMap (legacy_side_kvs s lex)) = Some (legacy_side_loaded s x).
Proof.
  intros [ot sd h ch sh sp p oid ex tf sz mt sv fs lg] lex x Hx.
  cbn. rewrite otype_parse. cbn. rewrite Hx. reflexivity.
Qed.

Local Arguments load_row : simpl never.

(* load_rows in closed form: what a row contributes to the loaded entries, and whether its id is reported as dropped *)
Definition loaded (x : N * mp) : list entry := match load_row (fst x) (snd x) with Some e => [e] | None => [] end.
Definition unloadable (x : N * mp) : bool := match load_row (fst x) (snd x) with Some _ => false | None => true end.

Lemma load_rows_eq rs : load_rows rs = (flat_map loaded rs, map fst (filter unloadable rs)).
Proof.
  induction rs as [|[i w] r IH]; [reflexivity|]. cbn [load_rows flat_map filter]. rewrite IH.
  unfold loaded, unloadable. cbn [fst snd]. destruct (load_row i w); reflexivity.
Qed.

Lemma load_rows_in : forall rs e,
  In e (fst (load_rows rs)) <-> exists i w, In (i, w) rs /\ load_row i w = Some e.
Proof.
  intros rs e. rewrite load_rows_eq. cbn [fst]. rewrite in_flat_map. unfold loaded. split.
  - intros [[i w] [Hin H]]. exists i, w. cbn [fst snd] in H. destruct (load_row i w); [|destruct H].
    destruct H as [->|[]]. auto.
  - intros [i [w [Hin H]]]. exists (i, w). cbn [fst snd]. rewrite H. split; [exact Hin | now left].
Qed.

Lemma load_rows_bad : forall rs i,
  In i (snd (load_rows rs)) <-> exists w, In (i, w) rs /\ load_row i w = None.
Proof.
  intros rs i. rewrite load_rows_eq. cbn [snd]. rewrite in_map_iff. unfold unloadable. split.
  - intros [[j w] [<- H]]. apply filter_In in H as [Hin H]. exists w. cbn [fst snd] in *.
    destruct (load_row j w); [discriminate | auto].
  - intros [w [Hin H]]. exists (i, w). rewrite filter_In. cbn [fst snd]. rewrite H. auto.
Qed.
