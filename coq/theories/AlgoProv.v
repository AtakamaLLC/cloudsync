(* AlgoProv.v — the provider model as the algorithm-layer proofs see it: for an id-style, case-sensitive
   provider every object is heap cell k with id [KId k]; an invariant of the dictionary ([PWF]) makes lookups by
   id and by path transparent; each mutation puts one heap cell and logs one event ([cell_put]). *)
From Coq Require Import NArith List Bool Arith Lia.
From CS Require Import Sx Str ProvModel ProvProofs ProvWf.
Import ListNotations.

Definition kid_of (k : nat) : key := KId (N.of_nat k).
Lemma kid_of_inj a b : kid_of a = kid_of b -> a = b.
Proof. unfold kid_of. intros H. injection H as H. apply Nnat.Nat2N.inj. exact H. Qed.

Record PWF (p : prov) : Prop := {
  pw_idstyle : c_oidpath (p_cfg p) = false;
  pw_cs : c_cs (p_cfg p) = true;
  pw_noforbid : c_forbidden (p_cfg p) = [];
  pw_oid : forall k o, nth_error (p_heap p) k = Some o -> o_oid o = kid_of k;
  pw_dict_id : forall n, dget (KId n) (p_dict p) = if Nat.ltb (N.to_nat n) (length (p_heap p)) then Some (N.to_nat n) else None;
  pw_dict_path : forall q r, dget (KPath q) (p_dict p) = Some r -> exists o, nth_error (p_heap p) r = Some o /\ o_path o = q;
  pw_live_path : forall k o, nth_error (p_heap p) k = Some o -> o_exists o = true -> dget (KPath (o_path o)) (p_dict p) = Some k;
  pw_cursor : p_cursor p <= length (p_log p)
}.

Lemma get_kid_eq p k : PWF p ->
  get p (kid_of k) = match nth_error (p_heap p) k with Some o => Some (k, o) | None => None end.
Proof.
  intros W. unfold get, kid_of. rewrite (pw_dict_id p W), Nnat.Nat2N.id.
  destruct (Nat.ltb_spec k (length (p_heap p))) as [Hl|Hg]; [reflexivity|].
  rewrite (proj2 (nth_error_None _ _) Hg). reflexivity.
Qed.
Lemma get_live_kid p k o : PWF p -> nth_error (p_heap p) k = Some o ->
  get_live p (kid_of k) = if o_exists o then Some (k, o) else None.
Proof. intros W H. unfold get_live. rewrite (get_kid_eq p k W), H. reflexivity. Qed.
Lemma info_oid_kid p k o : PWF p -> nth_error (p_heap p) k = Some o ->
  info_oid p (kid_of k) = if o_exists o then Some (info_of o) else None.
Proof. intros W H. unfold info_oid. rewrite (get_live_kid p k o W H). destruct (o_exists o); reflexivity. Qed.
Lemma info_oid_kid_none p k : PWF p -> nth_error (p_heap p) k = None -> info_oid p (kid_of k) = None.
Proof. intros W H. unfold info_oid, get_live. rewrite (get_kid_eq p k W), H. reflexivity. Qed.

Lemma get_path p q : PWF p ->
  get p (KPath q) = match dget (KPath q) (p_dict p) with
                    | Some r => match nth_error (p_heap p) r with Some o => Some (r, o) | None => None end
                    | None => None
                    end.
Proof. reflexivity. Qed.

Lemma info_path_live p k o : PWF p -> nth_error (p_heap p) k = Some o -> o_exists o = true ->
  info_path p (o_path o) = Some (info_of o).
Proof.
  intros W H Hl. unfold info_path, info_oid, get_live, get, pkey. rewrite (np_cs _ _ (pw_cs p W)).
  rewrite (pw_live_path p W k o H Hl), H, Hl. reflexivity.
Qed.
Lemma info_path_none p q : PWF p ->
  (forall k o, nth_error (p_heap p) k = Some o -> o_exists o = true -> o_path o <> q) -> info_path p q = None.
Proof.
  intros W H. unfold info_path, info_oid, get_live, get, pkey. rewrite (np_cs _ _ (pw_cs p W)).
  destruct (dget (KPath q) (p_dict p)) as [r|] eqn:Ed; [|reflexivity].
  destruct (pw_dict_path p W q r Ed) as (o & Ho & Hp). rewrite Ho.
  destruct (o_exists o) eqn:El; [|reflexivity]. destruct (H r o Ho El Hp).
Qed.

Definition ev_for (k : nat) (ev : event) : bool := key_eqb (e_oid ev) (kid_of k).
Definition pend (p : prov) (k : nat) : bool := existsb (ev_for k) (events_from p).

Lemma events_from_app p p' ev : p_cursor p' = p_cursor p -> p_log p' = p_log p ++ [ev] -> p_cursor p <= length (p_log p) ->
  events_from p' = events_from p ++ [ev].
Proof.
  intros Hc Hl Hle. unfold events_from. rewrite Hc, Hl, skipn_app.
  replace (p_cursor p - length (p_log p)) with 0 by lia. reflexivity.
Qed.
Lemma pend_emit p ev k : p_cursor p <= length (p_log p) -> pend (emit p ev) k = pend p k || ev_for k ev.
Proof. intros H. unfold pend. rewrite (events_from_app p (emit p ev) ev eq_refl eq_refl H), existsb_app. simpl. rewrite orb_false_r. reflexivity. Qed.

(* what every mutation of the fragment does to a provider *)
Record cell_put (p p' : prov) (k : nat) (o : obj) (ev : event) : Prop := {
  cp_pwf : PWF p';
  cp_heap : forall j, nth_error (p_heap p') j = if Nat.eqb j k then Some o else nth_error (p_heap p) j;
  cp_log : p_log p' = p_log p ++ [ev];
  cp_cursor : p_cursor p' = p_cursor p;
  cp_ev : e_oid ev = kid_of k /\ e_otype ev = o_kind o /\ (e_exists ev = false -> o_exists o = false)
}.

(* the mutations log a snapshot of the object they leave *)
Lemma cell_put_snap p p' k o a : PWF p' ->
  (forall j, nth_error (p_heap p') j = if Nat.eqb j k then Some o else nth_error (p_heap p) j) ->
  p_log p' = p_log p ++ [snapshot a o None] -> p_cursor p' = p_cursor p -> cell_put p p' k o (snapshot a o None).
Proof.
  intros W H L C. split; auto. split; [|split; [reflexivity|exact (fun x => x)]].
  apply (pw_oid p' W k). rewrite H, Nat.eqb_refl. reflexivity.
Qed.

Lemma cell_put_events p p' k o ev : PWF p -> cell_put p p' k o ev -> events_from p' = events_from p ++ [ev].
Proof. intros W C. apply events_from_app; [apply (cp_cursor _ _ _ _ _ C)|apply (cp_log _ _ _ _ _ C)|apply (pw_cursor p W)]. Qed.

Lemma cell_put_pend p p' k o ev j : PWF p -> cell_put p p' k o ev -> pend p' j = pend p j || Nat.eqb j k.
Proof.
  intros W C. unfold pend. rewrite (cell_put_events p p' k o ev W C), existsb_app. cbn [existsb]. rewrite orb_false_r.
  unfold ev_for at 2. rewrite (proj1 (cp_ev _ _ _ _ _ C)). f_equal. unfold kid_of.
  destruct (Nat.eqb_spec j k) as [->|Hne]; [apply key_eqb_refl|].
  destruct (key_eqb _ _) eqn:E; [|reflexivity]. apply key_eqb_eq, kid_of_inj in E. congruence.
Qed.

Lemma read_events_all p : PWF p ->
  read_events p = (with_cursor p (length (p_log p)), events_from p).
Proof. intros W. unfold read_events. pose proof (pw_cursor p W) as H. apply Nat.leb_le in H. rewrite H. reflexivity. Qed.
Lemma events_from_read p : events_from (with_cursor p (length (p_log p))) = [].
Proof. unfold events_from. simpl. apply skipn_all. Qed.

Definition new_obj (p : prov) (q : path) (kd : okind) (d : N) : obj :=
  {| o_path := q; o_oid := kid_of (length (p_heap p)); o_kind := kd; o_data := d; o_exists := true |}.
Definition create_ev (o : obj) : event := snapshot EvCreate o None.

Lemma alloc_spec p q kd d : PWF p ->
  (forall k o, nth_error (p_heap p) k = Some o -> o_exists o = true -> o_path o <> q) ->
  let o := new_obj p q kd d in
  exists p', alloc p q kd d = (p', o) /\ cell_put p p' (length (p_heap p)) o (create_ev o).
Proof.
  intros W Hfree o. unfold alloc. rewrite (pw_idstyle p W). fold (kid_of (length (p_heap p))). fold (new_obj p q kd d). fold o.
  eexists. split; [reflexivity|]. apply cell_put_snap; [|intros j; apply nth_error_snoc|reflexivity|reflexivity].
  set (n := length (p_heap p)).
  assert (Hs : sane_cfg (p_cfg p) = true) by (unfold sane_cfg; rewrite (pw_idstyle p W); reflexivity).
  assert (Ho : o_oid o = if c_oidpath (p_cfg p) then KPath (o_path o) else KId (N.of_nat n)) by (rewrite (pw_idstyle p W); reflexivity).
  pose proof (fun q' => store_dget_path (p_cfg p) (p_dict p) n o q' _ Hs Ho) as Hpath.
  pose proof (fun m => store_dget_id (p_cfg p) (p_dict p) n o m _ Ho) as Hid.
  rewrite (np_cs _ _ (pw_cs p W)) in Hpath. rewrite (pw_idstyle p W) in Hid. cbn [o_path o new_obj] in Hpath.
  constructor; unfold emit, with_log, with_dict, with_heap; cbn [p_cfg p_heap p_dict p_log p_cursor].
  - apply (pw_idstyle p W).
  - apply (pw_cs p W).
  - apply (pw_noforbid p W).
  - intros k x H. apply nth_error_snoc_inv in H as [H|[-> ->]]; [apply (pw_oid p W k x H)|reflexivity].
  - intros m. rewrite Hid, (pw_dict_id p W), app_length. cbn [length]. fold n.
    destruct (N.eqb_spec m (N.of_nat n)) as [->|Hne].
    + rewrite Nnat.Nat2N.id, Nat.ltb_irrefl. destruct (Nat.ltb_spec n (n + 1)); [reflexivity|lia].
    + assert (N.to_nat m <> n) by (intros E; apply Hne; rewrite <- E, Nnat.N2Nat.id; reflexivity).
      destruct (Nat.ltb_spec (N.to_nat m) n), (Nat.ltb_spec (N.to_nat m) (n + 1)); try reflexivity; lia.
  - (* pw_dict_path *) intros q' r. rewrite Hpath. destruct (path_eqb q' q) eqn:E.
    + apply path_eqb_eq in E. subst q'. intros H. injection H as <-.
      exists o. split; [|reflexivity]. unfold n. rewrite nth_error_app2, Nat.sub_diag by lia. reflexivity.
    + intros H. destruct (pw_dict_path p W q' r H) as (x & Hx & Hp). exists x. split; [|exact Hp].
      rewrite nth_error_app1; [exact Hx|]. apply nth_error_Some. congruence.
  - (* pw_live_path *) intros k x H Hl. rewrite Hpath.
    apply nth_error_snoc_inv in H as [H|[-> ->]]; [|cbn [o_path o new_obj]; rewrite path_eqb_refl; reflexivity].
    rewrite (proj2 (path_eqb_false _ _) (Hfree k x H Hl)). apply (pw_live_path p W k x H Hl).
  - rewrite app_length. pose proof (pw_cursor p W). lia.
Qed.

Lemma no_forbidden c (q : path) : c_forbidden c = [] -> has_forbidden c q = false.
Proof.
  intros H. unfold has_forbidden. rewrite H.
  assert (Ha: forall a : list N, existsb (fun ch : N => existsb (N.eqb ch) []) a = false) by (induction a; auto).
  induction q as [|a q' IH]; [reflexivity|]. cbn [existsb]. rewrite Ha. exact IH.
Qed.

Lemma create_spec p q d : PWF p ->
  (forall k o, nth_error (p_heap p) k = Some o -> o_exists o = true -> o_path o <> q) ->
  verify_parent p q = None ->
  let o := new_obj p q KFile d in
  exists p', create p q d = (p', Ok (info_of o)) /\ cell_put p p' (length (p_heap p)) o (create_ev o).
Proof.
  intros W Hfree Hvp o. unfold create.
  assert (Hf: has_forbidden (p_cfg p) q = false) by (apply no_forbidden; apply (pw_noforbid p W)).
  rewrite Hf, (info_path_none p q W Hfree), Hvp.
  destruct (alloc_spec p q KFile d W Hfree) as (p' & A & B). rewrite A. exists p'. split; [reflexivity|exact B].
Qed.

Lemma PWF_hset p k o o' ev : PWF p -> nth_error (p_heap p) k = Some o ->
  o_oid o' = o_oid o -> o_path o' = o_path o -> (o_exists o' = true -> o_exists o = true) ->
  PWF (emit (with_heap p (hset (p_heap p) k o')) ev).
Proof.
  intros W H Ho Hp Hl.
  assert (Hlt: k < length (p_heap p)) by (apply nth_error_Some; congruence).
  constructor; simpl.
  - apply (pw_idstyle p W).
  - apply (pw_cs p W).
  - apply (pw_noforbid p W).
  - intros j x Hx. apply nth_hset in Hx as [(-> & ->)|Hx]; [rewrite Ho; apply (pw_oid p W k o H)|apply (pw_oid p W j x Hx)].
  - intros m. rewrite hset_length. apply (pw_dict_id p W).
  - intros q r Hd. destruct (pw_dict_path p W q r Hd) as (x & Hx & Hq).
    destruct (Nat.eq_dec r k) as [->|Hne].
    + exists o'. split; [apply nth_hset_same; exact Hlt|]. congruence.
    + exists x. split; [rewrite nth_hset_other by exact Hne; exact Hx|exact Hq].
  - (* pw_live_path *) intros j x Hx Hlx. apply nth_hset in Hx as [(-> & ->)|Hx].
    + rewrite Hp. apply (pw_live_path p W k o H (Hl Hlx)).
    + apply (pw_live_path p W j x Hx Hlx).
  - rewrite app_length. pose proof (pw_cursor p W). lia.
Qed.

Lemma cell_put_hset p k o o' a : PWF p -> nth_error (p_heap p) k = Some o ->
  o_oid o' = o_oid o -> o_path o' = o_path o -> (o_exists o' = true -> o_exists o = true) ->
  cell_put p (emit (with_heap p (hset (p_heap p) k o')) (snapshot a o' None)) k o' (snapshot a o' None).
Proof.
  intros W H Ho Hp Hl. apply cell_put_snap; [apply (PWF_hset p k o); assumption| |reflexivity|reflexivity].
  intros j. cbn. destruct (Nat.eqb_spec j k) as [->|Hne]; [apply nth_hset_same, nth_error_Some; congruence|apply nth_hset_other, Hne].
Qed.

Lemma upload_spec p k o d : PWF p -> nth_error (p_heap p) k = Some o -> o_exists o = true -> o_kind o = KFile ->
  let o' := set_data o d in
  exists p', upload p (kid_of k) d = (p', Ok (info_of o')) /\ cell_put p p' k o' (snapshot EvUpdate o' None).
Proof.
  intros W H Hl Hk o'. unfold upload. rewrite (get_live_kid p k o W H), Hl, Hk.
  eexists. split; [reflexivity|]. apply (cell_put_hset p k o); auto.
Qed.

Lemma upload_dead p k o d : PWF p -> nth_error (p_heap p) k = Some o -> o_exists o = false ->
  upload p (kid_of k) d = (p, Err ENotFound).
Proof. intros W H Hl. unfold upload. rewrite (get_live_kid p k o W H), Hl. reflexivity. Qed.

Lemma delete_spec p k o : PWF p -> nth_error (p_heap p) k = Some o -> o_exists o = true -> o_kind o = KFile ->
  let o' := set_exists o false in
  exists p', delete p (kid_of k) = (p', Ok tt) /\ cell_put p p' k o' (snapshot EvDelete o' None).
Proof.
  intros W H Hl Hk o'. unfold delete. rewrite (get_live_kid p k o W H), Hl, Hk.
  eexists. split; [reflexivity|]. apply (cell_put_hset p k o); auto; discriminate.
Qed.
Lemma delete_dead p k o : PWF p -> nth_error (p_heap p) k = Some o -> o_exists o = false ->
  delete p (kid_of k) = (p, Ok tt).
Proof. intros W H Hl. unfold delete. rewrite (get_live_kid p k o W H), Hl. reflexivity. Qed.

Lemma download_kid p k o : PWF p -> nth_error (p_heap p) k = Some o -> o_kind o = KFile ->
  download p (kid_of k) = if o_exists o then Ok (o_data o) else Err ENotFound.
Proof. intros W H Hk. unfold download. rewrite (get_live_kid p k o W H). destruct (o_exists o); [rewrite Hk|]; reflexivity. Qed.

Lemma PWF_with_cursor p : PWF p -> PWF (with_cursor p (length (p_log p))).
Proof. intros W. destruct W. constructor; simpl; auto. Qed.

Lemma info_path_none_free p q : PWF p -> info_path p q = None ->
  forall k o, nth_error (p_heap p) k = Some o -> o_exists o = true -> o_path o <> q.
Proof.
  intros W H k o Hn Hl Hp. pose proof (info_path_live p k o W Hn Hl) as Hi. rewrite Hp in Hi. congruence.
Qed.

Lemma create_inv p q d pv i : PWF p -> create p q d = (pv, Ok i) ->
  let o := new_obj p q KFile d in
  i = info_of o /\ cell_put p pv (length (p_heap p)) o (create_ev o).
Proof.
  intros W H o. unfold create in H. destruct (has_forbidden (p_cfg p) q); [discriminate|].
  destruct (info_path p q) as [j|] eqn:Ei; [discriminate|]. destruct (verify_parent p q); [discriminate|].
  destruct (alloc_spec p q KFile d W (info_path_none_free p q W Ei)) as (p' & A & B).
  rewrite A in H. injection H as <- <-. split; [reflexivity|exact B].
Qed.

Lemma upload_inv p k d pv i : PWF p -> upload p (kid_of k) d = (pv, Ok i) ->
  exists o, nth_error (p_heap p) k = Some o /\ o_exists o = true /\ o_kind o = KFile /\
    i = info_of (set_data o d) /\ p_heap pv = hset (p_heap p) k (set_data o d) /\
    p_log pv = p_log p ++ [snapshot EvUpdate (set_data o d) None] /\ p_cursor pv = p_cursor p /\ p_cfg pv = p_cfg p /\ PWF pv.
Proof.
  intros W H. unfold upload, get_live in H. rewrite (get_kid_eq p k W) in H.
  destruct (nth_error (p_heap p) k) as [o|] eqn:En; [|discriminate].
  destruct (o_exists o) eqn:El; [|discriminate]. destruct (o_kind o) eqn:Ek; [|discriminate].
  injection H as <- <-. exists o. repeat (split; [first [reflexivity|assumption]|]). apply (PWF_hset p k o); auto.
Qed.
