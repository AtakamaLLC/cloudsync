(* AlgoRun.v — whole runs.  [algo_run_calls] is algo_run keeping the provider calls of every step; [run_all] states an in-domain
   run once, by what it answers, and run_dom (the bookkeeping of the history), run_guards (the guard codes) and run_calls (with
   users acting on one side only every call goes to the other side; C03: the origin is untouched) are its readings;
   [algo_run_dom] is run_dom from the initial world. *)
From Coq Require Import NArith List Bool Arith Lia.
From CS Require Import AlgoModel AlgoCheck AlgoInv AlgoInit AlgoIntake AlgoStep AlgoUser AlgoCalls AlgoSpec AlgoTotal.
Import ListNotations.
Local Open Scope N_scope.

Fixpoint algo_run_calls (w : world) (l : list action) : result (world * list call) :=
  match l with
  | [] => ROk (w, [])
  | a :: r => '(w1, cs) <- algo_step w a ;; '(w2, cs2) <- algo_run_calls w1 r ;; ROk (w2, cs ++ cs2)
  end.

Lemma algo_run_of_calls : forall l w, algo_run w l = (r <- algo_run_calls w l ;; ROk (fst r)).
Proof.
  induction l as [|a r IH]; intros w; simpl; [reflexivity|].
  destruct (algo_step w a) as [[w1 cs1]|c]; [|reflexivity]. cbn [rbind]. rewrite IH.
  destruct (algo_run_calls w1 r) as [[w2 cs2]|c]; reflexivity.
Qed.

Lemma algo_run_calls_run : forall l w w' cs, algo_run_calls w l = ROk (w', cs) -> algo_run w l = ROk w'.
Proof. intros l w w' cs H. rewrite algo_run_of_calls, H. reflexivity. Qed.

Lemma CallsOk_one_sided g sd cs : (forall k, g_get k (g_of g (negb sd)) = None) -> CallsOk g cs -> on_side (negb sd) cs.
Proof.
  intros Hg H. unfold on_side. eapply Forall_impl; [|exact H]. intros c (k & c0 & Hc).
  destruct (side_cases (negb sd) (cl_side c)) as [X|X]; [exact X|]. rewrite X, negb_involutive, Hg in Hc. discriminate.
Qed.

Theorem run_all : forall acts used lvL lvR g w,
  Inv g w -> NoTmp w -> Dom used lvL lvR g w ->
  in_F_from 1 used lvL lvR [] [] (history_of acts) = true ->
  answers (algo_run_calls w acts)
    (fun r => exists g', Inv g' (fst r) /\ NoTmp (fst r) /\
        (let '(u, l, rr) := dom_after used lvL lvR (history_of acts) in Dom u l rr g' (fst r)) /\
        (forall sd, one_sided sd (history_of acts) = true -> (forall k, g_get k (g_of g (negb sd)) = None) -> on_side (negb sd) (snd r)))
    (fun c => In c G_SYNC).
Proof.
  induction acts as [|a r IH]; intros used lvL lvR g w I T D HF.
  - cbn [algo_run_calls answers fst snd history_of flat_map dom_after]. exists g. split; [exact I|]. split; [exact T|]. split; [exact D|].
    intros; constructor.
  - cbn [algo_run_calls]. destruct (algo_step w a) as [[w1 cs1]|c0] eqn:Es; cbn [rbind answers].
    2:{ apply (engine_step_guards g w a c0 I T (d_uniq _ _ _ _ _ D) Es). }
    destruct (run_step used lvL lvR g w a r w1 cs1 I T D HF Es) as (g1 & used1 & lvL1 & lvR1 & I1 & T1 & D1 & HF1 & Ed & G).
    specialize (IH used1 lvL1 lvR1 g1 w1 I1 T1 D1 HF1).
    destruct (algo_run_calls w1 r) as [[w2 cs2]|c]; cbn [rbind answers fst snd] in *; [|exact IH].
    destruct IH as (g' & I' & T' & D' & C'). exists g'. split; [exact I'|]. split; [exact T'|]. split; [rewrite Ed; exact D'|].
    intros sd H1 Hg. destruct (G sd H1) as (H1r & G1).
    apply on_app; [apply (CallsOk_one_sided g sd cs1 Hg (engine_step_calls g w a w1 cs1 I T Es))|].
    apply (C' sd H1r). intros k. rewrite G1. apply Hg.
Qed.

Theorem run_dom acts used lvL lvR g w w' :
  Inv g w -> NoTmp w -> Dom used lvL lvR g w -> in_F_from 1 used lvL lvR [] [] (history_of acts) = true ->
  algo_run w acts = ROk w' ->
  exists g', Inv g' w' /\ NoTmp w' /\ let '(used', lvL', lvR') := dom_after used lvL lvR (history_of acts) in Dom used' lvL' lvR' g' w'.
Proof.
  intros I T D HF H. rewrite algo_run_of_calls in H. pose proof (run_all acts used lvL lvR g w I T D HF) as A.
  destruct (algo_run_calls w acts) as [[w2 cs]|c]; [|discriminate]. injection H as <-.
  destruct A as (g' & I' & T' & D' & _). exists g'. auto.
Qed.

Theorem run_guards acts used lvL lvR g w c :
  Inv g w -> NoTmp w -> Dom used lvL lvR g w -> in_F_from 1 used lvL lvR [] [] (history_of acts) = true ->
  algo_run w acts = OutOfFragment c -> In c G_SYNC.
Proof.
  intros I T D HF H. rewrite algo_run_of_calls in H. pose proof (run_all acts used lvL lvR g w I T D HF) as A.
  destruct (algo_run_calls w acts) as [[w2 cs]|c']; [discriminate|]. injection H as <-. exact A.
Qed.

Theorem run_calls acts used lvL lvR g w w' cs sd :
  Inv g w -> NoTmp w -> Dom used lvL lvR g w -> (forall k, g_get k (g_of g (negb sd)) = None) ->
  in_F_from 1 used lvL lvR [] [] (history_of acts) = true -> one_sided sd (history_of acts) = true ->
  algo_run_calls w acts = ROk (w', cs) -> on_side (negb sd) cs.
Proof.
  intros I T D Hg HF H1 H. destruct (answers_ok _ _ _ _ (run_all acts used lvL lvR g w I T D HF) H) as (_ & _ & _ & _ & C).
  exact (C sd H1 Hg).
Qed.

Theorem algo_run_dom t0 lg0 acts w :
  lg0 <= t0 + 1 -> in_F1 (cfg_std 1) (history_of acts) = true ->
  algo_run (world_init (cfg_std 1) t0 lg0) acts = ROk w ->
  exists g used, Inv g w /\ Dom used (spec_L (history_of acts)) (spec_R (history_of acts)) g w.
Proof.
  intros Hlg HF H.
  destruct (run_dom acts [] [] [] g0 _ w (init_inv t0 lg0 Hlg) (NoTmp_init _ _ _) (Dom_init _ _ _) HF H) as (g & I & _ & D).
  unfold spec_L, spec_R. destruct (dom_after [] [] [] (history_of acts)) as [[used lvL] lvR]. exists g, used. auto.
Qed.
