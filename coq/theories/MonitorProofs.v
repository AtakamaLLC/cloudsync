(* MonitorProofs.v — for EVERY trace: if the acceptor accepts, the declarative statements hold.
   The guards are executable; these lemmas say what acceptance means, so the oracle the harness
   runs on real traces is exactly the property and cannot be weakened without breaking a proof. *)
From Coq Require Import NArith PeanoNat List Bool.
From CS Require Import Sx TreeModel Monitor.
Import ListNotations.

(* for the proofs and the step predicates; the C-numbered statements spell same_tree out *)
Notation "a ~~ b" := (same_tree a b = true) (at level 70).

Definition observed (m : mstate) (x : obs) : Prop := tL m = o_L x /\ tR m = o_R x.

Definition user_step_ok (cfg : config) (m : mstate) (s : side) (o : op) (m' : mstate) : Prop :=
  apply_op (tree_of m s) o ~~ tree_of m' s
  /\ tree_of m (negb s) ~~ tree_of m' (negb s)
  /\ cov m' = cov_after (tree_of m s) o (cov m)
  /\ steps m' = 0 /\ quiet m' = false
  /\ (check_spec cfg = true -> exists ro, rel_op (root_of cfg s) o = Some ro /\ spec m' = apply_op (spec m) ro)
  /\ (check_spec cfg = false -> spec m' = spec m).

Definition eng_step_ok (cfg : config) (m : mstate) (s : side) (ts : list path) (m' : mstate) : Prop :=
  (forall t, In t ts -> is_prefix (root_of cfg s) t = true)                       (* C12: confined *)
  /\ outside (rootL cfg) (tL m) ~~ outside (rootL cfg) (tL m')                    (* C12: outside untouched *)
  /\ outside (rootR cfg) (tR m) ~~ outside (rootR cfg) (tR m')
  /\ tree_of m (negb s) ~~ tree_of m' (negb s)                                    (* only the addressed side changes *)
  /\ (origin cfg = Some s -> view (root_of cfg s) (tree_of m s) ~~ view (root_of cfg s) (tree_of m' s))  (* C03 *)
  /\ quiet m = false                                                              (* C03: no echo after quiet *)
  /\ (cov_every_step cfg = true -> all_live (cov m) (tL m') (tR m') = true)       (* C02, step level *)
  /\ spec m' = spec m /\ cov m' = cov m /\ steps m' = steps m /\ quiet m' = quiet m
  /\ (forall t, In t ts -> has_declined cfg t = false).                            (* C12: declined paths left alone *)

Definition quiet_ok (cfg : config) (m m' : mstate) : Prop :=
  tL m ~~ tL m' /\ tR m ~~ tR m'
  /\ strip_conflicted cfg (view (rootL cfg) (tL m')) ~~ strip_conflicted cfg (view (rootR cfg) (tR m'))   (* C01 *)
  /\ (check_spec cfg = true ->
      view (rootL cfg) (tL m') ~~ spec m /\ view (rootR cfg) (tR m') ~~ spec m)                          (* C03 C04 *)
  /\ (no_conflicted cfg = true ->
      has_conflicted cfg (view (rootL cfg) (tL m')) = false /\ has_conflicted cfg (view (rootR cfg) (tR m')) = false)
  /\ all_live (cov m) (tL m') (tR m') = true                                                            (* C02 *)
  /\ spec m' = spec m /\ cov m' = cov m /\ steps m' = steps m /\ quiet m' = true.

Definition tick_ok (cfg : config) (m m' : mstate) : Prop :=
  tL m ~~ tL m' /\ tR m ~~ tR m'
  /\ (quiet m = false -> S (steps m) <= step_bound cfg)                           (* C01: bounded *)
  /\ spec m' = spec m /\ cov m' = cov m /\ steps m' = S (steps m) /\ quiet m' = quiet m.

Definition step_ok (cfg : config) (m : mstate) (x : obs) (m' : mstate) : Prop :=
  observed m' x /\
  match o_ev x with
  | EUser s o => user_step_ok cfg m s o m'
  | EEng s ts => eng_step_ok cfg m s ts m'
  | EStep => tick_ok cfg m m'
  | EQuiet => quiet_ok cfg m m'
  end.

(* an accepted step has passed every guard on the way to its [inl] *)
Lemma guard_inl {A B} (b : bool) (c : B) (k : A + B) m :
  (if b then inr c else k) = inl m -> b = false /\ k = inl m.
Proof. destruct b; [discriminate|auto]. Qed.

Lemma existsb_false {A} (f : A -> bool) l : existsb f l = false -> forall a, In a l -> f a = false.
Proof.
  intros H a Ha. destruct (f a) eqn:E; [|reflexivity].
  rewrite <- H. symmetry. apply existsb_exists. eauto.
Qed.

Lemma mstep_sound cfg m x m' : mstep cfg m x = inl m' -> step_ok cfg m x m'.
Proof.
  unfold mstep, step_ok, observed. destruct (o_ev x) as [s o|s ts| |]; intros H;
    repeat (apply guard_inl in H as [?G H]).
  (* G, G0, G1, ... : the guards of [mstep] for this kind of event, in their order there, each [= false] *)
  - apply negb_false_iff, andb_true_iff in G as [Ht Ho]. unfold user_step_ok, tree_of.
    destruct (check_spec cfg); [destruct (rel_op _ o) as [ro|] eqn:Hro; [|discriminate]|];
      injection H as <-; destruct s; cbn [tL tR spec cov steps quiet negb];
      repeat split; trivial; try discriminate; eauto.
  - injection H as <-. rename G into Gconf, G0 into Gdecl, G1 into Gout, G2 into Gside, G3 into Gorig, G5 into Glive.
    apply negb_false_iff in Gconf, Gout, Gside. apply andb_true_iff in Gout as [GoutL GoutR].
    unfold eng_step_ok, tree_of. cbn [tL tR spec cov steps quiet]. repeat split; trivial.
    + apply forallb_forall. exact Gconf.
    + destruct s; exact Gside.
    + intros Ho. rewrite Ho in Gorig. unfold side_eqb in Gorig. rewrite eqb_reflx in Gorig.
      apply negb_false_iff in Gorig. destruct s; exact Gorig.
    + intros Hc. rewrite Hc in Glive. apply negb_false_iff in Glive. exact Glive.
    + apply existsb_false. exact Gdecl.
  - injection H as <-. apply negb_false_iff, andb_true_iff in G as [Ga Gb].
    unfold tick_ok. cbn [tL tR spec cov steps quiet]. repeat split; trivial.
    intros Hq. rewrite Hq, andb_true_r in G0. apply Nat.ltb_ge in G0. exact G0.
  - injection H as <-. apply negb_false_iff in G, G0, G3. apply andb_true_iff in G as [Ga Gb].
    unfold quiet_ok. cbn [tL tR spec cov steps quiet].
    destruct (check_spec cfg); [apply negb_false_iff, andb_true_iff in G1|];
      (destruct (no_conflicted cfg); [apply orb_false_iff in G2|]); intuition congruence.
Qed.

(* the run of an accepted trace: every observation with the monitor state before and after it *)
Inductive run_of (cfg : config) : mstate -> list obs -> mstate -> Prop :=
| run_nil m : run_of cfg m [] m
| run_cons m x m1 r m2 : step_ok cfg m x m1 -> run_of cfg m1 r m2 -> run_of cfg m (x :: r) m2.

Lemma accept_from_sound cfg tr : forall m i m', accept_from cfg m tr i = inl m' -> run_of cfg m tr m'.
Proof.
  induction tr as [|x r IH]; simpl; intros m i m' H.
  - inversion H; subst. constructor.
  - destruct (mstep cfg m x) as [m1|c] eqn:Hs; [|discriminate].
    econstructor; [apply mstep_sound; exact Hs|]. eapply IH; exact H.
Qed.

Theorem accept_sound cfg l r tr m' :
  accept cfg l r tr = inl m' -> run_of cfg (init_state cfg l r) tr m'.
Proof. unfold accept. apply accept_from_sound. Qed.

Lemma run_of_split cfg m pre x post m' :
  run_of cfg m (pre ++ x :: post) m' -> exists ma mb, run_of cfg m pre ma /\ step_ok cfg ma x mb.
Proof.
  revert m. induction pre as [|y pre IH]; simpl; intros m H; inversion H as [|? ? m1 ? ? Hs Hr]; subst.
  - exists m, m1. split; [constructor|exact Hs].
  - destruct (IH _ Hr) as (ma & mb & A & B). exists ma, mb. split; [econstructor; eauto|exact B].
Qed.

Lemma accept_at {cfg l r tr m' pre x post} :
  accept cfg l r tr = inl m' -> tr = pre ++ x :: post ->
  exists ma mb, run_of cfg (init_state cfg l r) pre ma /\ step_ok cfg ma x mb.
Proof. intros Hacc ->. apply accept_sound in Hacc. exact (run_of_split _ _ _ _ _ _ Hacc). Qed.

(* the root-relative user operations of a trace, in trace order *)
Fixpoint rel_user_ops (cfg : config) (tr : list obs) : list op :=
  match tr with
  | [] => []
  | x :: r => match o_ev x with
              | EUser s o => match rel_op (root_of cfg s) o with
                             | Some ro => ro :: rel_user_ops cfg r
                             | None => rel_user_ops cfg r
                             end
              | _ => rel_user_ops cfg r
              end
  end.

(* the engine steps since the last user operation, counted on the trace itself; the monitor's counter
   [steps] equals it (PropC01.C01_steps_counter_meaning) *)
Fixpoint steps_since_user (tr : list obs) (acc : nat) : nat :=
  match tr with
  | [] => acc
  | x :: r => match o_ev x with
              | EUser _ _ => steps_since_user r 0
              | EStep => steps_since_user r (S acc)
              | _ => steps_since_user r acc
              end
  end.

Lemma step_ok_keeps cfg m x m' : step_ok cfg m x m' ->
  match o_ev x with
  | EUser s o => steps m' = 0 /\ (check_spec cfg = true ->
                   exists ro, rel_op (root_of cfg s) o = Some ro /\ spec m' = apply_op (spec m) ro)
  | EStep => spec m' = spec m /\ steps m' = S (steps m)
  | _ => spec m' = spec m /\ steps m' = steps m
  end.
Proof.
  intros [_ H]. destruct (o_ev x).
  - destruct H as (_ & _ & _ & H1 & _ & H2 & _). auto.
  - destruct H as (_ & _ & _ & _ & _ & _ & _ & H1 & _ & H3 & _). auto.
  - destruct H as (_ & _ & _ & H1 & _ & H3 & _). auto.
  - destruct H as (_ & _ & _ & _ & _ & _ & H1 & _ & H3 & _). auto.
Qed.

Lemma spec_is_history cfg m tr m' :
  check_spec cfg = true -> run_of cfg m tr m' -> spec m' = apply_ops (spec m) (rel_user_ops cfg tr).
Proof.
  intros Hcs Hrun. induction Hrun as [m|m x m1 r m2 Hs Hr IH]; [reflexivity|].
  simpl. apply step_ok_keeps in Hs. destruct (o_ev x) as [s o|s ts| |].
  2-4: destruct Hs as [Hsp _]; rewrite IH, Hsp; reflexivity.
  destruct Hs as [_ Hsp]. destruct (Hsp Hcs) as (ro & Hro & Hsp1). rewrite Hro. simpl. rewrite IH, Hsp1. reflexivity.
Qed.

(* C03 / C04, trace level: at every quiet report of an accepted check_spec run, both views equal the
   previously synchronised tree with every user operation so far applied. *)
Theorem quiet_views_are_history cfg l r tr m' :
  check_spec cfg = true ->
  accept cfg l r tr = inl m' ->
  forall pre x post, tr = pre ++ x :: post -> o_ev x = EQuiet ->
    view (rootL cfg) (o_L x) ~~ apply_ops (view (rootL cfg) l) (rel_user_ops cfg pre) /\
    view (rootR cfg) (o_R x) ~~ apply_ops (view (rootL cfg) l) (rel_user_ops cfg pre).
Proof.
  intros Hcs Hacc pre x post Heq Hq.
  destruct (accept_at Hacc Heq) as (ma & mb & Ha & [[<- <-] Hb]). rewrite Hq in Hb.
  unfold quiet_ok in Hb. rewrite (spec_is_history cfg _ _ _ Hcs Ha) in Hb. apply Hb, Hcs.
Qed.

(* C01, trace level: at every quiet report of an accepted run the two views agree modulo conflicted names *)
Theorem quiet_converged cfg l r tr m' :
  accept cfg l r tr = inl m' ->
  forall pre x post, tr = pre ++ x :: post -> o_ev x = EQuiet ->
    strip_conflicted cfg (view (rootL cfg) (o_L x)) ~~ strip_conflicted cfg (view (rootR cfg) (o_R x)).
Proof.
  intros Hacc pre x post Heq Hq.
  destruct (accept_at Hacc Heq) as (ma & mb & _ & [[<- <-] Hb]). rewrite Hq in Hb. apply Hb.
Qed.

(* C01, trace level: the engine never takes more than step_bound steps after the last user operation without
   having reported quiet *)
Theorem steps_bounded cfg l r tr m' :
  accept cfg l r tr = inl m' ->
  forall pre x post, tr = pre ++ x :: post -> o_ev x = EStep ->
    exists ma, run_of cfg (init_state cfg l r) pre ma /\ (quiet ma = false -> S (steps ma) <= step_bound cfg).
Proof.
  intros Hacc pre x post Heq Hq. destruct (accept_at Hacc Heq) as (ma & mb & Ha & [_ Hb]). rewrite Hq in Hb.
  exists ma. split; [exact Ha|apply Hb].
Qed.

(* C12, trace level: every engine action addresses only paths inside its root and leaves everything outside
   both roots as it was *)
Theorem engine_confined cfg l r tr m' :
  accept cfg l r tr = inl m' ->
  forall pre x post s ts, tr = pre ++ x :: post -> o_ev x = EEng s ts ->
    (forall t, In t ts -> is_prefix (root_of cfg s) t = true) /\
    exists ma, run_of cfg (init_state cfg l r) pre ma /\
      outside (rootL cfg) (tL ma) ~~ outside (rootL cfg) (o_L x) /\
      outside (rootR cfg) (tR ma) ~~ outside (rootR cfg) (o_R x).
Proof.
  intros Hacc pre x post s ts Heq He. destruct (accept_at Hacc Heq) as (ma & mb & Ha & [[<- <-] Hb]). rewrite He in Hb.
  split; [apply Hb|]. exists ma. split; [exact Ha|split; apply Hb].
Qed.

(* C12, trace level: no engine action of an accepted run addresses a path with a component that the
   application's translate function declines (the names listed in [declined cfg]) *)
Theorem engine_declined_left_alone cfg l r tr m' :
  accept cfg l r tr = inl m' ->
  forall pre x post s ts, tr = pre ++ x :: post -> o_ev x = EEng s ts ->
    forall t n, In t ts -> In n t -> ~ In n (declined cfg).
Proof.
  intros Hacc pre x post s ts Heq He t n Ht Hn Hd.
  destruct (accept_at Hacc Heq) as (ma & mb & _ & [_ Hb]). rewrite He in Hb.
  assert (Hdecl : has_declined cfg t = false) by (apply Hb, Ht).
  pose proof (existsb_false _ _ (existsb_false _ _ Hdecl n Hn) n Hd) as E.
  rewrite N.eqb_refl in E. discriminate.
Qed.

(* C03, trace level: no provider write happens after a quiet report until a user acts again (any run), and
   an engine action on the origin side of a one-sided run leaves that side's view as it was *)
Theorem no_echo cfg l r tr m' :
  accept cfg l r tr = inl m' ->
  forall pre x post s ts, tr = pre ++ x :: post -> o_ev x = EEng s ts ->
    exists ma, run_of cfg (init_state cfg l r) pre ma /\ quiet ma = false /\
      (origin cfg = Some s ->
       view (root_of cfg s) (tree_of ma s) ~~ view (root_of cfg s) (if s then o_R x else o_L x)).
Proof.
  intros Hacc pre x post s ts Heq He.
  destruct (accept_at Hacc Heq) as (ma & mb & Ha & [[<- <-] Hb]). rewrite He in Hb. exists ma.
  split; [exact Ha|]. split; apply Hb.
Qed.

(* no_echo read for a one-sided run: the origin is a premise *)
Theorem origin_untouched_no_echo cfg l r tr m' s0 :
  origin cfg = Some s0 ->
  accept cfg l r tr = inl m' ->
  forall pre x post s ts, tr = pre ++ x :: post -> o_ev x = EEng s ts ->
    exists ma, run_of cfg (init_state cfg l r) pre ma /\ quiet ma = false /\
      (s = s0 -> view (root_of cfg s) (tree_of ma s) ~~ view (root_of cfg s) (if s then o_R x else o_L x)).
Proof.
  intros Ho Hacc pre x post s ts Heq He.
  destruct (no_echo cfg l r tr m' Hacc pre x post s ts Heq He) as (ma & Ha & Hq & Hv).
  exists ma. repeat split; trivial. intros ->. exact (Hv Ho).
Qed.

Lemma drop_In c old l : In c (drop old l) <-> In c l /\ c <> old.
Proof.
  unfold drop. rewrite filter_In, negb_true_iff, N.eqb_neq. intuition congruence.
Qed.

Lemma all_live_In cv a b :
  all_live cv a b = true -> forall c, In c cv -> In c (contents a) \/ In c (contents b).
Proof.
  unfold all_live, mem. rewrite forallb_forall. intros H c Hc.
  destruct (proj1 (orb_true_iff _ _) (H c Hc)) as [E|E];
    apply existsb_exists in E as (d & Hd & E); apply N.eqb_eq in E; subst; auto.
Qed.

(* C02, trace level: at every quiet report every covered version is the content of a live file *)
Theorem quiet_nothing_lost cfg l r tr m' :
  accept cfg l r tr = inl m' ->
  forall pre x post, tr = pre ++ x :: post -> o_ev x = EQuiet ->
    exists ma, run_of cfg (init_state cfg l r) pre ma /\
      forall c, In c (cov ma) -> In c (contents (o_L x)) \/ In c (contents (o_R x)).
Proof.
  intros Hacc pre x post Heq Hq.
  destruct (accept_at Hacc Heq) as (ma & mb & Ha & [[<- <-] Hb]). rewrite Hq in Hb.
  exists ma. split; [exact Ha|]. apply all_live_In, Hb.
Qed.

(* C03 / C04: no conflicted artefact at quiet when the run asks for it *)
Theorem quiet_no_conflicted cfg l r tr m' :
  no_conflicted cfg = true ->
  accept cfg l r tr = inl m' ->
  forall pre x post, tr = pre ++ x :: post -> o_ev x = EQuiet ->
    has_conflicted cfg (view (rootL cfg) (o_L x)) = false /\ has_conflicted cfg (view (rootR cfg) (o_R x)) = false.
Proof.
  intros Hn Hacc pre x post Heq Hq.
  destruct (accept_at Hacc Heq) as (ma & mb & _ & [[<- <-] Hb]). rewrite Hq in Hb. apply Hb, Hn.
Qed.

(* C02, step level: with cov_every_step no engine action ever makes a covered version vanish *)
Theorem step_nothing_lost cfg l r tr m' :
  cov_every_step cfg = true ->
  accept cfg l r tr = inl m' ->
  forall pre x post s ts, tr = pre ++ x :: post -> o_ev x = EEng s ts ->
    exists ma, run_of cfg (init_state cfg l r) pre ma /\
      forall c, In c (cov ma) -> In c (contents (o_L x)) \/ In c (contents (o_R x)).
Proof.
  intros Hce Hacc pre x post s ts Heq He.
  destruct (accept_at Hacc Heq) as (ma & mb & Ha & [[<- <-] Hb]). rewrite He in Hb.
  exists ma. split; [exact Ha|]. apply all_live_In, Hb, Hce.
Qed.
