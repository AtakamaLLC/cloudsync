(* PropC07.v — C07: crash consistency: dying at any storage or provider write loses nothing.
   Model: CrashModel.v (the commit discipline as a machine of individual writes).  Proofs: CrashProofs.v (part A),
   CrashRecover.v (part B), CrashThms.v.  Outcome level: Monitor.v (a crash and the restart are invisible in the
   observation trace; acceptance of a run with a crash is acceptance of its trace). *)
From Coq Require Import NArith List Bool Arith.
From CS Require Import Sx CrashModel CrashProofs CrashRecover CrashThms.
From CS Require CodecModel CodecProofs TreeModel Monitor MonitorProofs.
Import ListNotations.

(* (a) durable never ahead: after EVERY sequence of guarded micro operations (provider writes, memory updates, row
   commits, cursor stores), user operations and crashes — so at every write boundary of every run — every stored row that
   records a side as synced is reflected by both providers (now or before a user changed the object), and every
   object users act on (the origin object of a slot; the objects the engine made for it on the other side are not
   looked at) whose events the stored cursor covers is accounted for by a stored row *)
Theorem C07_durable_never_ahead : forall ls x, lrun init ls = Some x -> never_ahead x = true.
Proof. exact durable_never_ahead. Qed.
Print Assumptions C07_durable_never_ahead.

Theorem C07_durable_never_ahead_after_crash : forall ls x, lrun init ls = Some x -> never_ahead (crash x) = true.
Proof. exact durable_never_ahead_after_crash. Qed.
Print Assumptions C07_durable_never_ahead_after_crash.

(* the same for the engine's own plans: at every state of a plan-driven run, at every crash point k of every
   step m from there, and after the recovery *)
Theorem C07_never_ahead_every_crash_point : forall g ls c, erun g cfg0 ls = Some c ->
  never_ahead (c_st c) = true /\ never_ahead (recover (c_st c)) = true /\
  forall m k, never_ahead (crash (do_plan (c_st c) (firstn k (plan_of true (c_st c) m)))) = true.
Proof. exact never_ahead_every_crash_point. Qed.
Print Assumptions C07_never_ahead_every_crash_point.

(* the engine's plans obey the discipline: no guard of a planned operation fails (provider write first, memory
   update after it, commit last; the cursor only past committed marks) *)
Theorem C07_plans_never_blocked : forall ls c i, erun true cfg0 ls = Some c -> i < length (slots (c_st c)) ->
  run_ops (c_st c) (plan_of true (c_st c) (KMark i)) <> None /\
  run_ops (c_st c) (plan_of true (c_st c) (KSync i)) <> None.
Proof. exact plans_never_blocked. Qed.
Print Assumptions C07_plans_never_blocked.

(* write order of the plans = the language the observed write order of every real step is checked against *)
Theorem C07_sync_plan_write_order : forall adopt x i, shape_ok true (writes_of (plan_sync adopt x i)) = true.
Proof. exact sync_plan_write_order. Qed.
Print Assumptions C07_sync_plan_write_order.

Theorem C07_intake_plan_write_order : forall s x, shape_ok false (writes_of (plan_intake s x)) = true.
Proof. exact intake_plan_write_order. Qed.
Print Assumptions C07_intake_plan_write_order.

(* (b) a half-recorded transfer is recognised: from EVERY state of a plan-driven run in which no user acts between a
   crash and the next quiet state — every step sequence, every crash point (ECrash m k for all m, k) — the recovery (restart, event intake from the stored
   cursors, sync of every entry with adoption of an equal-content peer at the translated path) ends settled,
   with equal views, no ".conflicted" name, at most one live peer per object, the origin objects untouched *)
Theorem C07_half_recorded_recoverable_partial : forall ls c, erun true cfg0 ls = Some c ->
  settled (recover (c_st c)) = true /\
  view false (recover (c_st c)) = view true (recover (c_st c)) /\
  has_conflicted (recover (c_st c)) = false /\ no_duplicate (recover (c_st c)) = true /\
  origins (recover (c_st c)) = origins (c_st c).
Proof. (* the five conjuncts are CrashRecover.converged, unfolded *)
  intros ls c H. apply (recover_converges c), (erun_binv ls cfg0 c binv_cfg0 H).
Qed.
Print Assumptions C07_half_recorded_recoverable_partial.

(* full strength (users may act between the crash and the end of the recovery) is false of the model: the user
   rewrites the file whose peer was created but not recorded -> ".conflicted" copy *)
Theorem C07_half_recorded_recoverable_refuted : ~ half_recorded_recoverable_full.
Proof. exact half_recorded_recoverable_refuted. Qed.
Print Assumptions C07_half_recorded_recoverable_refuted.

Theorem C07_witness_user_write_after_crash :
  exists c, erun false cfg0 witness_user_write_after_crash = Some c /\ has_conflicted (recover (c_st c)) = true.
Proof. exact witness_user_write_conflicted. Qed.
Print Assumptions C07_witness_user_write_after_crash.

Theorem C07_witness_user_revert_after_crash :
  exists c, erun false cfg0 witness_user_revert_after_crash = Some c /\ settled (recover (c_st c)) = false.
Proof. exact witness_user_revert_not_settled. Qed.
Print Assumptions C07_witness_user_revert_after_crash.

(* the adoption rule is what makes (b) true: without it the crash after the create alone ends with a conflict copy *)
Theorem C07_recoverable_without_adoption_refuted : ~ recoverable_without_adoption.
Proof. exact recoverable_without_adoption_refuted. Qed.
Print Assumptions C07_recoverable_without_adoption_refuted.

(* (c) rows that fail to load are dropped *)
Theorem C07_bad_rows_dropped_not_fatal : forall rs,
  (forall e, In e (fst (CodecModel.load_rows rs)) <-> exists i w, In (i, w) rs /\ CodecModel.load_row i w = Some e) /\
  (forall i, In i (snd (CodecModel.load_rows rs)) <-> exists w, In (i, w) rs /\ CodecModel.load_row i w = None).
Proof. intros rs. split; [apply CodecProofs.load_rows_in|apply CodecProofs.load_rows_bad]. Qed.
Print Assumptions C07_bad_rows_dropped_not_fatal.

(* outcome, as acceptance of the observed trace.  This is MonitorProofs.quiet_views_are_history, a statement about
   EVERY accepted trace; it is read for C07 because a crash and the restart leave no mark in the observation trace
   (user operations, engine provider writes, step and quiet markers, both trees) and the trace of a run with a crash is
   judged by the same acceptor: at every quiet report both views equal the base tree with every user operation
   applied (convergence to the uninterrupted outcome) *)
Theorem C07_crash_transparent : forall cfg l r tr m',
  Monitor.check_spec cfg = true -> Monitor.accept cfg l r tr = inl m' ->
  forall pre x post, tr = pre ++ x :: post -> Monitor.o_ev x = Monitor.EQuiet ->
    TreeModel.same_tree (TreeModel.view (Monitor.rootL cfg) (Monitor.o_L x))
                        (TreeModel.apply_ops (TreeModel.view (Monitor.rootL cfg) l) (MonitorProofs.rel_user_ops cfg pre)) = true /\
    TreeModel.same_tree (TreeModel.view (Monitor.rootR cfg) (Monitor.o_R x))
                        (TreeModel.apply_ops (TreeModel.view (Monitor.rootL cfg) l) (MonitorProofs.rel_user_ops cfg pre)) = true.
Proof. exact MonitorProofs.quiet_views_are_history. Qed.
Print Assumptions C07_crash_transparent.

(* no user content lost: every version written by a user and not destroyed by a user is in a live file *)
Theorem C07_nothing_lost : forall cfg l r tr m',
  Monitor.accept cfg l r tr = inl m' ->
  forall pre x post, tr = pre ++ x :: post -> Monitor.o_ev x = Monitor.EQuiet ->
    exists ma, MonitorProofs.run_of cfg (Monitor.init_state cfg l r) pre ma /\
      forall c, In c (Monitor.cov ma) -> In c (Monitor.contents (Monitor.o_L x)) \/ In c (Monitor.contents (Monitor.o_R x)).
Proof. exact MonitorProofs.quiet_nothing_lost. Qed.
Print Assumptions C07_nothing_lost.

(* one-sided histories: no ".conflicted" artefact at a quiet report (MonitorProofs.quiet_no_conflicted) *)
Theorem C07_no_conflicted_artefact : forall cfg l r tr m',
  Monitor.no_conflicted cfg = true -> Monitor.accept cfg l r tr = inl m' ->
  forall pre x post, tr = pre ++ x :: post -> Monitor.o_ev x = Monitor.EQuiet ->
    Monitor.has_conflicted cfg (TreeModel.view (Monitor.rootL cfg) (Monitor.o_L x)) = false /\
    Monitor.has_conflicted cfg (TreeModel.view (Monitor.rootR cfg) (Monitor.o_R x)) = false.
Proof. exact MonitorProofs.quiet_no_conflicted. Qed.
Print Assumptions C07_no_conflicted_artefact.

(* MonitorProofs.origin_untouched_no_echo: an engine write never happens while the monitor is quiet (nothing already
   synchronised is transferred again: "no retransfer"), and one on the origin side leaves that side's tree as it is *)
Theorem C07_origin_untouched_no_retransfer : forall cfg l r tr m' s0,
  Monitor.origin cfg = Some s0 -> Monitor.accept cfg l r tr = inl m' ->
  forall pre x post s ts, tr = pre ++ x :: post -> Monitor.o_ev x = Monitor.EEng s ts ->
    exists ma, MonitorProofs.run_of cfg (Monitor.init_state cfg l r) pre ma /\ Monitor.quiet ma = false /\
      (s = s0 -> TreeModel.same_tree (TreeModel.view (Monitor.root_of cfg s) (Monitor.tree_of ma s))
                                     (TreeModel.view (Monitor.root_of cfg s) (if s then Monitor.o_R x else Monitor.o_L x)) = true).
Proof. exact MonitorProofs.origin_untouched_no_echo. Qed.
Print Assumptions C07_origin_untouched_no_retransfer.

Definition on_run (g : bool) (ls : list elabel) (f : cfg -> bool) : bool :=
  match erun g cfg0 ls with Some c => f c | None => false end.
Definition view_eqb (a b : list (pth * kind * bool)) : bool :=
  Nat.eqb (length a) (length b) &&
  forallb (fun ab => N.eqb (fst (fst (fst ab))) (fst (fst (snd ab))) && kind_eqb (snd (fst (fst ab))) (snd (fst (snd ab))) &&
                     Bool.eqb (snd (fst ab)) (snd (snd ab))) (combine a b).
Fixpoint sx_eqb (a b : sx) : bool :=
  match a, b with
  | A x, A y => N.eqb x y
  | L l, L m => (fix go (l m : list sx) : bool :=
                   match l, m with [] , [] => true | x :: r, y :: q => sx_eqb x y && go r q | _, _ => false end) l m
  | _, _ => false
  end.

(* a run: create, intake, the sync dies right after the provider create (peer exists, row does not know it) *)
Definition ex_half_recorded : list elabel :=
  [EUser (UNew false 1%N (KFile 7%N)); EStep (KMark 0); EStep (KEnd false); ECrash (KSync 0) 2].

Example C07_ex_crash_state_has_unrecorded_peer :
  on_run true ex_half_recorded (fun c =>
    c_rec c && view_eqb (view false (c_st c)) [(1%N, KFile 7%N, false)] && view_eqb (view true (c_st c)) [(1%N, KFile 7%N, false)] &&
    negb (settled (c_st c)) &&
    match slots (c_st c) with [sl] => match sl_row sl with Some r => negb (s_has (e_peer r)) | None => false end | _ => false end) = true.
Proof. vm_compute. reflexivity. Qed.

(* its recovery writes nothing to a provider (the peer is adopted), and without the adoption rule it would
   (6 = rename to ".conflicted", 2 = create) *)
Example C07_ex_recovery_adopts :
  on_run true ex_half_recorded (fun c =>
    sx_eqb (L (recovery_writes true (c_st c))) (L [L []]) &&
    sx_eqb (L (recovery_writes false (c_st c))) (L [L [L [A 6%N; A 0%N]; L [A 2%N]]]) &&
    view_eqb (view true (recover (c_st c))) [(1%N, KFile 7%N, false)] && settled (recover (c_st c))) = true.
Proof. vm_compute. reflexivity. Qed.

(* a longer run: rename + write, the sync dies between the rename and the upload; the recovery plan renames again
   (to the path the peer already has: no effect at the provider) and uploads (4 = rename, 3 = upload) *)
Example C07_ex_half_rename_upload :
  on_run true [EUser (UNew false 1%N (KFile 7%N)); EStep (KMark 0); EStep (KEnd false); EStep (KSync 0);
               EStep (KEnd true); EUser (URename 0 2%N); EUser (UWrite 0 8%N); EStep (KMark 0); EStep (KEnd false);
               ECrash (KSync 0) 2]
    (fun c =>
       view_eqb (view true (c_st c)) [(2%N, KFile 7%N, false)] &&
       match slots (c_st c) with
       | [sl] => sx_eqb (L (map sx_sop (plan_sync_slot true true sl))) (L [L [A 1%N]; L [A 4%N; A 0%N]; L [A 3%N; A 0%N]; L [A 7%N; A 0%N]; L [A 9%N]])
       | _ => false
       end &&
       sx_eqb (L (recovery_writes true (c_st c))) (L [L [L [A 3%N; A 0%N]]]) &&
       view_eqb (view true (recover (c_st c))) [(2%N, KFile 8%N, false)] && settled (recover (c_st c))) = true.
Proof. vm_compute. reflexivity. Qed.

(* the guards reject the reordered writes: recording the link before the provider write, moving the cursor before the
   event is committed *)
Example C07_ex_link_before_write_rejected :
  lrun init [LUser (UNew false 1%N (KFile 7%N)); LOp (MSlot 0 SMark); LOp (MSlot 0 SRow); LOp (MSlot 0 SRefresh);
             LOp (MSlot 0 (SLink 0))] = None.
Proof. vm_compute. reflexivity. Qed.

Example C07_ex_cursor_before_commit_rejected :
  lrun init [LUser (UNew false 1%N (KFile 7%N)); LOp (MSlot 0 SMark); LOp (MAdv false)] = None.
Proof. vm_compute. reflexivity. Qed.

Example C07_ex_shapes : shape_ok true [WProv; WRow; WRow] = true /\ shape_ok true [WRow; WProv] = false /\
                         shape_ok false [WRow; WRow; WCursor] = true /\ shape_ok false [WCursor; WRow] = false /\
                         shape_ok false [WProv] = false.
Proof. repeat split; reflexivity. Qed.

(* never_ahead is not trivially true: a row that records a synced peer nobody created is ahead *)
Example C07_ex_ahead_detected :
  na_row (synced_side {| os_path := 1%N; os_kind := KFile 7%N; os_live := true; os_conf := false |}) no_side
         (Some {| o_now := {| os_path := 1%N; os_kind := KFile 7%N; os_live := true; os_conf := false |}; o_past := []; o_ev := 1 |})
         None false = false /\
  na_obj false {| o_now := {| os_path := 1%N; os_kind := KFile 7%N; os_live := true; os_conf := false |}; o_past := []; o_ev := 1 |} [] = false.
Proof. split; reflexivity. Qed.
