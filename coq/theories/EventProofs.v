(* EventProofs.v — the exact entry-level effect of StateModel.update for a non-folder event of an id-stable provider
   (update_held / update_fresh / update_spec), on top of the C11 index invariant IdxJ; the calculus of `wrote` (a run of writes
   to one side of one entry); ev_entry / upd_target / upd_base.  From AlgoState.v it takes the effect relation `eff` and the
   setter lemmas of the shape `exists s', setter = Ok s' /\ eff s s' e en' m /\ <what happens to the tape>`. *)
From Coq Require Import NArith List Bool Arith Lia.
From CS Require Import Sx Str PathModel PathLaws StateModel StateProofs StatePathProofs AlgoState EventModel.
Import ListNotations.

(* the two ways process_event deals with an event that carries no id *)
Lemma resolve_oid_none s sd ev :
  ev_oid ev = None ->
  (ev_ex ev <> Some false \/ ev_ot ev <> Some Dir \/ tstr (ev_path ev) = false \/ lookup_path_live s sd (ev_path ev) = []) ->
  resolve_oid s sd ev = None.
Proof.
  intros Ho H. unfold resolve_oid. rewrite Ho.
  destruct (ev_ex ev) as [[|]|]; try reflexivity.
  destruct (ev_ot ev) as [[| |]|]; try reflexivity.
  destruct (tstr (ev_path ev)); [|reflexivity].
  destruct H as [H|[H|[H|H]]]; try congruence. rewrite H. reflexivity.
Qed.
Lemma resolve_oid_by_path s sd ev e r x :
  ev_oid ev = None -> ev_ex ev = Some false -> ev_ot ev = Some Dir -> tstr (ev_path ev) = true ->
  lookup_path_live s sd (ev_path ev) = e :: r -> side_of s e sd = Some x ->
  resolve_oid s sd ev = s_oid x.
Proof. intros Ho Hex Hot Ht Hl Hx. unfold resolve_oid. rewrite Ho, Hex, Hot, Ht, Hl, Hx. reflexivity. Qed.

Definition cs_grow (s s' : state) (e : eid) : Prop :=
  forall e', (set_mem e' (cset s) = true -> set_mem e' (cset s') = true) /\
             (set_mem e' (cset s') = true -> e' = e \/ set_mem e' (cset s) = true).
Lemma cs_grow_eq s s' e : cset s' = cset s -> cs_grow s s' e.
Proof. intros H e'. rewrite H. split; auto. Qed.
Lemma cs_grow_trans s1 s2 s3 e : cs_grow s1 s2 e -> cs_grow s2 s3 e -> cs_grow s1 s3 e.
Proof.
  intros H1 H2 e'. destruct (H1 e') as [A B], (H2 e') as [C D]. split; [auto|].
  intros H. destruct (D H) as [->|H']; [left; reflexivity|apply B; exact H'].
Qed.

Lemma list_upd_length {T} (l : list T) n x : length (list_upd l n x) = length l.
Proof. exact (upd_at_length l n x). Qed.

Lemma cset_st_oids s sd v : cset (st_oids s sd v) = cset s.
Proof. destruct sd; reflexivity. Qed.
Lemma cset_slot_set s sd p o e : cset (slot_set s sd p o e) = cset s.
Proof. unfold slot_set. apply cset_st_paths. Qed.
Lemma cset_slot_pop s sd p k : cset (slot_pop s sd p k) = cset s.
Proof. exact (slot_pop_frame cset cset_st_paths s sd p k). Qed.
Lemma ents_cs_del s e : ents (cs_del s e) = ents s. Proof. reflexivity. Qed.
Lemma ents_st_tape s t : ents (st_tape s t) = ents s. Proof. reflexivity. Qed.
Lemma cset_st_tape s t : cset (st_tape s t) = cset s. Proof. reflexivity. Qed.
Lemma ents_st_lastch s t : ents (st_lastch s t) = ents s. Proof. reflexivity. Qed.
Lemma ents_put_ent s e x : ents (put_ent s e x) = list_upd (ents s) e x. Proof. reflexivity. Qed.
Lemma cset_put_ent s e x : cset (put_ent s e x) = cset s. Proof. reflexivity. Qed.
Lemma cset_cs_add s e : cset (cs_add s e) = set_add e (cset s). Proof. reflexivity. Qed.

Definition with_prio (en : entry) (v : N) : entry := mkEnt (e_l en) (e_r en) (e_ign en) v.

Lemma gs_with_prio en v sd : gs (with_prio en v) sd = gs en sd. Proof. destruct sd; reflexivity. Qed.
Lemma ign_with_prio en v : e_ign (with_prio en v) = e_ign en. Proof. reflexivity. Qed.
Lemma prio_with_prio en v : e_prio (with_prio en v) = v. Proof. reflexivity. Qed.
Lemma with_prio_same en : with_prio en (e_prio en) = en. Proof. destruct en; reflexivity. Qed.
Lemma gs_written en sd x p : gs (with_prio (ss en sd x) p) sd = x.
Proof. rewrite gs_with_prio. apply gs_ss_same. Qed.
Lemma ss_with_prio_twice en sd x p y q : with_prio (ss (with_prio (ss en sd x) p) sd y) q = with_prio (ss en sd y) q.
Proof. destruct en, sd; reflexivity. Qed.

(* a new id costs the swap that set([None, o]) pops from the tape *)
Lemma set_oid_fresh_tape E s e sd (o : str) en s' :
  nth_error (ents s) e = Some en -> s_oid (gs en sd) = None -> set_oid E s e sd (Some o) = Ok s' ->
  exists b r, tape s = TSwap b :: r.
Proof.
  intros Hn Ho H. unfold set_oid, run_cmd in H. rewrite fuel_of_S3, exec_oid_eq, (get_ent_nth _ _ _ Hn) in H. cbn [bind] in H.
  rewrite Ho in H. unfold oid_loop, pop_swap in H. cbn [ostr_eqb] in H. destruct (tape s) as [|[b|l] r]; try discriminate. eauto.
Qed.

(* Either the entry already carries o (re-indexing only), or it has no id and o is unknown (both orders of
   set([None, o]) do nothing before the id is written). *)
Lemma set_oid_eff E s e sd (o : str) en s' :
  IdxJ s -> nth_error (ents s) e = Some en ->
  (s_oid (gs en sd) = Some o \/ (s_oid (gs en sd) = None /\ al_get o (oids s sd) = None)) ->
  set_oid E s e sd (Some o) = Ok s' ->
  ents s' = list_upd (ents s) e (ss en sd (w_oid (gs en sd) (Some o))) /\
  forall e', e' <> e -> set_mem e' (cset s') = set_mem e' (cset s).
Proof.
  intros HJ Hn Hcase H. set (flagged := (tchg (s_chg (gs en sd)) || tchg (s_chg (gs en (negb sd))))%bool).
  assert (K: exists s'', set_oid E s e sd (Some o) = Ok s'' /\
               eff s s'' e (ss en sd (w_oid (gs en sd) (Some o))) (if flagged then Some true else None)).
  { destruct Hcase as [Ho|[Ho Ha]].
    - destruct (set_oid_same_eff E s e sd o en Hn Ho (IdxJ_holder _ _ _ _ _ HJ Hn Ho)) as (s'' & A & B).
      exists s''. rewrite (w_oid_same _ _ Ho), ss_gs. auto.
    - destruct (set_oid_fresh_tape _ _ _ _ _ _ _ Hn Ho H) as [b [r Ht]].
      destruct (set_oid_fresh_eff E s e sd o en b r Hn Ho Ha Ht) as (s'' & A & B). eauto. }
  destruct K as (s'' & A & B). rewrite H in A. injection A as <-. split; [exact (proj1 B)|].
  intros e' Hne. rewrite (proj1 (proj2 B)). destruct flagged; [rewrite (proj2 (Nat.eqb_neq _ _) Hne)|]; reflexivity.
Qed.

(* one unfolding of exec at CChg: the right-hand side is the text of StateModel.exec *)
Lemma exec_chg_eq E f fin e sd v s :
  exec E (S f) (CChg fin e sd v) s =
  (en <- get_ent s e ;;
   let x := gs en sd in
   let y := gs en (negb sd) in
   s1 <- (if (tchg v && tstr (s_oid x)) || (tchg (s_chg y) && tstr (s_oid y)) then Ok (cs_add s e)
          else
            let sa := cs_del s e in
            if tchg (s_chg y) && negb (tstr (s_oid y)) then
              if legacy E then exec E f (CChg true e (negb sd) (CNum 0%N)) sa
              else Ok (raw_side sa e (negb sd) (fun z => w_chg z (CNum 0%N)))
            else Ok sa) ;;
   let s2 := dirty_add s1 e in
   Ok (if fin then raw_side s2 e sd (fun z => w_chg z v) else s2)).
Proof. reflexivity. Qed.

Lemma tstr_some (o : str) : o <> [] -> tstr (Some o) = true.
Proof. destruct o; [contradiction|reflexivity]. Qed.

Lemma set_changed_truthy_eff E s e sd v s' en :
  nth_error (ents s) e = Some en -> tchg v = true -> tstr (s_oid (gs en sd)) = true ->
  set_changed E s e sd v = Ok s' ->
  ents s' = list_upd (ents s) e (ss en sd (w_chg (gs en sd) v)) /\ cset s' = set_add e (cset s).
Proof.
  intros Hn Hv Ho H. unfold set_changed, run_cmd in H. rewrite fuel_of_S3, exec_chg_eq, (get_ent_nth _ _ _ Hn) in H.
  cbn [bind] in H. cbv zeta in H. rewrite Hv, Ho in H. cbn [andb orb bind] in H. injection H as <-.
  rewrite ents_raw_side, cset_raw_side. cbn [ents cset dirty_add cs_add st_dirty st_cset]. rewrite Hn. split; reflexivity.
Qed.

(* SyncState.mark_changed: one stamp, and a second one if the first does not exceed the last stamp handed out.  For every
   E and both branches: AlgoState.mark_changed_eff needs legacy E = false and lastch s < now s + 1000 *)
Lemma mark_changed_entry E s e sd s' en :
  nth_error (ents s) e = Some en -> tstr (s_oid (gs en sd)) = true ->
  mark_changed E s e sd = Ok s' ->
  exists c, tchg c = true /\ ents s' = list_upd (ents s) e (ss en sd (w_chg (gs en sd) c)) /\
            (forall e', set_mem e' (cset s') = Nat.eqb e' e || set_mem e' (cset s)).
Proof.
  intros Hn Ho H. unfold mark_changed in H. set (t := (now s + 1000)%N) in *. bind_inv H s1 E0.
  assert (Ht: tchg (CNum t) = true) by (apply tchg_pos; unfold t; lia).
  destruct (set_changed_truthy_eff _ _ _ _ _ _ _ (Hn : nth_error (ents (st_now s t)) e = _) Ht Ho E0) as [He1 Hc1].
  cbn [ents cset st_now] in He1, Hc1. bind_inv H x E1.
  bind_inv H x0 E2. destruct (s_chg (gs x0 sd)); try discriminate. injection H as <-. cbn [ents cset st_lastch].
  destruct (N.leb t (lastch s1)).
  - assert (Hn1: nth_error (ents s1) e = Some (ss en sd (w_chg (gs en sd) (CNum t)))) by (rewrite He1; apply (nth_upd_at_same _ _ _ _ Hn)).
    assert (Ht2: tchg (CNum (lastch s1 + 1)) = true) by (apply tchg_pos; lia).
    assert (Ho1: tstr (s_oid (gs (ss en sd (w_chg (gs en sd) (CNum t))) sd)) = true) by (rewrite gs_ss_same; exact Ho).
    destruct (set_changed_truthy_eff _ _ _ _ _ _ _ Hn1 Ht2 Ho1 E1) as [He2 Hc2].
    exists (CNum (lastch s1 + 1)). split; [exact Ht2|]. split.
    + rewrite He2, He1, upd_at_twice, gs_ss_same, ss_ss. reflexivity.
    + intros e'. rewrite Hc2, Hc1, !set_mem_add. destruct (Nat.eqb e' e); reflexivity.
  - injection E1 as <-. exists (CNum t). split; [exact Ht|]. split; [exact He1|].
    intros e'. rewrite Hc1. apply set_mem_add.
Qed.

(* [wrote s e en sd x p s']: s' is s with side sd of entry e (which was en) replaced by x and its priority by p, nothing
   else (AlgoState.eff), and the index invariant holds of s'.  update_entry and get_latest_side are runs of such writes. *)
Definition wrote (s : state) (e : eid) (en : entry) (sd : bool) (x : sidest) (p : N) (s' : state) : Prop :=
  nth_error (ents s) e = Some en /\ IdxJ s' /\ eff s s' e (with_prio (ss en sd x) p) None.

Lemma wrote_start s e en sd : IdxJ s -> nth_error (ents s) e = Some en -> wrote s e en sd (gs en sd) (e_prio en) s.
Proof. intros HJ Hn. unfold wrote. rewrite ss_gs, with_prio_same. exact (conj Hn (conj HJ (eff_refl s e en Hn))). Qed.
Lemma wrote_ents {s e en sd x p s'} : wrote s e en sd x p s' -> ents s' = list_upd (ents s) e (with_prio (ss en sd x) p).
Proof. intros (_ & _ & H & _). exact H. Qed.
Lemma wrote_cset {s e en sd x p s'} : wrote s e en sd x p s' -> forall y, set_mem y (cset s') = set_mem y (cset s).
Proof. intros (_ & _ & _ & H & _). exact H. Qed.
Lemma wrote_idx {s e en sd x p s'} : wrote s e en sd x p s' -> IdxJ s'.
Proof. intros (_ & H & _). exact H. Qed.
Lemma wrote_nth {s e en sd x p s'} : wrote s e en sd x p s' -> nth_error (ents s') e = Some (with_prio (ss en sd x) p).
Proof. intros (Hn & _ & F). exact (eff_nth F Hn). Qed.
Lemma wrote_get {s e en sd x p s'} : wrote s e en sd x p s' -> get_ent s' e = Ok (with_prio (ss en sd x) p).
Proof. intros W. apply get_ent_nth, (wrote_nth W). Qed.

(* one more write, from a totality fact of the shape of AlgoState.set_plain_eff *)
Lemma wrote_step {s e en sd x p s1} {r : res state} {en'} {y q s2} :
  wrote s e en sd x p s1 -> (exists s', r = Ok s' /\ eff s1 s' e en' None) ->
  en' = with_prio (ss en sd y) q -> r = Ok s2 -> wrote s e en sd y q s2.
Proof.
  intros (Hn & HJ & F) (s' & A & F') -> H. rewrite H in A. injection A as <-.
  exact (conj Hn (conj (proj2 (proj2 (proj2 (proj2 F'))) HJ) (eff_trans F F'))).
Qed.

Lemma wrote_plain {s e en sd x p s1 f s2} :
  wrote s e en sd x p s1 -> keeps_key f -> set_plain s1 e sd f = Ok s2 -> wrote s e en sd (f x) p s2.
Proof.
  intros W Hf. apply (wrote_step W (set_plain_eff s1 e sd f _ (wrote_nth W) Hf)).
  rewrite gs_written. destruct en, sd; reflexivity.
Qed.
(* the guarded form `if field already has the value then nothing else write` *)
Lemma wrote_unless {b : bool} {s e en sd x p s1 f s2} :
  wrote s e en sd x p s1 -> keeps_key f -> (b = true -> f x = x) ->
  (if b then Ok s1 else set_plain s1 e sd f) = Ok s2 -> wrote s e en sd (f x) p s2.
Proof.
  intros W Hf Hb H. destruct b; [injection H as <-; rewrite (Hb eq_refl); exact W|exact (wrote_plain W Hf H)].
Qed.
Lemma wrote_path {E s e en sd x p s1 v} {o : str} {s2} :
  wrote s e en sd x p s1 -> s_otype x <> Dir -> s_oid x = Some o -> o <> [] ->
  set_path E s1 e sd v = Ok s2 ->
  wrote s e en sd (w_path x v) (if tstr v && negb (ostr_eqb (s_path x) v) then 0%N else p) s2.
Proof.
  intros W Hot Ho Hne. rewrite <- (gs_written en sd x p) in Hot, Ho.
  destruct (AlgoState.set_path_file_eff E s1 e sd v _ o (wrote_idx W) (wrote_nth W) Hot Ho (tstr_some _ Hne)) as (s' & A & F' & _).
  apply (wrote_step W (ex_intro _ s' (conj A F'))).
  rewrite gs_written. destruct en, sd; reflexivity.
Qed.

(* ev_entry en sd ot o np h ex c: what one non-folder event (otype ot, id o, normalised path np, hash h, exists ex) makes
   of entry en.  Side sd is rewritten (ev_side: None fields keep the stored value; TRASHED + exists=True gives
   LIKELY_TRASHED, ex_rule; c is the stamp mark_changed hands out), the priority is reset when the path changes (ev_prio). *)
Definition ex_rule (old : exst) (ex : option bool) : exst :=
  match old, ex with ExTrashed, Some true => ExLikely | _, _ => ex_of ex end.
Definition ev_side (x : sidest) (ot : otype) (o : str) (np : option str) (h : option N) (ex : option bool) (c : chg) : sidest :=
  mkSide ot (Some o) (match np with Some p => Some p | None => s_path x end)
         (match h with Some _ => h | None => s_hash x end) (s_spath x) (s_shash x) (ex_rule (s_ex x) ex) c (s_force x).
Definition ev_prio (x : sidest) (np : option str) (prio : N) : N :=
  match np with
  | Some p => if tstr (Some p) && negb (ostr_eqb (s_path x) (Some p)) then 0%N else prio
  | None => prio
  end.
Definition ev_entry (en : entry) (sd : bool) (ot : otype) (o : str) (np : option str) (h : option N) (ex : option bool) (c : chg) : entry :=
  with_prio (ss en sd (ev_side (gs en sd) ot o np h ex c)) (ev_prio (gs en sd) np (e_prio en)).

Lemma gs_ev_entry en sd ot (o : str) np h ex c : gs (ev_entry en sd ot o np h ex c) sd = ev_side (gs en sd) ot o np h ex c.
Proof. apply gs_written. Qed.
Lemma gs_ev_entry_other en sd ot (o : str) np h ex c : gs (ev_entry en sd ot o np h ex c) (negb sd) = gs en (negb sd).
Proof. unfold ev_entry. rewrite gs_with_prio. apply gs_ss_other. Qed.
Lemma ign_ev_entry en sd ot (o : str) np h ex c : e_ign (ev_entry en sd ot o np h ex c) = e_ign en.
Proof. apply ign_ss. Qed.
Lemma ev_entry_oid en sd ot (o : str) np h ex c : s_oid (gs (ev_entry en sd ot o np h ex c) sd) = Some o.
Proof. rewrite gs_ev_entry. reflexivity. Qed.
Lemma ev_entry_chg en sd ot (o : str) np h ex c : s_chg (gs (ev_entry en sd ot o np h ex c) sd) = c.
Proof. rewrite gs_ev_entry. reflexivity. Qed.

(* update_entry = the id, then guarded writes of otype, path, hash and exists to the event's side, then mark_changed *)
Lemma update_entry_spec E s e sd (o : str) path h ex ot en s1 :
  IdxJ s -> oip E sd = false -> ot <> Dir -> o <> [] -> nth_error (ents s) e = Some en ->
  (s_oid (gs en sd) = Some o \/ (s_oid (gs en sd) = None /\ al_get o (oids s sd) = None)) ->
  update_entry E s e sd (Some o) path h ex true (Some ot) = Ok s1 ->
  exists c, tchg c = true /\
    ents s1 = list_upd (ents s) e (ev_entry en sd ot o (omap (nps (cvs E sd)) path) h ex c) /\
    (forall e', set_mem e' (cset s1) = Nat.eqb e' e || set_mem e' (cset s)) /\ IdxJ s1.
Proof.
  intros HJ Hoip Hot Hne Hn Hcase H. unfold update_entry in H.
  rewrite (get_ent_nth _ _ _ Hn) in H. cbn [bind] in H. rewrite Hoip, andb_false_r in H. cbn [andb] in H.
  destruct (set_oid E s e sd (Some o)) as [sa|] eqn:Ea; cbn [bind] in H; [|discriminate].
  destruct (set_oid_eff _ _ _ _ _ _ _ HJ Hn Hcase Ea) as [Hea Hca].
  set (x0 := gs en sd) in *. set (ena := ss en sd (w_oid x0 (Some o))) in *.
  assert (Hna: nth_error (ents sa) e = Some ena) by (rewrite Hea; apply (nth_upd_at_same _ _ _ _ Hn)).
  pose proof (wrote_start sa e ena sd (set_oid_pres _ _ _ _ _ _ HJ Ea) Hna) as W.
  rewrite (get_ent_nth _ _ _ Hna) in H. cbn [bind] in H. unfold ena in W, H at 1. rewrite gs_ss_same in W, H. fold ena in W.
  bind_inv H sb Wb. apply (wrote_unless W) in Wb;
    [|apply keeps_w_otype|intros Eo; apply w_otype_same; symmetry; apply otype_eqb_eq, Eo].
  clear W. set (x1 := w_otype (w_oid x0 (Some o)) ot) in *.
  destruct (match ot with NotKnown => match ex with Some true => true | _ => false end | _ => false end); [discriminate|].
  set (np := omap (nps (cvs E sd)) path). set (pr := ev_prio x1 np (e_prio ena)).
  bind_inv H sc E0.
  assert (Wc: wrote sa e ena sd (match np with Some q => w_path x1 (Some q) | None => x1 end) pr sc).
  { unfold pr, np. destruct path as [q|]; cbn [omap ev_prio]; [|injection E0 as <-; exact Wb].
    rewrite (wrote_get Wb) in E0. cbn [bind] in E0. rewrite gs_written in E0.
    destruct (ostr_eqb (Some (nps (cvs E sd) q)) (s_path x1)) eqn:Ep.
    - injection E0 as <-. apply ostr_eqb_eq in Ep. rewrite (w_path_same _ _ (eq_sym Ep)), <- Ep, ostr_eqb_refl, andb_false_r. exact Wb.
    - exact (wrote_path (o := o) Wb Hot eq_refl Hne E0). }
  clear Wb E0. set (x3 := match np with Some q => w_path x1 (Some q) | None => x1 end) in *.
  rewrite (wrote_get Wc) in H. cbn [bind] in H. rewrite gs_written in H.
  bind_inv H s_h E0.
  assert (Wd: wrote sa e ena sd (match h with Some _ => w_hash x3 h | None => x3 end) pr s_h).
  { destruct h as [hv|]; [|injection E0 as <-; exact Wc].
    apply (wrote_unless Wc) in E0; [exact E0|apply keeps_w_hash|].
    intros Eh. apply w_hash_same. symmetry. apply oN_eqb_eq, Eh. }
  clear Wc E0. set (x4 := match h with Some _ => w_hash x3 h | None => x3 end) in *.
  bind_inv H se E0.
  assert (We: wrote sa e ena sd (w_ex x4 (ex_rule (s_ex x3) ex)) pr se).
  { rewrite set_ex_plain in E0. exact (wrote_plain Wd (keeps_w_ex _) E0). }
  clear Wd E0. set (x5 := w_ex x4 (ex_rule (s_ex x3) ex)) in *.
  rewrite (wrote_get We) in H. cbn [bind] in H. rewrite gs_written in H.
  assert (Ho5: tstr (s_oid x5) = true) by (unfold x5, x4, x3; destruct h, np; exact (tstr_some _ Hne)).
  rewrite Ho5, orb_true_r in H. rewrite <- (gs_written ena sd x5 pr) in Ho5.
  destruct (mark_changed_entry _ _ _ _ _ _ (wrote_nth We) Ho5 H) as [c [Hc [He Hm]]].
  exists c. split; [exact Hc|]. split; [|split; [|exact (mark_changed_pres _ _ _ _ _ (wrote_idx We) H)]].
  - rewrite He, (wrote_ents We), Hea, !upd_at_twice, gs_written. change (@upd_at entry) with (@list_upd entry). f_equal.
    transitivity (with_prio (ss en sd (w_chg x5 c)) pr); [destruct en, sd; reflexivity|].
    unfold ev_entry. fold x0. f_equal; [f_equal|unfold pr, ena; rewrite prio_ss; reflexivity].
    unfold x5, x4, x3, x1, ev_side. destruct h, np; reflexivity.
  - intros e'. rewrite Hm, (wrote_cset We). destruct (Nat.eqb_spec e' e) as [->|Hne']; [reflexivity|exact (Hca e' Hne')].
Qed.

(* upd_target: the entry an event for id o lands on: the holder of o, else a fresh serial.  upd_base: the entry list it is
   written into: ents s, with new_entry ot appended when o is unknown *)
Definition upd_target (s : state) (sd : bool) (o : str) : eid :=
  match al_get o (oids s sd) with Some e => e | None => length (ents s) end.
Definition upd_base (s : state) (sd : bool) (o : str) (ot : otype) : list entry :=
  match al_get o (oids s sd) with Some _ => ents s | None => ents s ++ [new_entry ot] end.
Lemma upd_known s sd (o : str) ot e : al_get o (oids s sd) = Some e -> upd_target s sd o = e /\ upd_base s sd o ot = ents s.
Proof. unfold upd_target, upd_base. intros ->. split; reflexivity. Qed.
Lemma upd_unknown s sd (o : str) ot : al_get o (oids s sd) = None ->
  upd_target s sd o = length (ents s) /\ upd_base s sd o ot = ents s ++ [new_entry ot].
Proof. unfold upd_target, upd_base. intros ->. split; reflexivity. Qed.
Lemma nth_base_other s sd (o : str) ot e' : e' <> upd_target s sd o ->
  nth_error (upd_base s sd o ot) e' = nth_error (ents s) e'.
Proof.
  destruct (al_get o (oids s sd)) as [e|] eqn:Ea.
  - destruct (upd_known s sd o ot e Ea) as [_ ->]. reflexivity.
  - destruct (upd_unknown s sd o ot Ea) as [-> ->]. intros Hne. rewrite nth_error_snoc.
    destruct (Nat.eqb_spec e' (length (ents s))); [contradiction|reflexivity].
Qed.

Lemma update_held E s sd ot (o : str) path h ex s1 e en :
  IdxJ s -> oip E sd = false -> ot <> Dir -> o <> [] -> nth_error (ents s) e = Some en -> s_oid (gs en sd) = Some o ->
  update E s sd (Some ot) (Some o) path h ex None = Ok s1 ->
  exists c, tchg c = true /\ ents s1 = list_upd (ents s) e (ev_entry en sd ot o (omap (nps (cvs E sd)) path) h ex c) /\
    (forall e', set_mem e' (cset s1) = Nat.eqb e' e || set_mem e' (cset s)) /\ IdxJ s1.
Proof.
  intros HJ Hoip Hot Hne Hn Ho H. rewrite update_no_prior, (IdxJ_holder _ _ _ _ _ HJ Hn Ho) in H.
  exact (update_entry_spec _ _ _ _ _ _ _ _ _ en _ (IdxJ_st_now _ _ HJ) Hoip Hot Hne Hn (or_introl Ho) H).
Qed.

Lemma update_fresh E s sd ot (o : str) path h ex s1 :
  IdxJ s -> oip E sd = false -> ot <> Dir -> o <> [] -> al_get o (oids s sd) = None ->
  update E s sd (Some ot) (Some o) path h ex None = Ok s1 ->
  exists c, tchg c = true /\
    ents s1 = ents s ++ [ev_entry (new_entry ot) sd ot o (omap (nps (cvs E sd)) path) h ex c] /\
    (forall e', set_mem e' (cset s1) = Nat.eqb e' (length (ents s)) || set_mem e' (cset s)) /\ IdxJ s1.
Proof.
  intros HJ Hoip Hot Hne Ha H. rewrite update_no_prior, Ha in H.
  set (s2 := st_ents s (ents s ++ [new_entry ot])) in *.
  assert (Hen: nth_error (ents (st_now s2 (now s + 1000))) (length (ents s)) = Some (new_entry ot)).
  { cbn [ents st_now s2 st_ents]. rewrite nth_error_app2, Nat.sub_diag by lia. reflexivity. }
  assert (Hno: s_oid (gs (new_entry ot) sd) = None /\ al_get o (oids (st_now s2 (now s + 1000)) sd) = None).
  { split; destruct sd; [reflexivity|reflexivity|exact Ha|exact Ha]. }
  destruct (update_entry_spec _ _ _ _ _ _ _ _ _ _ _ (IdxJ_st_now s2 _ (add_entry_pres s ot HJ)) Hoip Hot Hne Hen (or_intror Hno) H) as [c [A [B C]]].
  exists c. split; [exact A|]. split; [rewrite B; apply upd_at_app|exact C].
Qed.

Lemma update_spec E s sd ot (o : str) path h ex s1 :
  IdxJ s -> oip E sd = false -> ot <> Dir -> o <> [] ->
  update E s sd (Some ot) (Some o) path h ex None = Ok s1 ->
  exists en c, nth_error (upd_base s sd o ot) (upd_target s sd o) = Some en /\ tchg c = true /\
    (al_get o (oids s sd) = None -> en = new_entry ot) /\
    (al_get o (oids s sd) <> None -> s_oid (gs en sd) = Some o) /\
    ents s1 = list_upd (upd_base s sd o ot) (upd_target s sd o) (ev_entry en sd ot o (omap (nps (cvs E sd)) path) h ex c) /\
    (forall e', set_mem e' (cset s1) = Nat.eqb e' (upd_target s sd o) || set_mem e' (cset s)) /\ IdxJ s1.
Proof.
  intros HJ Hoip Hot Hne H. destruct (al_get o (oids s sd)) as [e|] eqn:Ea.
  - destruct (upd_known s sd o ot e Ea) as [-> ->]. destruct (idx_lookup _ _ _ _ HJ Ea) as [en [Hen Hos]].
    destruct (update_held _ _ _ _ _ _ _ _ _ _ _ HJ Hoip Hot Hne Hen Hos H) as [c [A B]].
    exists en, c. split; [exact Hen|]. split; [exact A|]. split; [discriminate|]. split; [intros _; exact Hos|exact B].
  - destruct (upd_unknown s sd o ot Ea) as [-> ->]. destruct (update_fresh _ _ _ _ _ _ _ _ _ HJ Hoip Hot Hne Ea H) as [c [A [B C]]].
    exists (new_entry ot), c. split; [rewrite nth_error_snoc, Nat.eqb_refl; reflexivity|].
    split; [exact A|]. split; [reflexivity|]. split; [intros Hc; contradiction|].
    split; [rewrite upd_at_app; exact B|exact C].
Qed.
