(* EventRefute.v — a decidable check of the index invariant (for concrete witnesses) and the full-strength C14 statements that
   are FALSE of the faithful model, each with its witness; PropC14 refutes them there.  Last, [delete_synced_target], which the
   statement of PropC14.C14_vanished_event_harmless reads. *)
From Coq Require Import NArith List Bool Arith Lia.
From CS Require Import Sx Str PathModel PathLaws StateModel StateProofs StatePathProofs EventModel EventProofs EventLaws EventCommute EventStamps.
Import ListNotations.

(* chk_found, chk_oids, chk_slots: the three clauses of StateProofs.IdxJ (idx_found, and the two halves of idx_slots) *)
Definition ostr_is (a : option str) (b : str) : bool := match a with Some x => str_eqb x b | None => false end.
Definition chk_found_side (s : state) (e : eid) (sd : bool) (x : sidest) : bool :=
  match s_oid x with
  | None => true
  | Some o =>
    (match al_get o (oids s sd) with Some e' => Nat.eqb e' e | None => false end) &&
    (match s_path x with
     | Some p => match p with [] => true | _ => match slot_get s sd p o with Some e' => Nat.eqb e' e | None => false end end
     | None => true
     end)
  end.
Fixpoint chk_found (s : state) (l : list entry) (e : eid) : bool :=
  match l with
  | [] => true
  | en :: r => chk_found_side s e false (e_l en) && chk_found_side s e true (e_r en) && chk_found s r (S e)
  end.
Definition chk_oids (s : state) (sd : bool) : bool :=
  forallb (fun k => match al_get k (oids s sd) with
                    | Some e => ostr_is (oid_of s e sd) k
                    | None => true end) (map fst (oids s sd)).
Definition chk_slots (s : state) (sd : bool) : bool :=
  forallb (fun pd =>
    forallb (fun k => match slot_get s sd (fst pd) k with
                      | Some e => ostr_is (oid_of s e sd) k && ostr_is (path_of s e sd) (fst pd) && nonempty (fst pd)
                      | None => true end) (map fst (snd pd))) (paths s sd).
Definition idxj_check (s : state) : bool :=
  chk_found s (ents s) 0 && chk_oids s false && chk_oids s true && chk_slots s false && chk_slots s true.

Lemma al_get_In {V} k (l : list (str * V)) v : al_get k l = Some v -> In (k, v) l.
Proof.
  induction l as [|[k0 v0] l IH]; simpl; [discriminate|].
  destruct (str_eqb_spec k k0) as [->|_]; intros H; [injection H as <-; left; reflexivity|right; exact (IH H)].
Qed.
Lemma chk_found_sound s : forall l e0, chk_found s l e0 = true ->
  forall k en sd, nth_error l k = Some en -> chk_found_side s (e0 + k) sd (gs en sd) = true.
Proof.
  induction l as [|a l IH]; intros e0 H k en sd Hn; [destruct k; discriminate|].
  simpl in H. apply andb_prop in H as [H H3]. apply andb_prop in H as [H1 H2].
  destruct k as [|k]; simpl in Hn.
  - injection Hn as <-. rewrite Nat.add_0_r. destruct sd; assumption.
  - rewrite <- plus_n_Sm. apply (IH (S e0) H3 _ _ _ Hn).
Qed.

Lemma idxj_check_sound s : idxj_check s = true -> IdxJ s.
Proof.
  unfold idxj_check. intros H. repeat rewrite andb_true_iff in H. destruct H as [[[[H1 H2] H3] H4] H5].
  split; [|split].
  - intros e sd o Ho. unfold oid_of in Ho. destruct (nth_error (ents s) e) as [en|] eqn:En; [|discriminate].
    pose proof (chk_found_sound s _ 0 H1 e en sd En) as C. simpl in C.
    unfold chk_found_side in C. rewrite Ho in C. apply andb_prop in C as [C1 C2].
    split.
    + destruct (al_get o (oids s sd)) as [e'|]; [|discriminate]. apply Nat.eqb_eq in C1. congruence.
    + intros p Hp Hpn. unfold path_of in Hp. rewrite En in Hp. rewrite Hp in C2.
      destruct p as [|c p]; [contradiction|].
      destruct (slot_get s sd (c :: p) o) as [e'|]; [|discriminate]. apply Nat.eqb_eq in C2. congruence.
  - intros sd o e Ha.
    assert (Hc: chk_oids s sd = true) by (destruct sd; assumption).
    unfold chk_oids in Hc. rewrite forallb_forall in Hc.
    specialize (Hc o (in_map fst _ _ (al_get_In _ _ _ Ha))). rewrite Ha in Hc. apply ostr_eqb_eq. exact Hc.
  - intros sd p o e Hs.
    assert (Hc: chk_slots s sd = true) by (destruct sd; assumption).
    unfold chk_slots in Hc. rewrite forallb_forall in Hc.
    unfold slot_get in Hs. destruct (al_get p (paths s sd)) as [d|] eqn:Ed; [|discriminate].
    specialize (Hc _ (al_get_In _ _ _ Ed)). cbn [fst snd] in Hc. rewrite forallb_forall in Hc.
    specialize (Hc o (in_map fst _ _ (al_get_In _ _ _ Hs))).
    unfold slot_get in Hc. rewrite Ed, Hs in Hc. apply andb_prop in Hc as [Hc Hn]. apply andb_prop in Hc as [Ha Hb].
    split; [apply ostr_eqb_eq; exact Ha|]. split; [apply ostr_eqb_eq; exact Hb|]. destruct p; discriminate.
Qed.

(* the state of a run that is known to succeed (witness construction only); init_state on error *)
Definition ok (r : res state) : state := match r with Ok s => s | Err _ => init_state end.
Definition w_pax : str := [47;97;47;120]%N.   (* "/a/x" *)
Definition w_pay : str := [47;97;47;121]%N.   (* "/a/y" *)
(* E_id with path-style ids (E_id and the other w_* strings are the C11 witnesses of StateProofs.v) *)
Definition E_path : env := mkEnv (fun _ => true) (fun _ => mk_conv true) (fun _ => 1000%N) (fun _ p => Some p) false.

(* Each statement comes with its witness; PropC14 applies the statement to it: the premises and the failure of the
   conclusion are facts about closed terms, settled by evaluation. *)

(* the same event twice = once, at full strength (no condition on the stored `exists`) *)
Definition update_idempotent_full : Prop :=
  forall E s sd ot (o : str) path h ex t1 t2 s1 s2,
  IdxJ s -> oip E sd = false -> ot <> Dir -> o <> [] ->
  update E (st_tape s t1) sd (Some ot) (Some o) path h ex None = Ok s1 ->
  update E (st_tape s1 t2) sd (Some ot) (Some o) path h ex None = Ok s2 -> eqv s1 s2.
(* a deletion event, then the (late) creation event twice: LIKELY_TRASHED after one copy, EXISTS after two *)
Definition k1_s0 := ok (update E_id (st_tape init_state [TSwap false]) false (Some File) (Some w_o1) (Some w_pbx) None (Some false) None).
Definition k1_ev (s : state) := update E_id (st_tape s []) false (Some File) (Some w_o1) (Some w_pbx) None (Some true) None.
Lemma k1_J : IdxJ k1_s0. Proof. apply idxj_check_sound. vm_compute. reflexivity. Qed.
(* commutation at full strength (folder events included) *)
Definition events_commute_full : Prop :=
  forall E s sd otA (oA : str) pA hA exA otB (oB : str) pB hB exB tA tB tA' tB' sA sAB sB sBA,
  IdxJ s -> oip E sd = false -> oA <> [] -> oB <> [] -> oA <> oB ->
  update E (st_tape s tA) sd (Some otA) (Some oA) pA hA exA None = Ok sA ->
  update E (st_tape sA tB) sd (Some otB) (Some oB) pB hB exB None = Ok sAB ->
  update E (st_tape s tB') sd (Some otB) (Some oB) pB hB exB None = Ok sB ->
  update E (st_tape sB tA') sd (Some otA) (Some oA) pA hA exA None = Ok sBA ->
  eqv_obs sAB sBA.
(* o1 at /a (stored as a file: event A is what makes it a folder) and o2 at /a/x; A = folder event "o1 is at /b",
   B = stale event "o2 is at /a/y":
   A then B leaves the child at /a/y, B then A re-files it under /b/y *)
Definition k2_s := ok (update E_id (st_tape (ok (update E_id (st_tape init_state [TSwap false]) false (Some File) (Some w_o1) (Some w_pa) None (Some true) None)) [TSwap false])
                               false (Some File) (Some w_o2) (Some w_pax) None (Some true) None).
Definition k2_A (s : state) := update E_id (st_tape s [TOrder [0; 1]]) false (Some Dir) (Some w_o1) (Some w_pb) None (Some true) None.
Definition k2_B (s : state) := update E_id (st_tape s []) false (Some File) (Some w_o2) (Some w_pay) None (Some true) None.
Lemma k2_J : IdxJ k2_s. Proof. apply idxj_check_sound. vm_compute. reflexivity. Qed.
Lemma orel_lpath a b : orel a b ->
  option_map (fun xm : entry * bool => s_path (e_l (fst xm))) a = option_map (fun xm : entry * bool => s_path (e_l (fst xm))) b.
Proof.
  destruct a as [[x m]|], b as [[y n]|]; simpl; intros H; try contradiction; [|reflexivity].
  destruct H as [A _]. unfold abs_entry, abs_side in A. inversion A. reflexivity.
Qed.
(* the re-read makes the outcome independent of the payload, priority included *)
Definition same_oid_any_delivery_full : Prop :=
  forall E s sd (o : str) ev1 l1 ev2 l2 s1 s2 i s1' s2',
  IdxJ s -> oip E sd = false -> o <> [] -> i_ot i <> Dir ->
  Forall (fun ev => fe_ot ev <> Dir) (ev1 :: l1) -> Forall (fun ev => fe_ot ev <> Dir) (ev2 :: l2) ->
  (al_get o (oids s sd) = None -> fe_ot ev1 = fe_ot ev2) ->
  run_events E s sd o (ev1 :: l1) = Ok s1 -> run_events E s sd o (ev2 :: l2) = Ok s2 ->
  get_latest_side E s1 (upd_target s sd o) sd (Some i) = Ok s1' ->
  get_latest_side E s2 (upd_target s sd o) sd (Some i) = Ok s2' ->
  eqv s1' s2'.
(* an entry that was punted twice (priority 2); the event with a stale path resets the punt count, the one without keeps it *)
Definition k3_s := ok (set_priority E_id (ok (update E_id (st_tape init_state [TSwap false]) false (Some File) (Some w_o1) (Some w_pa) (Some 1%N) (Some true) None)) 0 2%N).
Definition k3_e1 := mkFe File None None (Some true) [].
Definition k3_e2 := mkFe File (Some w_pb) None (Some true) [].
Definition k3_i := mkInfo File (Some 1%N) w_pa None.
(* one event for w_o1 on the local side, then the re-read of entry 0 *)
Definition after_event (s : state) (ev : fevent) : state := ok (run_events E_id s false w_o1 [ev]).
Definition reread (s : state) (info : option pinfo) : state := ok (get_latest_side E_id s 0 false info).
Lemma k3_J : IdxJ k3_s. Proof. apply idxj_check_sound. vm_compute. reflexivity. Qed.
(* the entry the two deliveries of K3 are about *)
Lemma k3_T : upd_target k3_s false w_o1 = 0. Proof. vm_compute. reflexivity. Qed.
(* an object that has vanished: the re-read fixes `exists` (C14_vanished_exists_trashed), but hash and path stay what the
   last event said, and SyncEntry.hash_conflict reads them (same body as AlgoModel.hash_conflict) *)
Definition hash_conflict (en : entry) : bool :=
  thash (s_hash (e_l en)) && thash (s_hash (e_r en)) && tstr (s_path (e_l en)) && tstr (s_path (e_r en)) &&
  negb (oN_eqb (s_hash (e_l en)) (s_shash (e_l en))) && negb (oN_eqb (s_hash (e_r en)) (s_shash (e_r en))).
Definition vanished_decision_full : Prop :=
  forall E s sd (o : str) ev1 l1 ev2 l2 s1 s2 s1' s2',
  IdxJ s -> oip E sd = false -> o <> [] ->
  Forall (fun ev => fe_ot ev <> Dir) (ev1 :: l1) -> Forall (fun ev => fe_ot ev <> Dir) (ev2 :: l2) ->
  (al_get o (oids s sd) = None -> fe_ot ev1 = fe_ot ev2) ->
  run_events E s sd o (ev1 :: l1) = Ok s1 -> run_events E s sd o (ev2 :: l2) = Ok s2 ->
  get_latest_side E s1 (upd_target s sd o) sd None = Ok s1' ->
  get_latest_side E s2 (upd_target s sd o) sd None = Ok s2' ->
  map hash_conflict (ents s1') = map hash_conflict (ents s2').
(* a synced pair (hash 1 on both sides), the peer then edited (hash 2, flagged); the local object is deleted.
   Delivery 1: the deletion event.  Delivery 2: a stale modification event carrying hash 3. *)
Definition w_r1 : str := [114;49]%N.   (* "r1" *)
Definition k4_s :=
  let s0 := ok (update E_id (st_tape init_state [TSwap false]) false (Some File) (Some w_o1) (Some w_pa) (Some 1%N) (Some true) None) in
  let s1 := ok (set_oid E_id (st_tape s0 [TSwap false]) 0 true (Some w_r1)) in
  let s2 := ok (set_path E_id s1 0 true (Some w_pa)) in
  let s3 := ok (set_plain s2 0 true (fun y => w_hash y (Some 2%N))) in
  let s4 := ok (set_plain s3 0 true (fun y => w_shash y (Some 1%N))) in
  let s5 := ok (set_plain s4 0 false (fun y => w_shash y (Some 1%N))) in
  let s6 := ok (set_plain s5 0 true (fun y => w_ex y ExExists)) in
  st_tape (ok (set_changed E_id s6 0 true (CNum 5000%N))) [].
Definition k4_e1 := mkFe File None None (Some false) [].
Definition k4_e2 := mkFe File None (Some 3%N) (Some true) [].
Lemma k4_J : IdxJ k4_s. Proof. apply idxj_check_sound. vm_compute. reflexivity. Qed.
(* an event always forces a re-read - false once priority punts have pushed a change stamp, and with it _last_gotten,
   ahead of the last stamp handed out (lastch).  Witness: one event, three punts (priority 1, 2, 3), a re-read that
   records the pushed stamp in _last_gotten; the next event is stamped below it. *)
Definition event_forces_reread_full : Prop :=
  forall E es sd ot (o : str) path h ex s1,
  oip E sd = false -> update E (st es) sd ot (Some o) path h ex None = Ok s1 ->
  forall sd', is_latest_side (mkES s1 (g_pad (gotten es) (length (ents s1)))) (upd_target (st es) sd o) sd' = false.
Definition okE (r : res (outcome * estate)) : estate := match r with Ok (_, es) => es | Err _ => init_estate end.
Definition k5_ev := mkEv (Some File) (Some w_o1) None None (Some true) None false.
Definition k5_es :=
  let nr := fun _ : bool => @None (str * str) in
  let e1 := okE (estep E_id nr init_estate (EEvent false k5_ev false None, [TSwap false])) in
  let e2 := okE (estep E_id nr e1 (EState (OPrio 0 1%N), [])) in
  let e3 := okE (estep E_id nr e2 (EState (OPrio 0 2%N), [])) in
  let e4 := okE (estep E_id nr e3 (EState (OPrio 0 3%N), [])) in
  okE (estep E_id nr e4 (ELatest 0 false [false; true] (Some (mkInfo File (Some 1%N) w_pa None)) None, [])).
Definition k5_s1 := ok (update E_id (st k5_es) false (Some File) (Some w_o1) None None (Some true) None).
(* a re-delivered event does not make the state forget an id - false for path-style ids *)
Definition late_duplicate_keeps_ids_full : Prop :=
  forall E s sd ot (o : str) path h ex prior t s1,
  IdxJ s -> o <> [] -> lookup_oid s sd (Some o) <> None ->
  update E (st_tape s t) sd (Some ot) (Some o) path h ex prior = Ok s1 ->
  forall o' : str, lookup_oid s1 sd (Some o') = None <-> lookup_oid s sd (Some o') = None.
(* create /a; rename /a -> /b; create /a again (all unsynced); then the rename event once more: the entry of the
   new /a is taken for the renamed object, /a is known to nobody any more *)
Definition k6_s :=
  let s1 := ok (update E_path (st_tape init_state [TSwap false]) false (Some File) (Some w_pa) (Some w_pa) None (Some true) None) in
  let s2 := ok (update E_path (st_tape s1 [TSwap false]) false (Some File) (Some w_pb) (Some w_pb) None (Some true) (Some w_pa)) in
  st_tape (ok (update E_path (st_tape s2 [TSwap false]) false (Some File) (Some w_pa) (Some w_pa) None (Some true) None)) [].
Definition k6_s1 := ok (update E_path (st_tape k6_s [TSwap false; TSwap false]) false (Some File) (Some w_pb) (Some w_pb) None (Some true) (Some w_pa)).
Lemma k6_J : IdxJ k6_s. Proof. apply idxj_check_sound. vm_compute. reflexivity. Qed.
(* what SyncManager.delete_synced would act on: the id on the other side of the changed one, if it is set (`sync[synced].oid`) *)
Definition delete_synced_target (en : entry) (changed : bool) : option str :=
  if tstr (s_oid (gs en (negb changed))) then s_oid (gs en (negb changed)) else None.
