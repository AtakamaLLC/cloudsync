(* FaultSched.v — a permanently failing entry does not stop the others (FaultModel part (c)).
   The scheduler is SchedModel's (C17): pick_sorted + punt.  A failing entry is punted every time it is picked
   (priority + 1), a good entry leaves the change set when it is picked.  For every table, every set of failing
   entries and every sequence of thresholds (clock readings): a good entry that stays eligible is picked within
   budget + 1 calls of change(), where budget counts, for every other entry, how often it can be picked first. *)
From Coq Require Import QArith Qround ZArith List Bool Lia Lqa Arith.
From CS Require Import Sx SchedModel SchedProofs FaultModel.
Import ListNotations.
Open Scope Q_scope.

Lemma set_changed_total s v e : exists e', set_changed s v e = Ok e'.
Proof. unfold set_changed. destruct (_ || _); [eauto|]. destruct (_ && _); eauto. Qed.
Lemma shift_total c s e : exists e', shift c s e = Ok e'.
Proof. unfold shift. destruct (truthy (ch s e)); [apply set_changed_total|eauto]. Qed.
Lemma punt_total c e : exists e', punt c e = Ok e'.
Proof.
  unfold punt, set_priority. destruct (Qeq_bool (pri e) _); [eauto|]. destruct (_ && _); [|eauto].
  destruct (shift_total c SL e) as [e1 ->]. destruct (shift_total c SR e1) as [e2 S2]. simpl. rewrite S2. simpl. eauto.
Qed.

Lemma Qfloor_unique x z : inject_Z z <= x -> x < inject_Z (z + 1) -> Qfloor x = z.
Proof.
  intros Hl Hu. apply Z.le_antisymm.
  - apply Z.lt_succ_r. unfold Z.succ. rewrite Zlt_Qlt. pose proof (Qfloor_le x). lra.
  - rewrite <- (Qfloor_Z z). apply Qfloor_resp_le. exact Hl.
Qed.
Lemma Qfloor_minus_1 x : Qfloor (x - 1) = (Qfloor x - 1)%Z.
Proof.
  apply Qfloor_unique.
  - pose proof (Qfloor_le x). replace (Qfloor x - 1)%Z with (Qfloor x + (-1))%Z by lia.
    rewrite inject_Z_plus. change (inject_Z (-1)) with (-1 # 1). lra.
  - pose proof (Qlt_floor x) as Hlt. replace (Qfloor x - 1 + 1)%Z with (Qfloor x) by lia.
    rewrite inject_Z_plus in Hlt. change (inject_Z 1) with (1 # 1) in Hlt. lra.
Qed.

Definition tags (l : table) : list nat := map fst l.

(* the tables the model builds itself (FaultModel.run, demo_table) have unique tags *)
Lemma tags_number : forall l n, tags (number n l) = seq n (length l).
Proof. induction l as [|x r IH]; intros n; simpl; [reflexivity|]. f_equal. apply IH. Qed.
Lemma nodup_tags_number l n : NoDup (tags (number n l)).
Proof. rewrite tags_number. apply seq_NoDup. Qed.

Lemma remove_absent i l : ~ In i (tags l) -> remove_ent i l = l.
Proof.
  induction l as [|x r IH]; simpl; intros H; [reflexivity|].
  destruct (Nat.eqb_spec (fst x) i); [tauto|]. simpl. f_equal. tauto.
Qed.
Lemma replace_absent i e l : ~ In i (tags l) -> replace_ent i e l = l.
Proof.
  induction l as [|x r IH]; simpl; intros H; [reflexivity|].
  destruct (Nat.eqb_spec (fst x) i); [tauto|]. f_equal. tauto.
Qed.
Lemma in_tags i e l : In (i, e) l -> In i (tags l).
Proof. apply (in_map fst). Qed.
Lemma tag_unique l i e1 e2 : NoDup (tags l) -> In (i, e1) l -> In (i, e2) l -> e1 = e2.
Proof.
  induction l as [|x r IH]; simpl; intros Hnd H1 H2; [destruct H1|]. inversion Hnd as [|? ? Hn Hr]; subst.
  destruct H1 as [->|H1], H2 as [H2|H2]; [congruence| | |auto]; exfalso; apply Hn; eapply in_tags; [exact H2|].
  rewrite H2. exact H1.
Qed.
Lemma table_split i e l : NoDup (tags l) -> In (i, e) l ->
  exists l1 l2, l = l1 ++ (i, e) :: l2 /\ remove_ent i l = l1 ++ l2 /\
    forall e', replace_ent i e' l = l1 ++ (i, e') :: l2.
Proof.
  intros Hnd (l1 & l2 & ->)%in_split. exists l1, l2.
  unfold tags in Hnd. rewrite map_app in Hnd. apply NoDup_remove_2 in Hnd. rewrite in_app_iff in Hnd.
  unfold remove_ent, replace_ent. rewrite filter_app. setoid_rewrite map_app. simpl. rewrite Nat.eqb_refl. simpl.
  fold (remove_ent i l1) (remove_ent i l2). rewrite !remove_absent by tauto.
  repeat split. intros e'. fold (replace_ent i e' l1) (replace_ent i e' l2). rewrite !replace_absent by tauto. reflexivity.
Qed.

Section Budget.
  Variable failing : nat -> bool.
  Variable h : nat.
  Variable ph : Q.
  Notation W := (weight failing ph).
  Notation B := (budget failing h ph).

  Lemma budget_app l1 l2 : B (l1 ++ l2) = (B l1 + B l2)%nat.
  Proof. induction l1 as [|x r IH]; simpl; [reflexivity|]. rewrite IH. lia. Qed.

  Lemma budget_mid l1 x l2 : fst x <> h -> B (l1 ++ x :: l2) = (B (l1 ++ l2) + W x)%nat.
  Proof. intros Hne. rewrite !budget_app. simpl. destruct (Nat.eqb_spec (fst x) h); [contradiction|lia]. Qed.

  (* a failing entry that can still be picked before the good one (priority <= ph) loses one unit per punt *)
  Lemma weight_punt c i e e' : exact c -> failing i = true -> pri e <= ph -> punt c e = Ok e' ->
    W (i, e) = S (W (i, e')).
  Proof.
    intros Hx Hf Hle Hp. unfold weight. cbn [fst snd]. rewrite Hf, (punt_pri c e e' Hx Hp).
    assert (E : ph - (pri e + 1) == ph - pri e - 1) by ring.
    rewrite (Qfloor_comp _ _ E), Qfloor_minus_1.
    pose proof (Qfloor_resp_le 0 (ph - pri e) ltac:(lra) : (0 <= _)%Z) as Hz. lia.
  Qed.
  Lemma weight_good i e : failing i = false -> W (i, e) = 1%nat.
  Proof. intros Hf. unfold weight. cbn [fst snd]. rewrite Hf. reflexivity. Qed.
End Budget.

(* one call of change() *)
Lemma sched_step_progress c failing et l h eh l' p : exact c ->
  NoDup (tags l) -> In (h, eh) l -> failing h = false -> eligible et eh = true ->
  sched_step c failing et l = (l', p) ->
  p = PGood h \/ (NoDup (tags l') /\ In (h, eh) l' /\ (budget failing h (pri eh) l' < budget failing h (pri eh) l)%nat).
Proof.
  intros Hx Hnd Hin Hg Hel. unfold sched_step.
  destruct (pick_some et l (h, eh) Hin Hel) as [[i e] P]. rewrite P.
  destruct (picked_is_eligible _ _ _ P) as [Hil _].
  destruct (Nat.eq_dec i h) as [->|Hne]; [rewrite Hg; intros [= _ <-]; left; reflexivity|].
  pose proof (picked_pri_le et l (i, e) (h, eh) P Hin Hel) as Hle. cbn [snd] in Hle.
  (* the table around the picked entry: removing or replacing it touches that one place *)
  destruct (table_split i e l Hnd Hil) as (l1 & l2 & -> & -> & Hr). clear P Hil.
  apply in_elt_inv in Hin as [[= E _]|Hin]; [destruct (Hne (eq_sym E))|].
  unfold tags in *. rewrite map_app in Hnd. rewrite (budget_mid _ _ _ _ (i, e)) by exact Hne.
  destruct (failing i) eqn:Hf.
  - destruct (punt_total c e) as [e' Hp]. rewrite Hp, Hr. intros [= <- _]. right.
    rewrite (budget_mid _ _ _ _ (i, e')) by exact Hne. rewrite (weight_punt failing (pri eh) c i e e' Hx Hf Hle Hp).
    rewrite map_app. split; [exact Hnd|]. split; [|lia].
    apply in_or_app. apply in_app_or in Hin as [Hin|Hin]; [left|right; right]; exact Hin.
  - intros [= <- _]. right. rewrite (weight_good failing (pri eh) i e Hf), map_app.
    split; [exact (NoDup_remove_1 _ _ _ Hnd)|]. split; [exact Hin|lia].
Qed.

Theorem good_entry_served c failing : exact c ->
  forall ets l h eh,
  NoDup (tags l) -> In (h, eh) l -> failing h = false ->
  (forall et, In et ets -> eligible et eh = true) ->
  (budget failing h (pri eh) l < length ets)%nat ->
  In (PGood h) (fst (sched_run c failing ets l)).
Proof.
  intros Hx. induction ets as [|et r IH]; intros l h eh Hnd Hin Hg Hel Hb; [simpl in Hb; lia|].
  simpl. destruct (sched_step c failing et l) as [l1 p] eqn:E.
  destruct (sched_step_progress c failing et l h eh l1 p Hx Hnd Hin Hg (Hel et (or_introl eq_refl)) E)
    as [->|(Hnd' & Hin' & Hb')].
  - destruct (sched_run c failing r l1). left. reflexivity.
  - specialize (IH l1 h eh Hnd' Hin' Hg (fun et' H' => Hel et' (or_intror H'))).
    destruct (sched_run c failing r l1) as [ps lf]. right. apply IH. simpl in Hb. lia.
Qed.

(* with priorities >= 0 and the good entry at 0 (prioritize() = 0 for new work, punts only raise priorities) every
   other entry weighs at most 1 *)
Lemma budget_default failing h ph l :
  ph == 0 -> (forall x, In x l -> 0 <= pri (snd x)) ->
  (budget failing h ph l <= length l)%nat /\ (In h (tags l) -> budget failing h ph l < length l)%nat.
Proof.
  intros Hp. induction l as [|x r IH]; intros Hall; [split; [simpl; lia|intros []]|].
  assert (Hw : (weight failing ph x <= 1)%nat).
  { unfold weight. destruct (failing (fst x)); [|lia].
    assert (Hx : ph - pri (snd x) <= 0) by (pose proof (Hall x (or_introl eq_refl)); lra).
    pose proof (Qfloor_resp_le _ 0 Hx : (_ <= 0)%Z). lia. }
  destruct (IH (fun y Hy => Hall y (or_intror Hy))) as [I1 I2]. simpl.
  split.
  - destruct (Nat.eqb (fst x) h); lia.
  - intros [Hh|Hh].
    + rewrite Hh, Nat.eqb_refl. lia.
    + specialize (I2 Hh). destruct (Nat.eqb (fst x) h); lia.
Qed.

(* the machine never reports the impossible result: punt is total *)
Lemma sched_step_no_bad c failing et l : snd (sched_step c failing et l) <> PBad.
Proof.
  unfold sched_step. destruct (pick_sorted et l) as [[i e]|]; [|discriminate].
  destruct (failing i); [|discriminate]. destruct (punt_total c e) as [e' ->]. discriminate.
Qed.
Theorem sched_run_no_bad c failing ets : forall l, ~ In PBad (fst (sched_run c failing ets l)).
Proof.
  induction ets as [|et r IH]; intros l; [intros []|]. simpl.
  pose proof (sched_step_no_bad c failing et l) as Hs. destruct (sched_step c failing et l) as [l1 p].
  specialize (IH l1). destruct (sched_run c failing r l1). intros [H|H]; [exact (Hs H)|exact (IH H)].
Qed.

(* three entries pending at priority 0, stamps 10, 11, 12 (PropC10 lets entry 0 fail for ever) *)
Definition demo_table : table :=
  number 0 [ {| pri := 0; chL := Some 10; chR := None; oidL := true; oidR := true; inset := true; ntL := None; ntR := None |};
             {| pri := 0; chL := Some 11; chR := None; oidL := true; oidR := true; inset := true; ntL := None; ntR := None |};
             {| pri := 0; chL := Some 12; chR := None; oidL := true; oidR := true; inset := true; ntL := None; ntR := None |} ].
