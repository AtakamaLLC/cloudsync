(* AlgoSpec.v — at quiet both sides hold exactly the tree the users' operations specify: the files each user made and
   still has, each with the content written last (nothing lost, nothing invented).  [run_step] is one step of an in-domain
   run, over which AlgoRun.run_all is an induction. *)
From Coq Require Import NArith List Bool Arith Lia.
From CS Require Import StateModel ProvProofs AlgoModel AlgoCheck AlgoProv AlgoInv AlgoInit AlgoQuiet AlgoIntake AlgoStep
     AlgoUser.
Import ListNotations.
Local Open Scope N_scope.

(* the bookkeeping lists a file with d as its latest content *)
Definition in_lv (lv : list (ProvModel.path * list N)) (rel : ProvModel.path) (d : N) : Prop :=
  exists r, live_get rel lv = Some (d :: r).

Lemma mirror_peer g w sd k ob :
  Inv g w -> (2 <= k)%nat -> obj_at w sd k = Some ob -> ProvModel.o_exists ob = true -> g_get k (g_of g sd) = None ->
  exists k' ob' cs', obj_at w (negb sd) k' = Some ob' /\ g_get k' (g_of g (negb sd)) = Some cs' /\
                     leaf (ProvModel.o_path ob) = leaf (ProvModel.o_path ob').
Proof.
  intros I Hk Hob Hl Eg. destruct (mirror_entry g w sd k ob I Hk Hob Hl Eg) as (_ & _ & k' & ob' & cs' & _ & _ & _ & H). eauto.
Qed.

Lemma listed_in_view used lvL lvR g w (s : bool) rel d :
  Inv g w -> Dom used lvL lvR g w -> in_lv (if s then lvR else lvL) rel d -> In (rel, (ProvModel.KFile, d)) (rel_view w s).
Proof.
  intros I D (r & Hlv). destruct (d_live _ _ _ _ _ D s rel (d :: r) Hlv) as (n & k & ob & -> & Hob & Hl & Hp & Hg).
  destruct (i_ghost I s k _ Hg) as (Hk2 & ob0 & r0 & Y1 & Y2). assert (ob0 = ob) by congruence. subst ob0.
  injection Y2 as -> _.
  destruct (sh_files (i_shape I s) k ob Hk2 Hob) as (Hkf & _).
  apply (file_in_view g w s k ob n I Hob Hl Hp Hkf).
Qed.

Lemma own_listed used lvL lvR g w (s : bool) k ob n cs :
  Inv g w -> Dom used lvL lvR g w -> obj_at w s k = Some ob -> ProvModel.o_exists ob = true ->
  ProvModel.o_path ob = [root_name s; n] -> g_get k (g_of g s) = Some cs -> in_lv (if s then lvR else lvL) [n] (ProvModel.o_data ob).
Proof.
  intros I D Hob Hl Hp Hg. destruct (d_conv _ _ _ _ _ D s k cs ob Hg Hob Hl) as (n0 & X1 & X2).
  assert (n0 = n) by congruence. subst n0.
  destruct (i_ghost I s k cs Hg) as (_ & ob0 & r & Y1 & Y2). assert (ob0 = ob) by congruence. subst ob0.
  exists r. rewrite X2, Y2. reflexivity.
Qed.

Theorem quiescent_is_spec used lvL lvR g w :
  Inv g w -> Dom used lvL lvR g w -> quiescent w = true ->
  forall sd rel kd d, In (rel, (kd, d)) (rel_view w sd) <-> (kd = ProvModel.KFile /\ (in_lv lvL rel d \/ in_lv lvR rel d)).
Proof.
  intros I D Hq sd rel kd d. split.
  - (* user-made on its own side: listed; engine-made: its peer on the other side is user-made, with the same name and content *)
    intros Hin.
    destruct (view_file g w sd rel kd d I Hin) as (k & ob & n & Hk2 & Hob & Hl & Hp & -> & -> & ->).
    split; [reflexivity|].
    destruct (g_get k (g_of g sd)) as [cs|] eqn:Eg.
    + pose proof (own_listed used lvL lvR g w sd k ob n cs I D Hob Hl Hp Eg) as X. destruct sd; [right|left]; exact X.
    + destruct (quiet_peer g w sd k ob n I Hq Hk2 Hob Hl Hp) as (k2 & ob2 & Hob2 & Hl2 & Hp2 & _ & <- & Hg2).
      destruct (g_get k2 (g_of g (negb sd))) as [cs2|] eqn:Eg2; [|destruct (Hg2 Eg eq_refl)].
      pose proof (own_listed used lvL lvR g w (negb sd) k2 ob2 n cs2 I D Hob2 Hl2 Hp2 Eg2) as X.
      destruct sd; [left|right]; exact X.
  - intros (-> & [Hs|Hs]).
    + pose proof (listed_in_view used lvL lvR g w false rel d I D Hs) as X.
      destruct sd; [apply (quiescent_transfer g w false rel _ d I Hq X)|exact X].
    + pose proof (listed_in_view used lvL lvR g w true rel d I D Hs) as X.
      destruct sd; [exact X|apply (quiescent_transfer g w true rel _ d I Hq X)].
Qed.

(* the bookkeeping of the domain predicate, as a function of the history: names used, and per side the files its user
   made and still has with the contents written (latest first); on an in-domain history it is AlgoUser.book_step folded
   over the history (dom_after_cons) *)
Fixpoint dom_after (used : list ProvModel.name) (lvL lvR : list (ProvModel.path * list N)) (h : history)
  : list ProvModel.name * list (ProvModel.path * list N) * list (ProvModel.path * list N) :=
  match h with
  | [] => (used, lvL, lvR)
  | (sd, o) :: r =>
    match o with
    | UCreate rel d => if sd then dom_after (leaf rel :: used) lvL ((rel, [d]) :: lvR) r
                       else dom_after (leaf rel :: used) ((rel, [d]) :: lvL) lvR r
    | UWrite rel d =>
      match live_get rel (if sd then lvR else lvL) with
      | Some cs => if sd then dom_after used lvL ((rel, d :: cs) :: live_del rel lvR) r
                   else dom_after used ((rel, d :: cs) :: live_del rel lvL) lvR r
      | None => (used, lvL, lvR)
      end
    | UDelete rel => if sd then dom_after used lvL (live_del rel lvR) r else dom_after used (live_del rel lvL) lvR r
    | _ => (used, lvL, lvR)
    end
  end.

Lemma dom_after_cons used lvL lvR sd o h : in_F_from 1 used lvL lvR [] [] ((sd, o) :: h) = true ->
  dom_after used lvL lvR ((sd, o) :: h) = let '(u, l, r) := book_step used lvL lvR sd o in dom_after u l r h.
Proof.
  intros HF. destruct o as [rel d|rel d|rel|rel rel2|rel]; try discriminate HF; destruct sd; cbn [dom_after book_step]; try reflexivity.
  all: cbn in HF; destruct (live_get rel _); [reflexivity|discriminate].
Qed.

Lemma run_step used lvL lvR g w a r w1 cs :
  Inv g w -> NoTmp w -> Dom used lvL lvR g w ->
  in_F_from 1 used lvL lvR [] [] (history_of (a :: r)) = true -> algo_step w a = ROk (w1, cs) ->
  exists g1 used1 lvL1 lvR1,
    Inv g1 w1 /\ NoTmp w1 /\ Dom used1 lvL1 lvR1 g1 w1 /\ in_F_from 1 used1 lvL1 lvR1 [] [] (history_of r) = true /\
    dom_after used lvL lvR (history_of (a :: r)) = dom_after used1 lvL1 lvR1 (history_of r) /\
    (forall sd, one_sided sd (history_of (a :: r)) = true ->
       one_sided sd (history_of r) = true /\ forall k, g_get k (g_of g1 (negb sd)) = g_get k (g_of g (negb sd))).
Proof.
  intros I T D HF Es. destruct a as [sd o|sd clk|order clk].
  2, 3: (* an engine step: same ghost, same bookkeeping, same history *)
    apply (engine_step_pres g) in Es as (I1 & T1 & O1); [|exact I|exact T|intros; discriminate];
    pose proof (Dom_frame _ _ _ _ _ _ O1 D); exists g, used, lvL, lvR; auto 7.
  simpl in Es. injection Es as <- <-. change (history_of (AUser sd o :: r)) with ((sd, o) :: history_of r) in *.
  rewrite (dom_after_cons _ _ _ _ _ _ HF). destruct (book_step used lvL lvR sd o) as [[used1 lvL1] lvR1] eqn:Eb.
  destruct (user_step_pres used lvL lvR g w sd o _ used1 lvL1 lvR1 I T D HF Eb) as (g1 & I1 & T1 & G1 & D1 & HF1).
  exists g1, used1, lvL1, lvR1. repeat (split; [assumption || reflexivity|]).
  intros s Hs. apply andb_prop in Hs as [Hs Hr]. apply Bool.eqb_prop in Hs. subst s. auto.
Qed.

(* the files the users' operations leave, per side, as a function of the history *)
Definition spec_L (h : history) := snd (fst (dom_after [] [] [] h)).
Definition spec_R (h : history) := snd (dom_after [] [] [] h).
