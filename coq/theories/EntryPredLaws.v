(* EntryPredLaws.v — laws of the decision predicates of cloudsync/sync/state.py the engine relies on, proved about
   the hand model (EntryPredModel.v) for ALL field values (and every answer of the provider's path comparison).
   The [truth_X] / [X_eq] lemmas give each predicate as a boolean formula of the fields (for the two guarded ones
   the value itself); the [X_iff] lemmas read the formula as a proposition; the other laws follow from these.
   Full-strength statements that are false of the code are kept as [..._full]; PropEntryPred.v refutes them. *)
From Coq Require Import QArith Bool List NArith.
From CS Require Import LoopModel EntryPredModel Str StrLemmas.
Import ListNotations.
Open Scope Q_scope.

Definition changed_truthy (x : sidest) : bool := truth (cls_ch (s_changed x)).   (* bool(side.changed) *)
Definition has_oid (x : sidest) : bool := truth (cls_str (s_oid x)).             (* bool(side.oid) *)
Definition has_path (x : sidest) : bool := truth (cls_str (s_path x)).
Definition has_sync_path (x : sidest) : bool := truth (cls_str (s_sync_path x)).
Definition has_hash (x : sidest) : bool := truth (cls_hash (s_hash x)).
(* the three differences that make a changed side with an id need sync: hash, path, gone *)
Definition differs (e : entry) (s : side) : bool :=
  hash_changed (sd e s) || negb (pm e s) || ex_gone (s_exists (sd e s)).
Definition is_bool (r : pyres) : Prop := r = RTrue \/ r = RFalse.

Lemma truth_rb : forall b, truth (rb b) = b.
Proof. intros []; reflexivity. Qed.
(* `if c: return <bool>` ... `return False` *)
Lemma truth_guarded : forall c b : bool, truth (if c then rb b else RFalse) = c && b.
Proof. intros [] []; reflexivity. Qed.
Lemma guarded_is_bool : forall c b : bool, is_bool (if c then rb b else RFalse).
Proof. intros [] []; [left|right|right|right]; reflexivity. Qed.

Lemma truth_cls_str : forall s, truth (cls_str s) = true <-> s = SFull.
Proof. intros []; simpl; split; congruence. Qed.
Lemma ex_eqb_eq : forall a b, ex_eqb a b = true <-> a = b.
Proof. intros [] []; simpl; split; congruence. Qed.
Lemma ex_deleted_iff : forall x, ex_deleted x = true <-> x = XTrashed \/ x = XMissing.
Proof. intros []; simpl; intuition congruence. Qed.
Lemma other_other : forall s, other (other s) = s.
Proof. intros []; reflexivity. Qed.

(* [bytes_eqb] is [Str.str_eqb] under the name of the model *)
Lemma bytes_eqb_eq : forall a b, bytes_eqb a b = true <-> a = b.
Proof. exact str_eqb_eq. Qed.
Lemma hash_eqb_eq : forall a b, hash_eqb a b = true <-> a = b.
Proof. exact (option_eqb_eq bytes_eqb bytes_eqb_eq). Qed.
Lemma hash_changed_iff : forall x, hash_changed x = true <-> s_hash x <> s_sync_hash x.
Proof. intros x. unfold hash_changed. rewrite negb_true_iff, <- not_true_iff_false, hash_eqb_eq. reflexivity. Qed.
Lemma hash_changed_false : forall x, hash_changed x = false <-> s_hash x = s_sync_hash x.
Proof. intros x. unfold hash_changed. rewrite negb_false_iff. apply hash_eqb_eq. Qed.

(* witness sides and entries for the refutations and the Examples.  side0: nothing known *)
Definition side0 : sidest :=
  {| s_force := false; s_changed := CNone; s_oid := SNone; s_hash := None; s_sync_hash := None; s_path := SNone;
     s_sync_path := SNone; s_exists := XUnknown; s_saved := None; s_last_gotten := 0 |}.
(* fully synced, stamp ch *)
Definition synced_side (ch : chv) : sidest :=
  {| s_force := false; s_changed := ch; s_oid := SFull; s_hash := Some [1%N]; s_sync_hash := Some [1%N];
     s_path := SFull; s_sync_path := SFull; s_exists := XExists; s_saved := None; s_last_gotten := 0 |}.
(* trashed and changed, but without id *)
Definition gone_side : sidest :=
  {| s_force := false; s_changed := CNum 5; s_oid := SNone; s_hash := Some [1%N]; s_sync_hash := Some [1%N];
     s_path := SFull; s_sync_path := SFull; s_exists := XTrashed; s_saved := None; s_last_gotten := 0 |}.
(* new content, an id, sync_path sp *)
Definition new_side (sp : strv) : sidest :=
  {| s_force := false; s_changed := CNum 5; s_oid := SFull; s_hash := Some [2%N]; s_sync_hash := None; s_path := SFull;
     s_sync_path := sp; s_exists := XExists; s_saved := None; s_last_gotten := 0 |}.
(* known only through force_sync; p: with a sync_path *)
Definition forced_new (p : bool) : sidest :=
  {| s_force := true; s_changed := CNone; s_oid := SNone; s_hash := None; s_sync_hash := None; s_path := SFull;
     s_sync_path := (if p then SFull else SNone); s_exists := XExists; s_saved := None; s_last_gotten := 0 |}.
(* the id is '' *)
Definition empty_oid_side : sidest :=
  {| s_force := false; s_changed := CNone; s_oid := SEmpty; s_hash := None; s_sync_hash := None; s_path := SNone;
     s_sync_path := SNone; s_exists := XUnknown; s_saved := None; s_last_gotten := 0 |}.
(* both path comparisons answer "match"; mkp: the two answers given *)
Definition mk (l r : sidest) : entry :=
  {| e_ignored := INone; e_local := l; e_remote := r; e_pmL := true; e_pmR := true |}.
Definition mkp (l r : sidest) (a b : bool) : entry :=
  {| e_ignored := INone; e_local := l; e_remote := r; e_pmL := a; e_pmR := b |}.

Lemma truth_side_needs_sync : forall e s,
  truth (side_needs_sync e s) =
  s_force (sd e s)
  || (changed_truthy (sd e s) && has_oid (sd e s) && differs e s).
Proof.
  intros e s. unfold side_needs_sync, changed_truthy, has_oid, differs.
  destruct (s_force (sd e s)); [reflexivity|].
  destruct (s_changed (sd e s)) as [| |q]; try reflexivity.
  simpl. destruct (Qeq_bool q 0); [reflexivity|].
  destruct (s_oid (sd e s)); try reflexivity. simpl. apply truth_rb.
Qed.

Lemma truth_needs_sync : forall e,
  truth (needs_sync e) = truth (side_needs_sync e SL) || truth (side_needs_sync e SR).
Proof.
  intros e. unfold needs_sync. destruct (truth (side_needs_sync e SL)) eqn:E; [exact E|reflexivity].
Qed.

Lemma truth_is_deletion : forall e s,
  truth (is_deletion e s) =
  ex_eqb (s_exists (sd e (other s))) XExists && ex_deleted (s_exists (sd e s)) && changed_truthy (sd e s).
Proof.
  intros e s. unfold is_deletion, changed_truthy.
  destruct (s_exists (sd e (other s))); try reflexivity.
  destruct (ex_deleted (s_exists (sd e s))); reflexivity.
Qed.

Lemma truth_corrupt_gone : forall e s,
  truth (corrupt_gone e s) =
  ex_eqb (s_exists (sd e s)) XCorrupt && match s_saved (sd e s) with Some y => ex_gone y | None => false end.
Proof.
  intros e s. unfold corrupt_gone. destruct (s_exists (sd e s)); try reflexivity.
  destruct (s_saved (sd e s)); [apply truth_rb|reflexivity].
Qed.

Lemma is_creation_eq : forall e s,
  is_creation e s =
  if has_path (sd e s) && ex_eqb (s_exists (sd e s)) XExists && truth (side_needs_sync e s)
  then rb (negb (has_oid (sd e (other s))) || ex_deleted (s_exists (sd e (other s))) || truth (corrupt_gone e (other s)))
  else RFalse.
Proof.
  intros e s. unfold is_creation, has_path, has_oid.
  destruct (s_path (sd e s)); try reflexivity.
  destruct (s_exists (sd e s)); try reflexivity.
  simpl. destruct (truth (side_needs_sync e s)); [|reflexivity].
  destruct (s_oid (sd e (other s))); reflexivity.
Qed.
Lemma truth_is_path_change : forall e s,
  truth (is_path_change e s) = has_sync_path (sd e s) && negb (pm e s).
Proof.
  intros e s. unfold is_path_change, has_sync_path. destruct (s_sync_path (sd e s)); try reflexivity. apply truth_rb.
Qed.

Lemma truth_is_rename : forall e s,
  truth (is_rename e s) = has_sync_path (sd e s) && has_path (sd e s) && negb (pm e s).
Proof.
  intros e s. unfold is_rename, has_sync_path, has_path. destruct (s_sync_path (sd e s)); try reflexivity.
  destruct (s_path (sd e s)); try reflexivity. apply truth_rb.
Qed.

Lemma hash_conflict_eq : forall e,
  hash_conflict e =
  if has_hash (e_local e) && has_hash (e_remote e) && has_path (e_local e) && has_path (e_remote e)
  then rb (hash_changed (e_local e) && hash_changed (e_remote e)) else RFalse.
Proof.
  intros e. unfold hash_conflict, has_hash, has_path.
  destruct (s_hash (e_local e)) as [[|a l]|]; try reflexivity.
  destruct (s_hash (e_remote e)) as [[|b r]|]; try reflexivity.
  destruct (s_path (e_local e)); try reflexivity. destruct (s_path (e_remote e)); reflexivity.
Qed.

Lemma differs_iff : forall e s,
  differs e s = true <->
  s_hash (sd e s) <> s_sync_hash (sd e s) \/ pm e s = false \/ ex_gone (s_exists (sd e s)) = true.
Proof.
  intros e s. unfold differs. rewrite !orb_true_iff, negb_true_iff, hash_changed_iff. tauto.
Qed.

Lemma differs_false_iff : forall e s,
  differs e s = false <->
  s_hash (sd e s) = s_sync_hash (sd e s) /\ pm e s = true /\ ex_gone (s_exists (sd e s)) = false.
Proof.
  intros e s. unfold differs. rewrite !orb_false_iff, negb_false_iff, hash_changed_false. tauto.
Qed.

Lemma side_needs_sync_iff : forall e s,
  truth (side_needs_sync e s) = true <->
  s_force (sd e s) = true \/
  (changed_truthy (sd e s) = true /\ has_oid (sd e s) = true /\
   (s_hash (sd e s) <> s_sync_hash (sd e s) \/ pm e s = false \/ ex_gone (s_exists (sd e s)) = true)).
Proof.
  intros e s. rewrite truth_side_needs_sync. split.
  - intros [Hf|[[Hc Ho]%andb_true_iff H%differs_iff]%andb_true_iff]%orb_true_iff; auto.
  - intros [->|(-> & -> & H%differs_iff)]; [reflexivity|]. simpl. rewrite H. apply orb_true_r.
Qed.

Lemma side_needs_sync_false : forall e s,
  truth (side_needs_sync e s) = false ->
  s_force (sd e s) = false /\
  (changed_truthy (sd e s) = false \/ has_oid (sd e s) = false \/
   (s_hash (sd e s) = s_sync_hash (sd e s) /\ pm e s = true /\ ex_gone (s_exists (sd e s)) = false)).
Proof.
  intros e s H. rewrite truth_side_needs_sync in H. apply orb_false_iff in H. destruct H as [Hf H].
  split; [exact Hf|]. apply andb_false_iff in H. destruct H as [H|H%differs_false_iff]; [apply andb_false_iff in H|]; tauto.
Qed.

(* [deletion_with_id_needs_sync], [path_change_needs_sync] and [hash_conflict_needs_sync] are [side_needs_sync_iff],
   right to left, for the three differences: gone, path, hash; a side without a (truthy) id needs sync only when forced *)
Lemma no_oid_needs_sync : forall e s, has_oid (sd e s) = false -> truth (side_needs_sync e s) = s_force (sd e s).
Proof. intros e s Ho. rewrite truth_side_needs_sync, Ho, andb_false_r. apply orb_false_r. Qed.

(* the two-disjunct reading "needs_sync false => unchanged or no id" is false: a side can carry a stale stamp *)
Definition needs_sync_false_full : Prop :=
  forall e s, truth (side_needs_sync e s) = false -> changed_truthy (sd e s) = false \/ has_oid (sd e s) = false.

(* a side that was just finished (changed := 0, or None / False) does not need sync unless force_sync *)
Lemma finished_side_quiet : forall e s,
  changed_truthy (sd e s) = false -> s_force (sd e s) = false -> truth (side_needs_sync e s) = false.
Proof. intros e s Hc Hf. rewrite truth_side_needs_sync, Hc, Hf. reflexivity. Qed.

Definition finished_side_quiet_full : Prop :=
  forall e s, changed_truthy (sd e s) = false -> truth (side_needs_sync e s) = false.
Lemma forced_needs_sync : forall e s, s_force (sd e s) = true -> side_needs_sync e s = RTrue.
Proof. intros e s H. unfold side_needs_sync. rewrite H. reflexivity. Qed.

Lemma needs_sync_iff : forall e,
  truth (needs_sync e) = true <-> truth (side_needs_sync e SL) = true \/ truth (side_needs_sync e SR) = true.
Proof. intros e. rewrite truth_needs_sync. apply orb_true_iff. Qed.

(* classes: a truthy needs_sync is True itself; a falsy one may be None / 0 / '' (not a bool) *)
Lemma side_needs_sync_truthy_is_True : forall e s, truth (side_needs_sync e s) = true -> side_needs_sync e s = RTrue.
Proof.
  intros e s. unfold side_needs_sync. destruct (s_force (sd e s)); [reflexivity|].
  destruct (s_changed (sd e s)) as [| |q]; try discriminate.
  destruct (Qeq_bool q 0); [discriminate|]. destruct (s_oid (sd e s)); try discriminate.
  rewrite truth_rb. intros ->. reflexivity.
Qed.
Definition side_needs_sync_bool_full : Prop := forall e s, is_bool (side_needs_sync e s).

Lemma corrupt_gone_iff : forall e s,
  truth (corrupt_gone e s) = true <->
  s_exists (sd e s) = XCorrupt /\ exists y, s_saved (sd e s) = Some y /\ ex_gone y = true.
Proof.
  intros e s. rewrite truth_corrupt_gone, andb_true_iff, ex_eqb_eq. destruct (s_saved (sd e s)) as [y|].
  - split; [intros [Hx Hg]; eauto | intros (Hx & y' & [= <-] & Hg); auto].
  - split; [intros [_ [=]] | intros (_ & y & [=] & _)].
Qed.

Lemma is_creation_iff : forall e s,
  truth (is_creation e s) = true <->
  s_path (sd e s) = SFull /\ s_exists (sd e s) = XExists /\ truth (side_needs_sync e s) = true /\
  (has_oid (sd e (other s)) = false \/ ex_deleted (s_exists (sd e (other s))) = true \/
   (s_exists (sd e (other s)) = XCorrupt /\ exists y, s_saved (sd e (other s)) = Some y /\ ex_gone y = true)).
Proof.
  intros e s. rewrite is_creation_eq, truth_guarded. unfold has_path. split.
  - intros [[[Hp%truth_cls_str Hx%ex_eqb_eq]%andb_true_iff Hn]%andb_true_iff
            [[Ho%negb_true_iff|Hd]%orb_true_iff|Hg%corrupt_gone_iff]%orb_true_iff]%andb_true_iff; auto 6.
  - intros (-> & -> & -> & [->|[->|Hg%corrupt_gone_iff]]); simpl;
      [reflexivity | rewrite orb_true_r; reflexivity | rewrite Hg; apply orb_true_r].
Qed.

Lemma is_creation_bool : forall e s, is_bool (is_creation e s).
Proof. intros e s. rewrite is_creation_eq. apply guarded_is_bool. Qed.

(* a creation is always something the side itself needs to sync (so never a side that was just finished) *)
Lemma creation_needs_sync : forall e s,
  truth (is_creation e s) = true -> truth (side_needs_sync e s) = true /\ truth (needs_sync e) = true.
Proof.
  intros e s (_ & _ & Hn & _)%is_creation_iff. split; [exact Hn|].
  apply needs_sync_iff. destruct s; [left|right]; exact Hn.
Qed.

Lemma is_deletion_iff : forall e s,
  truth (is_deletion e s) = true <->
  s_exists (sd e (other s)) = XExists /\ (s_exists (sd e s) = XTrashed \/ s_exists (sd e s) = XMissing) /\
  changed_truthy (sd e s) = true.
Proof.
  intros e s. rewrite truth_is_deletion, !andb_true_iff, ex_eqb_eq, ex_deleted_iff. tauto.
Qed.

(* is_deletion never returns True: when truthy it is the side's stamp *)
Lemma is_deletion_truthy_is_stamp : forall e s, truth (is_deletion e s) = true -> is_deletion e s = RObj.
Proof.
  intros e s. unfold is_deletion. destruct (s_exists (sd e (other s))); try discriminate.
  destruct (ex_deleted (s_exists (sd e s))); [|discriminate].
  destruct (s_changed (sd e s)) as [| |q]; try discriminate. simpl. destruct (Qeq_bool q 0); [discriminate|reflexivity].
Qed.

Lemma deletion_with_id_needs_sync : forall e s,
  truth (is_deletion e s) = true -> has_oid (sd e s) = true -> truth (side_needs_sync e s) = true.
Proof.
  intros e s (_ & Hd & Hc)%is_deletion_iff Ho. apply side_needs_sync_iff. right. split; [exact Hc|]. split; [exact Ho|].
  right; right. destruct Hd as [-> | ->]; reflexivity.
Qed.
Definition deletion_needs_sync_full : Prop :=
  forall e s, truth (is_deletion e s) = true -> truth (side_needs_sync e s) = true.

Lemma creation_deletion_exclusive : forall e s,
  truth (is_creation e s) = true -> truth (is_deletion e s) = false.
Proof.
  intros e s (_ & Hx & _)%is_creation_iff. rewrite truth_is_deletion, Hx, andb_false_r. reflexivity.
Qed.

Lemma deletion_both_sides_exclusive : forall e s,
  truth (is_deletion e s) = true -> truth (is_deletion e (other s)) = false.
Proof.
  intros e s [Ho _]%is_deletion_iff. rewrite truth_is_deletion, Ho, andb_false_r. reflexivity.
Qed.

(* a creation facing a side that exists faces one without id, and a side without id needs sync only when forced *)
Lemma creation_facing_existing : forall e s,
  truth (is_creation e s) = true -> s_exists (sd e (other s)) = XExists ->
  truth (side_needs_sync e (other s)) = s_force (sd e (other s)).
Proof.
  intros e s (_ & _ & _ & Ho)%is_creation_iff Hx. apply no_oid_needs_sync.
  rewrite Hx in Ho. destruct Ho as [Ho|[[=]|[[=] _]]]. exact Ho.
Qed.
Lemma creation_both_sides_forced : forall e s,
  truth (is_creation e s) = true -> truth (is_creation e (other s)) = true ->
  s_force (sd e s) = true /\ s_force (sd e (other s)) = true.
Proof.
  intros e s H1 H2.
  pose proof (creation_facing_existing e s H1) as F2.
  pose proof (creation_facing_existing e (other s) H2) as F1. rewrite other_other in F1.
  apply is_creation_iff in H1, H2. destruct H1 as (_ & Hx1 & Hn1 & _), H2 as (_ & Hx2 & Hn2 & _).
  rewrite <- F1, <- F2; auto.
Qed.
Lemma creation_one_side_unless_forced : forall e s,
  s_force (sd e s) = false -> truth (is_creation e s) = true -> truth (is_creation e (other s)) = false.
Proof.
  intros e s Hf H1. destruct (truth (is_creation e (other s))) eqn:H2; [|reflexivity].
  destruct (creation_both_sides_forced e s H1 H2) as [A _]. congruence.
Qed.

(* of the pairs among creation / deletion / rename on one or both sides only (creation, deletion) on the same side
   and (deletion, deletion) are exclusive; the other pairs, as statements to refute *)
Definition creation_both_sides_exclusive_full : Prop :=
  forall e s, truth (is_creation e s) = true -> truth (is_creation e (other s)) = false.

Definition creation_rename_exclusive_full : Prop :=
  forall e s, truth (is_creation e s) = true -> truth (is_rename e s) = false.

Definition deletion_rename_exclusive_full : Prop :=
  forall e s, truth (is_deletion e s) = true -> truth (is_rename e s) = false.

Definition creation_other_deletion_exclusive_full : Prop :=
  forall e s, truth (is_creation e s) = true -> truth (is_deletion e (other s)) = false.

Lemma is_rename_iff : forall e s,
  truth (is_rename e s) = true <-> truth (is_path_change e s) = true /\ has_path (sd e s) = true.
Proof.
  intros e s. rewrite truth_is_rename, truth_is_path_change, !andb_true_iff. tauto.
Qed.
Lemma is_path_change_iff : forall e s,
  truth (is_path_change e s) = true <-> s_sync_path (sd e s) = SFull /\ pm e s = false.
Proof.
  intros e s. rewrite truth_is_path_change. unfold has_sync_path.
  rewrite andb_true_iff, negb_true_iff, truth_cls_str. reflexivity.
Qed.
Lemma path_change_needs_sync : forall e s,
  truth (is_path_change e s) = true -> changed_truthy (sd e s) = true -> has_oid (sd e s) = true ->
  truth (side_needs_sync e s) = true.
Proof.
  intros e s [_ Hp]%is_path_change_iff Hc Ho. apply side_needs_sync_iff. right. split; [exact Hc|]. split; [exact Ho|].
  right; left. exact Hp.
Qed.

Lemma hash_conflict_iff : forall e,
  truth (hash_conflict e) = true <->
  has_hash (e_local e) = true /\ has_hash (e_remote e) = true /\
  s_path (e_local e) = SFull /\ s_path (e_remote e) = SFull /\
  s_hash (e_local e) <> s_sync_hash (e_local e) /\ s_hash (e_remote e) <> s_sync_hash (e_remote e).
Proof.
  intros e. rewrite hash_conflict_eq, truth_guarded. unfold has_path. split.
  - intros [[[[Hl Hr]%andb_true_iff Hpl%truth_cls_str]%andb_true_iff Hpr%truth_cls_str]%andb_true_iff
            [Hcl%hash_changed_iff Hcr%hash_changed_iff]%andb_true_iff]%andb_true_iff. auto 7.
  - intros (-> & -> & -> & -> & Hl%hash_changed_iff & Hr%hash_changed_iff). rewrite Hl, Hr. reflexivity.
Qed.
Lemma hash_conflict_bool : forall e, is_bool (hash_conflict e).
Proof. intros e. rewrite hash_conflict_eq. apply guarded_is_bool. Qed.
(* hash_conflict does NOT compare the two sides with each other: identical new content on both sides is a hash_conflict *)
Definition hash_conflict_sides_differ_full : Prop :=
  forall e, truth (hash_conflict e) = true -> s_hash (e_local e) <> s_hash (e_remote e).
Lemma hash_conflict_needs_sync : forall e s,
  truth (hash_conflict e) = true -> changed_truthy (sd e s) = true -> has_oid (sd e s) = true ->
  truth (side_needs_sync e s) = true.
Proof.
  intros e s (_ & _ & _ & _ & Hl & Hr)%hash_conflict_iff Hc Ho. apply side_needs_sync_iff. right.
  split; [exact Hc|]. split; [exact Ho|]. left. destruct s; assumption.
Qed.

Lemma is_discarded_iff : forall e,
  is_discarded e = RTrue <-> e_ignored e = IDiscarded \/ e_ignored e = IIrrelevant.
Proof. intros e. unfold is_discarded. destruct (e_ignored e); intuition congruence. Qed.
Lemma ignore_flags_bool : forall e,
  is_bool (is_discarded e) /\ is_bool (is_irrelevant e) /\ is_bool (is_conflicted e) /\ is_bool (is_temp_rename e).
Proof.
  intros e. unfold is_discarded, is_irrelevant, is_conflicted, is_temp_rename, is_bool.
  destruct (e_ignored e); repeat split; auto.
Qed.
Lemma irrelevant_is_discarded : forall e, is_irrelevant e = RTrue -> is_discarded e = RTrue.
Proof. intros e. unfold is_irrelevant, is_discarded. destruct (e_ignored e); auto. Qed.
Lemma ignore_flags_exclusive : forall e,
  (is_discarded e = RTrue -> is_conflicted e = RFalse /\ is_temp_rename e = RFalse) /\
  (is_conflicted e = RTrue -> is_discarded e = RFalse /\ is_temp_rename e = RFalse) /\
  (is_temp_rename e = RTrue -> is_discarded e = RFalse /\ is_conflicted e = RFalse).
Proof.
  intros e. unfold is_discarded, is_conflicted, is_temp_rename.
  destruct (e_ignored e); repeat split; intros; try discriminate; reflexivity.
Qed.

Lemma is_trash_iff : forall e, is_trash e = RTrue <-> s_oid (e_local e) = SNone /\ s_oid (e_remote e) = SNone.
Proof.
  intros e. unfold is_trash. destruct (s_oid (e_local e)), (s_oid (e_remote e)); intuition congruence.
Qed.
Lemma trash_needs_sync_only_forced : forall e s,
  is_trash e = RTrue -> truth (side_needs_sync e s) = s_force (sd e s).
Proof.
  intros e s [Hl Hr]%is_trash_iff. apply no_oid_needs_sync. unfold has_oid.
  destruct s; simpl sd; [rewrite Hl|rewrite Hr]; reflexivity.
Qed.
(* `is None` is not truthiness: an entry whose ids are '' is not trash although no side has a (truthy) id *)
Definition trash_iff_no_id_full : Prop :=
  forall e, is_trash e = RTrue <-> has_oid (e_local e) = false /\ has_oid (e_remote e) = false.

Lemma is_latest_iff : forall e,
  truth (is_latest e) = true <-> truth (is_latest_side e SL) = true /\ truth (is_latest_side e SR) = true.
Proof.
  intros e. unfold is_latest, is_latest_side. rewrite !truth_rb. simpl sd. apply andb_true_iff.
Qed.
Lemma is_latest_side_iff : forall e s,
  truth (is_latest_side e s) = true <-> max_changed e <= s_last_gotten (sd e s).
Proof. intros e s. unfold is_latest_side. rewrite truth_rb. apply Qle_bool_iff. Qed.

Lemma corrupt_gone_is_corrupt : forall e s,
  truth (corrupt_gone e s) = true -> is_corrupt e s = RTrue /\ corrupt_exists e s = RFalse.
Proof.
  intros e s. unfold corrupt_gone, is_corrupt, corrupt_exists. destruct (s_exists (sd e s)); try discriminate.
  destruct (s_saved (sd e s)) as [[]|]; try discriminate; auto.
Qed.
(* a corrupt side is not "gone" for needs_sync, so CORRUPT alone never makes a side need sync *)
Lemma not_gone_quiet : forall e s,
  ex_gone (s_exists (sd e s)) = false -> s_force (sd e s) = false -> s_hash (sd e s) = s_sync_hash (sd e s) ->
  pm e s = true -> truth (side_needs_sync e s) = false.
Proof.
  intros e s Hx Hf Hh Hp. rewrite truth_side_needs_sync, Hf, (proj2 (differs_false_iff e s)) by auto. apply andb_false_r.
Qed.
Lemma corrupt_alone_quiet : forall e s,
  s_exists (sd e s) = XCorrupt -> s_force (sd e s) = false -> s_hash (sd e s) = s_sync_hash (sd e s) -> pm e s = true ->
  truth (side_needs_sync e s) = false.
Proof. intros e s Hx. apply not_gone_quiet. rewrite Hx. reflexivity. Qed.
