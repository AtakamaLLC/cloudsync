(* PropC06.v — C06: restart resumes from persisted state; offline changes are synchronised. *)
From Coq Require Import Arith NArith List Bool.
From CS Require Import Sx TreeModel Monitor MonitorProofs CursorModel CursorProofs.
Import ListNotations.

(* cursor mechanism, all action sequences (any number of restarts, lost or rejected cursors) *)
Theorem C06_restart_never_skips : forall l s,
  crun cinit l 0 = inl s -> forall s', cstep s CRestart = Some s' -> resume_safe s'.
Proof. exact restart_never_skips. Qed.
Print Assumptions C06_restart_never_skips.

Theorem C06_stored_cursor_never_ahead : forall l s c,
  crun cinit l 0 = inl s -> stored s = Some c -> c <= applied s \/ walked s = false.
Proof. exact stored_cursor_never_ahead. Qed.
Print Assumptions C06_stored_cursor_never_ahead.

Theorem C06_walk_covers : forall s s',
  cstep s CWalk = Some s' -> stored_or0 s' <= applied s' /\ need_walk s' = false /\ walked s' = true.
Proof. exact walk_covers. Qed.
Print Assumptions C06_walk_covers.

(* a cursor reset that leaves the 'walked' marker in storage (the behaviour before fix 3f7683c) is rejected *)
Theorem C06_legacy_reset_rejected :
  crun cinit [CNew; CStore 0; CWalk; CApplied 1; CStore 1; CNew; CNew; CLoseCursor; CRestart; CStore 3] 0 = inr 9.
Proof. exact legacy_reset_rejected. Qed.
Print Assumptions C06_legacy_reset_rejected.

Theorem C06_fixed_reset_accepted :
  exists s, crun cinit [CNew; CStore 0; CWalk; CApplied 1; CStore 1; CNew; CNew; CLoseCursor; CRestart;
                        CReset; CStore 3; CRestart; CWalk] 0 = inl s /\ applied s = 3.
Proof. exact fixed_reset_accepted. Qed.
Print Assumptions C06_fixed_reset_accepted.

(* outcome.  This is MonitorProofs.quiet_views_are_history, a statement about every accepted trace; it is read for
   C06 because restarts are invisible in the observation trace: an accepted run with restarts ends, at every quiet
   report, with both views equal to the base tree with every user operation (made before a stop or while stopped)
   applied — "continues as if it had never stopped" *)
Theorem C06_restart_transparent : forall cfg l r tr m',
  check_spec cfg = true -> accept cfg l r tr = inl m' ->
  forall pre x post, tr = pre ++ x :: post -> o_ev x = EQuiet ->
    same_tree (view (rootL cfg) (o_L x)) (apply_ops (view (rootL cfg) l) (rel_user_ops cfg pre)) = true /\
    same_tree (view (rootR cfg) (o_R x)) (apply_ops (view (rootL cfg) l) (rel_user_ops cfg pre)) = true.
Proof. exact quiet_views_are_history. Qed.
Print Assumptions C06_restart_transparent.

(* nothing already synchronised is transferred again: no engine provider write happens while the monitor is quiet
   (MonitorProofs.no_echo) *)
Theorem C06_no_retransfer_after_quiet : forall cfg l r tr m',
  accept cfg l r tr = inl m' ->
  forall pre x post s ts, tr = pre ++ x :: post -> o_ev x = EEng s ts ->
    exists ma, run_of cfg (init_state cfg l r) pre ma /\ quiet ma = false.
Proof.
  intros cfg l r tr m' Hacc pre x post s ts Heq He.
  destruct (no_echo cfg l r tr m' Hacc pre x post s ts Heq He) as (ma & Ha & Hq & _); eauto.
Qed.
Print Assumptions C06_no_retransfer_after_quiet.
