(* CacheDict.v — the tree as a plain dictionary (association list path -> (type, id, metadata)): [dict_of], a
   lookup below a folder's children ([dict_get_kids], the step of PropC19.C19_refines_dict), invalidation of a subtree. *)
From Coq Require Import NArith List Bool.
From CS Require Import Sx Str StrLemmas CacheModel CacheProofs.
Import ListNotations.

Definition dict := list (list N * entry).

Fixpoint dict_get (q : list N) (d : dict) : option entry :=
  match d with
  | [] => None
  | (p, e) :: r => if str_eqb q p then Some e else dict_get q r
  end.

Fixpoint dict_of (t : node) : dict :=
  match t with Node d i m kids =>
    ([], (d, i, m)) :: flat_map (fun nc => map (fun pe => (fst nc :: fst pe, snd pe)) (dict_of (snd nc))) kids
  end.

Definition dict_remove (rp : list N) (d : dict) : dict := filter (fun pe => negb (prefixb rp (fst pe))) d.

Lemma dict_get_app q a b :
  dict_get q (a ++ b) = match dict_get q a with Some e => Some e | None => dict_get q b end.
Proof.
  induction a as [|[p e] a IH]; simpl; [reflexivity|]. destruct (str_eqb q p); [reflexivity|exact IH].
Qed.

Lemma dict_get_prefix n q k (D : dict) :
  dict_get (n :: q) (map (fun pe => (k :: fst pe, snd pe)) D) = if N.eqb n k then dict_get q D else None.
Proof.
  induction D as [|[p e] D IH]; simpl; [destruct (N.eqb n k); reflexivity|].
  destruct (N.eqb n k) eqn:E; simpl.
  - destruct (str_eqb q p); [reflexivity|]. rewrite IH. reflexivity.
  - rewrite IH. reflexivity.
Qed.

(* the flat_map inside [dict_of], given a name so that dict_get_kids can be stated *)
Definition dict_kids (kids : list (N * node)) : dict :=
  flat_map (fun nc => map (fun pe => (fst nc :: fst pe, snd pe)) (dict_of (snd nc))) kids.

Lemma dict_get_kids n q (kids : list (N * node)) :
  NoDup (map fst kids) ->
  dict_get (n :: q) (dict_kids kids) = match aget n kids with Some c => dict_get q (dict_of c) | None => None end.
Proof.
  induction kids as [|[k c] r IH]; simpl; intros Hnd; [reflexivity|]. inversion Hnd as [|? ? Hk Hr]; subst.
  rewrite dict_get_app, dict_get_prefix, (IH Hr).
  destruct (N.eqb_spec n k) as [->|]; [|reflexivity].
  destruct (dict_get q (dict_of c)); [reflexivity|].
  destruct (aget k r) eqn:E; [|reflexivity]. destruct Hk. apply (in_map fst _ _ (aget_in _ _ _ E)).
Qed.

Lemma dict_get_remove rp q d :
  dict_get q (dict_remove rp d) = if prefixb rp q then None else dict_get q d.
Proof.
  unfold dict_remove. induction d as [|[p e] d IH]; simpl; [destruct (prefixb rp q); reflexivity|].
  destruct (str_eqb_spec q p) as [<-|Hne].
  - destruct (prefixb rp q); simpl; [exact IH|]. rewrite str_eqb_refl. reflexivity.
  - destruct (prefixb rp p); simpl; [exact IH|]. destruct (str_eqb_spec q p); [contradiction|exact IH].
Qed.
