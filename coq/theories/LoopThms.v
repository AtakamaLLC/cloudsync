(* LoopThms.v — the two-thread machine over ALL schedules: two more invariants of every step (final_stop_cleans, no_raise),
   the record [LoopInvs] of the seven with [Inv_reach], and the theorems read off them.  [quiet] (no start()) and [final] (no
   step that can reset __shutdown) are kept only by the steps named with them and are not in [LoopInvs].  At the end, what
   the variants of stop() / wake() gain. *)
From Coq Require Import QArith List Bool NArith ZArith Lia.
From CS Require Import Sx ListFacts LoopModel LoopInv.
Import ListNotations.

(* with __shutdown assigned first, a final stop on a running service leads to done() *)
Definition final_stop_cleans (v : variant) (s : st) : Prop :=
  v_swap v = true -> g_live s = true -> g_unfin s = false ->
  sd s = true /\ (pre_f4 (lp s) = true \/ lp s = LF5 \/ (1 <= count_done (log s))%nat).

(* g_live is raised only by the call of stop(True, _) on a thread that has not passed its last test of __shutdown *)
Lemma g_live_step : forall v p s l, let s' := step v p s l in
  g_live s' = true ->
  g_live s = true \/ exists w, s' = stop_stage v (mark_live s true) (first_stage v true) true w /\ pre_f4 (lp s) = true.
Proof.
  intros v p s l s'. subst s'. destruct (is_loop l) eqn:Hl.
  - destruct l as [o u| |]; try discriminate. unfold step. destruct (enabled _ _); [|auto].
    destruct (lstep_frame p s o u) as [_ [_ [-> _]]]. auto.
  - caller_cases s l; match_cases; cbn; auto.
    + destruct (stop_stage_frame v (mark_live s (f && pre_f4 (lp s))) (first_stage v f) f w) as [_ [_ [-> _]]].
      cbn. destruct (g_live s); [auto|]. destruct f; [|discriminate]. cbn. intros ->. eauto.
    + destruct (stop_stage_frame v s stg f w) as [_ [_ [-> _]]]. auto.
Qed.

Lemma swap_sets_shutdown_first : forall v s w,
  v_swap v = true -> sd (stop_stage v s (first_stage v true) true w) = true.
Proof.
  intros v s w H. unfold first_stage, has_sd. rewrite H, orb_true_r. cbn.
  unfold goto_stage. cbn. rewrite H. cbn. destruct (v_sticky v); reflexivity.
Qed.

(* with __shutdown set, the thread leaves the part before its last test of __shutdown only towards done() *)
Lemma lstep_pre_f4 : forall p s o u, sd s = true -> pre_f4 (lp s) = true ->
  pre_f4 (lp (lstep p s o u)) = true \/ lp (lstep p s o u) = LF5.
Proof. intros p s o u S. unfold lstep. rewrite S. destruct (lp s); cbn; try discriminate; match_cases; auto. Qed.

Lemma final_stop_cleans_step : forall v p s l, final_stop_cleans v s -> final_stop_cleans v (step v p s l).
Proof.
  intros v p s l H Hv L U. specialize (H Hv). pose proof (g_unfin_mono v p s l U) as U0.
  destruct (is_loop l) eqn:Hl.
  - destruct l as [o u| |]; try discriminate. revert L U. unfold step.
    destruct (enabled s (LLoop o u)) eqn:A; [cbn in A|auto].
    destruct (lstep_frame p s o u) as [_ [E1 [E2 E3]]]. rewrite E1, E2, E3. intros L U.
    destruct (H L U) as [S D]. split; [exact S|].
    destruct (lstep_done p s o u) as [(_ & _ & E)|(N & E)]; rewrite E; [right; right; lia|].
    destruct D as [D|[D|D]]; [destruct (lstep_pre_f4 p s o u S D); auto | contradiction | auto].
  - destruct (caller_frame v p s l Hl) as [E F]. rewrite E.
    destruct (g_live_step v p s l L) as [L0|[w [E' P]]].
    + destruct (H L0 U0) as [S D]. split.
      * rewrite g_unfin_step, U0, S in U. destruct (sd (step v p s l)); [reflexivity | discriminate U].
      * destruct F as [F|[_ F]]; rewrite F; auto.
    + split; [rewrite E'; apply swap_sets_shutdown_first, Hv|].
      left. rewrite E'. destruct (stop_stage_frame v (mark_live s true) (first_stage v true) true w) as [F' _].
      rewrite F'. exact P.
Qed.

Definition raisy (c : cpc) : bool :=
  match c with
  | CStopS SWk2 _ _ | CWake2 | CIdle (RStopRaised _) | CIdle RWakeRaised => true
  | _ => false
  end.
(* with wake() reading __interrupt once, neither stop() nor wake() raises *)
Definition no_raise (v : variant) (s : st) : Prop := v_wake1 v = true -> raisy (cp s) = false.

Lemma no_raise_stop : forall v s stg f w, v_wake1 v = true -> raisy (CStopS stg f w) = false ->
  raisy (cp (stop_stage v s stg f w)) = false.
Proof.
  intros v s stg f w Hv H. unfold stop_stage, goto_stage, next_stage, after_wake, stop_tail. rewrite Hv.
  destruct stg; try discriminate H; match_cases; reflexivity.
Qed.

Lemma no_raise_step : forall v p s l, no_raise v s -> no_raise v (step v p s l).
Proof.
  intros v p s l H. unfold no_raise in *. destruct (is_loop l) eqn:Hl.
  - destruct l; try discriminate. apply (loop_keeps (fun c _ => v_wake1 v = true -> raisy c = false)), H.
  - intro Hv. specialize (H Hv).
    caller_cases s l; rewrite ?Hv; match_cases; cbn; auto; try (rewrite Ec; exact H).
    + apply no_raise_stop; [exact Hv | unfold first_stage; match_cases; reflexivity].
    + apply no_raise_stop; assumption.
    + destruct k; reflexivity.
Qed.

Record LoopInvs (v : variant) (s : st) : Prop := {
  inv_joined_dead : joined_dead s;
  inv_shutdown_held : shutdown_held v s;
  inv_done_shutdown : done_shutdown s;
  inv_start_unshut : start_unshut s;
  inv_cleanup_once : cleanup_once s;
  inv_final_stop_cleans : final_stop_cleans v s;
  inv_no_raise : no_raise v s
}.

Lemma Inv_init : forall v, LoopInvs v init.
Proof.
  intro v. split; unfold joined_dead, shutdown_held, done_shutdown, start_unshut, cleanup_once, final_stop_cleans, no_raise; cbn; try discriminate; auto.
  intros [H|H]; [lia | discriminate].
Qed.

(* each invariant is kept on its own, except cleanup_once, which needs done_shutdown and start_unshut *)
Lemma Inv_reach : forall v p s, reach v p s -> LoopInvs v s.
Proof.
  intros v p. apply reach_ind_inv; [apply Inv_init|].
  intros s l [Hjd Hsh Hds Hsu Hco Hfc Hnr]. split.
  - apply joined_dead_step, Hjd.
  - apply shutdown_held_step, Hsh.
  - apply done_shutdown_step, Hds.
  - apply start_unshut_step, Hsu.
  - apply cleanup_once_step; assumption.
  - apply final_stop_cleans_step, Hfc.
  - apply no_raise_step, Hnr.
Qed.

(* nothing happens on the loop side while no start() is called and the thread is dead *)
Definition quiet (s : st) : Prop := alive (lp s) = false /\ startish (cp s) = false.
Definition is_start (l : label) : bool := match l with LCall CStart => true | _ => false end.

Lemma quiet_step : forall v p s l, quiet s -> is_start l = false ->
  quiet (step v p s l) /\ log (step v p s l) = log s.
Proof.
  intros v p s l [A S] Hl. unfold quiet. destruct (is_loop l) eqn:L.
  - destruct l; try discriminate. unfold step, enabled. rewrite A. auto.
  - destruct (caller_frame v p s l L) as [E [F|[F _]]]; [rewrite E, F | rewrite F in S; discriminate S].
    split; [split; [exact A|] | reflexivity]. clear E F.
    caller_cases s l; try discriminate Hl; try discriminate S; match_cases; cbn; auto using stop_not_startish;
      rewrite Ec; exact S.
Qed.

Lemma exec_keeps : forall v p (P : st -> Prop) (ok : label -> bool),
  (forall s l, P s -> ok l = true -> P (step v p s l)) ->
  forall ls s, P s -> forallb ok ls = true -> P (exec v p s ls).
Proof.
  intros v p P ok H ls s Hs Hl. rewrite forallb_forall in Hl.
  unfold exec. apply fold_left_invariant; [|exact Hs].
  intros a l Hin Ha. apply H; auto.
Qed.

Lemma quiet_exec : forall v p ls s, quiet s -> forallb (fun l => negb (is_start l)) ls = true ->
  quiet (exec v p s ls) /\ log (exec v p s ls) = log s.
Proof.
  intros v p ls s H. apply (exec_keeps v p (fun s' => quiet s' /\ log s' = log s)); [|auto].
  intros s' l [Q E] Hl%negb_true_iff. destruct (quiet_step v p s' l Q Hl) as [Q1 Q2]. split; [exact Q1 | congruence].
Qed.

Theorem no_do_after_stop_returns : forall v p s ls,
  reach v p s -> joined_ret (cp s) = true ->
  forallb (fun l => negb (is_start l)) ls = true ->
  alive (lp s) = false /\ log (exec v p s ls) = log s.
Proof.
  intros v p s ls Hr Hj Hls. pose proof (inv_joined_dead _ _ (Inv_reach _ _ _ Hr) Hj) as Ha.
  split; [exact Ha|]. apply quiet_exec; auto. split; [exact Ha | destruct (cp s); try discriminate Hj; reflexivity].
Qed.

Definition stopfalse (c : cpc) : bool := match c with CStopS _ false _ => true | _ => false end.
Definition is_stop_false (l : label) : bool := match l with LCall (CStop false _) => true | _ => false end.
Definition started_ok (c : cpc) : bool := match c with CIdle RStartOk => true | _ => false end.

(* __shutdown, once True, survives stop(f, _) when f is True or the assignment is guarded by `if forever` *)
Lemma stop_keeps_shutdown : forall v s stg f w, v_sticky v = true \/ f = true ->
  sd s = true -> sd (stop_stage v s stg f w) = true.
Proof.
  intros v s stg f w H D. unfold stop_stage, goto_stage, stop_tail.
  destruct stg; match_cases; cbn; auto; destruct H; congruence.
Qed.

Definition final_ret (c : cpc) : bool := match c with CIdle (RStopped true _) => true | _ => false end.
Lemma final_ret_inv : forall c, final_ret c = true -> exists j, c = CIdle (RStopped true j).
Proof. intros [[| | | |[] j| | | | | |]| | | | | | | | | |]; try discriminate. eauto. Qed.

(* a label that cannot reset __shutdown: any under `if forever: self.__shutdown = True`, else any but a call of stop(False) *)
Definition keeps_final (v : variant) (l : label) : bool := v_sticky v || negb (is_stop_false l).
(* finally stopped: __shutdown is set, the caller is neither inside start() nor back from a successful one, and no
   stop(False) that could reset __shutdown is under way *)
Definition final (v : variant) (s : st) : Prop :=
  sd s = true /\ startish (cp s) = false /\ started_ok (cp s) = false /\ (v_sticky v = false -> stopfalse (cp s) = false).

Lemma stop_keeps_final : forall v s stg f w, v_sticky v = true \/ f = true -> sd s = true ->
  final v (stop_stage v s stg f w).
Proof.
  intros v s stg f w K D. repeat split.
  - apply stop_keeps_shutdown; assumption.
  - apply stop_not_startish.
  - destruct (stop_stage_pc v s stg f w); reflexivity.
  - intro N. destruct K as [K|K]; [congruence|]. subst f. destruct (stop_stage_pc v s stg true w); reflexivity.
Qed.

Lemma final_step : forall v p s l, final v s -> keeps_final v l = true ->
  final v (step v p s l) /\ (alive (lp s) = false -> alive (lp (step v p s l)) = false).
Proof.
  intros v p s l [D [S [O F]]] Hl. destruct (is_loop l) eqn:L.
  - destruct l as [o u| |]; try discriminate. split.
    + apply (loop_keeps (fun c d => d = true /\ startish c = false /\ started_ok c = false /\
                                    (v_sticky v = false -> stopfalse c = false))).
      auto.
    + intro A. unfold step, enabled. rewrite A. exact A.
  - destruct (caller_frame v p s l L) as [_ [E|[E _]]]; [rewrite E | rewrite E in S; discriminate S].
    split; [|auto]. clear E. unfold keeps_final in Hl.
    caller_cases s l; try discriminate S.
    all: try solve [unfold final; match_cases; cbn; auto].
    + (* start() is refused: __shutdown is set *)
      rewrite D. unfold final. cbn. auto.
    + (* the first statement of a stop(f, w) *)
      apply stop_keeps_final; [|exact D].
      destruct (v_sticky v); [auto|]. destruct f; [auto | discriminate Hl].
    + unfold final. rewrite Ec. auto.
    + (* the next statement of a stop(f, w) under way *)
      apply stop_keeps_final; [|exact D].
      destruct (v_sticky v); [auto|]. destruct f; [auto | discriminate (F eq_refl)].
    + unfold final. destruct (join_blocks s k); cbn; rewrite ?Ec; auto.
    + unfold final. cbn. destruct (alive (lp s)), k; auto.
Qed.

Lemma final_exec : forall v p ls s, final v s -> forallb (keeps_final v) ls = true ->
  final v (exec v p s ls) /\ (alive (lp s) = false -> alive (lp (exec v p s ls)) = false).
Proof.
  intros v p ls s H. apply (exec_keeps v p (fun s' => final v s' /\ (alive (lp s) = false -> alive (lp s') = false))); [|auto].
  intros s' l [Q E] Hl. destruct (final_step v p s' l Q Hl) as [Q1 Q2]. auto.
Qed.

(* a finally stopped service refuses to start: for ever under `if forever: __shutdown = True`, else until stop(False) is called *)
Theorem restart_refused : forall v p s ls,
  reach v p s -> final_ret (cp s) = true -> forallb (keeps_final v) ls = true ->
  sd (exec v p s ls) = true /\ started_ok (cp (exec v p s ls)) = false /\
  startish (cp (exec v p s ls)) = false /\
  (alive (lp s) = false -> alive (lp (exec v p s ls)) = false).
Proof.
  intros v p s ls Hr [j Ec]%final_ret_inv Hls.
  assert (HJ : final v s).
  { pose proof (inv_shutdown_held _ _ (Inv_reach _ _ _ Hr)) as H2. unfold shutdown_held, final in *.
    rewrite Ec in *. cbn in *. auto. }
  destruct (final_exec v p ls s HJ Hls) as [[A [B [C D]]] E]. auto.
Qed.

Theorem cleanup_at_most_once_partial : forall v p s,
  reach v p s -> g_unfin s = false -> (count_done (log s) <= 1)%nat.
Proof.
  intros v p s Hr Hu. destruct (inv_cleanup_once _ _ (Inv_reach _ _ _ Hr) Hu) as [H _]. exact H.
Qed.

Lemma sticky_keeps_shutdown : forall v p s l, v_sticky v = true -> sd s = true -> sd (step v p s l) = true.
Proof.
  intros v p s l Hv D. destruct (is_loop l) eqn:L.
  - destruct l; try discriminate. apply (loop_keeps (fun _ d => d = true)), D.
  - caller_cases s l; match_cases; cbn; auto; try discriminate D; apply stop_keeps_shutdown; auto.
Qed.

Lemma sticky_never_unfin : forall v p s, v_sticky v = true -> reach v p s -> g_unfin s = false.
Proof.
  intros v p s Hv. revert s. apply (reach_ind_inv v p (fun s => g_unfin s = false)); [reflexivity|]. intros s l U.
  rewrite g_unfin_step, U. destruct (sd s) eqn:D; [|reflexivity].
  rewrite (sticky_keeps_shutdown v p s l Hv D). reflexivity.
Qed.

Lemma pre_f4_alive : forall l, pre_f4 l = true -> alive l = true.
Proof. destruct l; cbn; auto. Qed.

(* with __shutdown assigned before __stopping: cleanup exactly once *)
Theorem cleanup_exactly_once_swapped : forall v p s,
  v_swap v = true -> reach v p s ->
  g_live s = true -> g_unfin s = false -> alive (lp s) = false ->
  count_done (log s) = 1%nat.
Proof.
  intros v p s Hv Hr Hl Hu Ha. pose proof (Inv_reach _ _ _ Hr) as I.
  destruct (inv_final_stop_cleans _ _ I Hv Hl Hu) as [_ HM]. destruct (inv_cleanup_once _ _ I Hu) as [HK _].
  destruct HM as [HM|[HM|HM]].
  - apply pre_f4_alive in HM. congruence.
  - rewrite HM in Ha. discriminate.
  - lia.
Qed.

Theorem stop_wake_never_raise : forall v p s,
  v_wake1 v = true -> reach v p s -> raisy (cp s) = false.
Proof. intros v p s Hv Hr. exact (inv_no_raise _ _ (Inv_reach _ _ _ Hr) Hv). Qed.
