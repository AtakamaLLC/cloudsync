(* MergeProofs.v — the per-side operation lists of a trace (side_ops); the trace's own operation list is an
   interleaving of the two.  Used for C04 at trace level (PropC04.C04_quiet_views_are_merge). *)
From Coq Require Import NArith List Bool.
From CS Require Import Sx TreeModel Monitor MonitorProofs TreeProofs.
Import ListNotations.

(* the root-relative operations of the user of side s, in trace order *)
Fixpoint side_ops (cfg : config) (s : side) (tr : list obs) : list op :=
  match tr with
  | [] => []
  | x :: r =>
    match o_ev x with
    | EUser s' o =>
      if side_eqb s s' then
        match rel_op (root_of cfg s') o with
        | Some ro => ro :: side_ops cfg s r
        | None => side_ops cfg s r
        end
      else side_ops cfg s r
    | _ => side_ops cfg s r
    end
  end.

Lemma rel_user_ops_interleave cfg tr :
  interleave (side_ops cfg false tr) (side_ops cfg true tr) (rel_user_ops cfg tr).
Proof.
  induction tr as [|x r IH]; simpl; [constructor|].
  destruct (o_ev x) as [s o|s ts| |]; try exact IH.
  destruct s; simpl.
  - destruct (rel_op (rootR cfg) o); [apply il_right|]; exact IH.
  - destruct (rel_op (rootL cfg) o); [apply il_left|]; exact IH.
Qed.
