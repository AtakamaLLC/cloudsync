(* AlgoSync.v — world-level effect of the state operations a sync step is made of (one entry is touched; providers and
   the extension records of the other entries are left alone: [weff]), and the refresh of one side of an entry from its
   provider (SyncState.unconditionally_get_latest) as a chain of such operations ([runs]; [prog] is what every link of
   the chain keeps of the entry). *)
From Coq Require Import NArith List Bool Arith Lia.
From CS Require Import PathModel StateModel StateProofs AlgoModel AlgoCheck AlgoState AlgoProv AlgoPath AlgoInv AlgoIntake.
Import ListNotations.
Local Open Scope N_scope.

(* [AlgoState.eff] with the clock allowed to advance *)
Definition seff (s s' : state) (e : eid) (en' : StateModel.entry) (m : option bool) : Prop :=
  ents s' = list_upd (ents s) e en' /\
  (forall x, set_mem x (cset s') = match m with
                                   | Some b => if Nat.eqb x e then b else set_mem x (cset s)
                                   | None => set_mem x (cset s)
                                   end) /\
  now s <= now s' /\ lastch s' = lastch s /\ (IdxJ s -> IdxJ s').

Lemma seff_effc s s' e en' m : seff s s' e en' m <-> effc s s' e en' m (now s') (lastch s) /\ now s <= now s'.
Proof.
  split.
  - intros (A & B & C & D & J). split; [eff_split; auto|exact C].
  - intros ((A & B & _ & D & J) & C). eff_split; auto.
Qed.
Lemma eff_seff s s' e en' m : eff s s' e en' m -> seff s s' e en' m.
Proof. intros F. apply seff_effc. pose proof F as (_ & _ & C & _). rewrite C. split; [exact F|apply N.le_refl]. Qed.
Arguments eff_seff {s s' e en' m}.
Lemma seff_trans s s1 s2 e en1 en2 m1 m2 : seff s s1 e en1 m1 -> seff s1 s2 e en2 m2 -> seff s s2 e en2 (mcomp m1 m2).
Proof.
  intros S1 S2. apply seff_effc in S1 as (F1 & C1). apply seff_effc in S2 as (F2 & C2).
  apply seff_effc. split; [|lia]. pose proof F1 as (_ & _ & _ & D1 & _). rewrite <- D1.
  exact (effc_trans F1 F2).
Qed.
Arguments seff_trans {s s1 s2 e en1 en2 m1 m2}.
Lemma seff_nth s s' e en' m en : seff s s' e en' m -> nth_error (ents s) e = Some en -> nth_error (ents s') e = Some en'.
Proof. intros [H _] Hn. rewrite H. eapply nth_upd_at_same; eauto. Qed.
Arguments seff_nth {s s' e en' m en}.

(* [seff] on worlds *)
Definition weff (w w' : world) (e : eid) (en' : StateModel.entry) (m : option bool) : Prop :=
  w_cfg w' = w_cfg w /\ w_pL w' = w_pL w /\ w_pR w' = w_pR w /\ w_x w' = w_x w /\
  seff (w_st w) (w_st w') e en' m /\ tape (w_st w') = [].

Lemma get_e_nth w e en : nth_error (ents (w_st w)) e = Some en -> get_e w e = ROk en.
Proof. intros H. unfold get_e, lift, get_ent. rewrite H. reflexivity. Qed.

Lemma weff_trans w w1 w2 e en1 en2 m1 m2 : weff w w1 e en1 m1 -> weff w1 w2 e en2 m2 -> weff w w2 e en2 (mcomp m1 m2).
Proof.
  intros (A1 & B1 & C1 & D1 & E1 & T1) (A2 & B2 & C2 & D2 & E2 & T2).
  repeat (split; [congruence|]). split; [eapply seff_trans; eauto|exact T2].
Qed.
Arguments weff_trans {w w1 w2 e en1 en2 m1 m2}.
Lemma weff_refl w e en : nth_error (ents (w_st w)) e = Some en -> tape (w_st w) = [] -> weff w w e en None.
Proof. intros H T. repeat (split; [reflexivity|]). split; [apply eff_seff, eff_refl; exact H|exact T].  Qed.
Lemma weff_nth w w' e en' m en : weff w w' e en' m -> nth_error (ents (w_st w)) e = Some en -> nth_error (ents (w_st w')) e = Some en'.
Proof. intros (_ & _ & _ & _ & S & _) H. eapply seff_nth; eauto. Qed.
Arguments weff_nth {w w' e en' m en}.
Lemma weff_nth_other w w' e en' m x : weff w w' e en' m -> x <> e -> nth_error (ents (w_st w')) x = nth_error (ents (w_st w)) x.
Proof. intros (_ & _ & _ & _ & (SA & _) & _) Hne. rewrite SA. apply nth_upd_at_other. congruence. Qed.
Lemma weff_E w w' e en' m : weff w w' e en' m -> E w' = E w.
Proof. intros (A & _). unfold E. rewrite A. reflexivity. Qed.
Lemma weff_prov w w' e en' m sd : weff w w' e en' m -> prov_of w' sd = prov_of w sd.
Proof. intros (_ & B & C & _). destruct sd; simpl; congruence. Qed.
Arguments weff_prov {w w' e en' m}.
Lemma weff_getx w w' e en' m x sd : weff w w' e en' m -> getx w' x sd = getx w x sd.
Proof. intros (_ & _ & _ & D & _). unfold getx. rewrite D. reflexivity. Qed.
Arguments weff_getx {w w' e en' m}.
Lemma weff_now w w' e en' m : weff w w' e en' m -> now (w_st w) <= now (w_st w').
Proof. intros (_ & _ & _ & _ & (_ & _ & C & _) & _). exact C. Qed.
Arguments weff_now {w w' e en' m}.

Lemma touch_weff w w' e en en' m :
  nth_error (ents (w_st w)) e = Some en -> set_mem e (cset (w_st w)) = flagged en -> weff w w' e en' m ->
  flagged en' = match m with Some b => b | None => flagged en end -> touch w w' e en'.
Proof.
  intros Hn Hmem (Wcfg & _ & _ & Wx & (SA & SB & SC & SD & SJ) & WT) Hfl. constructor; auto.
  - rewrite SA. eapply nth_upd_at_same, Hn.
  - apply others_same. intros x Hne. rewrite SA. apply nth_upd_at_other. congruence.
  - intros x Hne. rewrite SB. destruct m; [destruct (Nat.eqb_spec x e); [contradiction|]|]; reflexivity.
  - rewrite SB, Hfl. destruct m; [rewrite Nat.eqb_refl; reflexivity|exact Hmem].
  - rewrite SD. lia.
  - intros x sd _. unfold getx. rewrite Wx. reflexivity.
Qed.
Lemma touch_setx w w' e en' sd f : touch w w' e en' -> touch w (setx w' e sd f) e en'.
Proof. intros T. constructor; try apply T. intros x sd0 H. rewrite getx_setx_other by exact H. apply (t_x T), H. Qed.

Lemma st_op_ok w f s' e en' m :
  f (st_tape (w_st w) [TSwap false; TSwap false]) = StateModel.Ok s' ->
  eff (st_tape (w_st w) [TSwap false; TSwap false]) s' e en' m ->
  st_op w f = ROk (with_st w (st_tape s' [])) /\ weff w (with_st w (st_tape s' [])) e en' m.
Proof.
  intros Hf F. unfold st_op. rewrite Hf. split; [reflexivity|].
  repeat (split; [reflexivity|]). split; [exact (eff_seff F)|reflexivity].
Qed.

Section StOps.
Variable w : world.
Hypothesis Hcfg : w_cfg w = cfg_std 1.
Hypothesis Htape : tape (w_st w) = [].

Lemma E_std : E w = env_of (cfg_std 1). Proof. unfold E. rewrite Hcfg. reflexivity. Qed.

Lemma st_op_eff f e en' m :
  (exists s', f (st_tape (w_st w) [TSwap false; TSwap false]) = StateModel.Ok s' /\
     eff (st_tape (w_st w) [TSwap false; TSwap false]) s' e en' m) ->
  exists w', st_op w f = ROk w' /\ weff w w' e en' m.
Proof. intros (s' & H1 & F1). destruct (st_op_ok w f s' e en' m H1 F1). eauto. Qed.

Lemma plain_w e sd f en :
  nth_error (ents (w_st w)) e = Some en ->
  (forall x, s_oid (f x) = s_oid x /\ s_path (f x) = s_path x) ->
  exists w', plain w e sd f = ROk w' /\ weff w w' e (ss en sd (f (gs en sd))) None.
Proof. intros Hn Hf. apply st_op_eff, set_plain_eff; assumption. Qed.

Lemma set_changed_w e sd v en :
  nth_error (ents (w_st w)) e = Some en ->
  exists w', AlgoModel.set_changed w e sd v = ROk w' /\ weff w w' e (chg_entry en sd v) (Some (chg_pending en sd v)).
Proof.
  intros Hn. unfold AlgoModel.set_changed. rewrite E_std. apply st_op_eff, set_changed_eff; [apply env_of_std|exact Hn].
Qed.

Lemma set_ignored_w e v en :
  nth_error (ents (w_st w)) e = Some en ->
  exists w', AlgoModel.set_ignored w e v = ROk w' /\ weff w w' e (ign_entry en v) (ign_member en v).
Proof. intros Hn. apply st_op_eff, set_ignored_eff. exact Hn. Qed.

Lemma set_priority_w e v en :
  nth_error (ents (w_st w)) e = Some en ->
  exists w', AlgoModel.set_priority w e v = ROk w' /\ weff w w' e (prio_entry (env_of (cfg_std 1)) en v) (prio_member (env_of (cfg_std 1)) en v).
Proof.
  intros Hn. unfold AlgoModel.set_priority. rewrite E_std. apply st_op_eff, set_priority_eff; [apply env_of_std|exact Hn].
Qed.

Lemma tick_w e en : nth_error (ents (w_st w)) e = Some en ->
  weff w (fst (tick w)) e en None /\ snd (tick w) = now (w_st w) + 1000 /\ now (w_st (fst (tick w))) = now (w_st w) + 1000.
Proof.
  intros Hn. unfold tick. cbn [fst snd]. split; [|split; reflexivity].
  repeat (split; [reflexivity|]). split; [|exact Htape]. cbn [with_st w_st].
  split; [symmetry; apply upd_at_same; exact Hn|]. split; [reflexivity|]. split; [cbn [st_now now]; lia|]. split; [reflexivity|].
  intros HI. apply (IdxJ_view (w_st w)); [reflexivity|exact HI].
Qed.

End StOps.

(* what every step of unconditionally_get_latest keeps of an entry; the change stamp stays or goes from none to a
   fresh one *)
Definition prog (en en' : StateModel.entry) (sd : bool) (nw : N) (m : option bool) : Prop :=
  upd_side en en' sd /\
  ((s_chg (gs en' sd) = s_chg (gs en sd) /\ m = None) \/
   (exists t, s_chg (gs en' sd) = CNum t /\ tchg (CNum t) = true /\ chgval (s_chg (gs en sd)) <= t /\ t <= nw /\ m = Some true /\
               tstr (s_oid (gs en' sd)) = true)).

Lemma prog_upd en en' sd nw m : prog en en' sd nw m -> upd_side en en' sd.
Proof. intros (U & _). exact U. Qed.
Arguments prog_upd {en en' sd nw m}.
Lemma prog_refl en sd nw : prog en en sd nw None.
Proof. split; [apply upd_side_refl|left; auto]. Qed.
Lemma prog_trans en en1 en2 sd n1 n2 m1 m2 : n1 <= n2 -> prog en en1 sd n1 m1 -> prog en1 en2 sd n2 m2 -> prog en en2 sd n2 (mcomp m1 m2).
Proof.
  intros Hle (U1 & G1) (U2 & G2). split; [exact (upd_side_trans _ _ _ _ U1 U2)|].
  destruct G2 as [(G2 & Hm2)|(t & G3 & G4 & G5 & G6 & Hm2 & G7)]; subst m2; cbn [mcomp].
  - destruct G1 as [(G1 & Hm1)|(t & G3 & G4 & G5 & G6 & Hm1 & G7)]; subst m1; [left; split; congruence|].
    right. exists t. rewrite G2, (upd_side_oid _ _ sd sd U2). repeat split; auto. lia.
  - right. exists t. repeat split; auto.
    destruct G1 as [(G1 & _)|(t' & G3' & G4' & G5' & G6' & _)]; [rewrite <- G1; exact G5|].
    rewrite G3' in G5. simpl in G5. lia.
Qed.

Lemma prog_plain en sd f nw :
  (forall x, s_oid (f x) = s_oid x /\ s_spath (f x) = s_spath x /\ s_shash (f x) = s_shash x /\ s_force (f x) = s_force x /\ s_chg (f x) = s_chg x) ->
  prog en (ss en sd (f (gs en sd))) sd nw None.
Proof.
  intros Hf. destruct (Hf (gs en sd)) as (A & B & C & D & F). split; [apply upd_side_ss; assumption|].
  left. rewrite gs_ss_same. auto.
Qed.
Lemma gs_prio0 en sd : gs (prio_entry (env_of (cfg_std 1)) en 0) sd = gs en sd.
Proof. rewrite prio0_entry. destruct sd; reflexivity. Qed.
Lemma prog_prio0 en sd nw : prog en (prio_entry (env_of (cfg_std 1)) en 0) sd nw None.
Proof. unfold prog, upd_side. rewrite !gs_prio0, prio0_entry. split; [repeat split|left; auto]. Qed.

Lemma prog_maxchg en en' sd nw m : prog en en' sd nw m -> maxchg en <= maxchg en'.
Proof.
  intros ((A & _) & G). unfold maxchg, chgv.
  assert (Hs: chgval (s_chg (gs en sd)) <= chgval (s_chg (gs en' sd))).
  { destruct G as [(G & _)|(t & G2 & _ & G3 & _)]; [rewrite G; apply N.le_refl|]. rewrite G2. exact G3. }
  destruct sd; simpl in *; rewrite A; lia.
Qed.
Arguments prog_maxchg {en en' sd nw m}.
Lemma prog_maxchg_le en en' sd nw m : prog en en' sd nw m -> maxchg en' <= N.max (maxchg en) nw.
Proof.
  intros ((A & _) & G). unfold maxchg, chgv.
  destruct G as [(G & _)|(t & G & _ & _ & Ht & _)]; destruct sd; simpl in *; rewrite A, G; simpl; lia.
Qed.
Arguments prog_maxchg_le {en en' sd nw m}.
Lemma prog_flag evl evl' en en' sd nw m k : prog en en' sd nw m -> (pd evl sd k = true -> pd evl' sd k = true) ->
  flagP evl en sd k -> flagP evl' en' sd k.
Proof.
  intros (_ & G) Hpd [F|F]; [|right; exact (Hpd F)]. left.
  destruct G as [(G & _)|(t & G & G2 & _)]; [rewrite G; exact F|rewrite G; exact G2].
Qed.
Lemma flagged_prog en en' sd nw m : prog en en' sd nw m ->
  flagged en' = match m with Some b => b | None => flagged en end.
Proof.
  intros (U & G). destruct G as [(G & ->)|(t & Hc & Ht & _ & _ & -> & Ho)].
  - pose proof (upd_side_oid _ _ sd sd U) as C. destruct U as (A & _).
    unfold flagged. destruct sd; simpl in *; rewrite A, C, G; reflexivity.
  - apply (flagged_side en' sd); [rewrite Hc; exact Ht|exact Ho].
Qed.
Arguments flagged_prog {en en' sd nw m}.

Lemma mcomp_None_r m : mcomp m None = m. Proof. reflexivity. Qed.

Definition Std (w : world) (e : nat) (en : StateModel.entry) : Prop :=
  w_cfg w = cfg_std 1 /\ tape (w_st w) = [] /\ IdxJ (w_st w) /\ nth_error (ents (w_st w)) e = Some en.

Lemma weff_std w w' e en en' m : weff w w' e en' m -> Std w e en -> Std w' e en'.
Proof.
  intros (A & _ & _ & _ & S & T) (C & _ & J & N). pose proof (seff_nth S N). destruct S as (_ & _ & _ & _ & SJ).
  split; [congruence|]. split; [exact T|]. split; [exact (SJ J)|assumption].
Qed.
Arguments weff_std {w w' e en en' m}.

(* [a], run from a standard world w, is a step of the refresh of side sd of entry e and leaves that side in Q *)
Definition runs (a : result world) (w : world) (e : nat) (sd : bool) (en : StateModel.entry) (Q : sidest -> Prop) : Prop :=
  Std w e en -> exists w' en' m, a = ROk w' /\ weff w w' e en' m /\ prog en en' sd (now (w_st w')) m /\ Q (gs en' sd).

Lemma runs_ret w e sd en (Q : sidest -> Prop) : Q (gs en sd) -> runs (ROk w) w e sd en Q.
Proof.
  intros HQ (_ & T & _ & N). exists w, en, None.
  split; [reflexivity|]. split; [apply weff_refl; assumption|]. split; [apply prog_refl|exact HQ].
Qed.

Lemma runs_bind a f w e sd en (R Q : sidest -> Prop) :
  runs a w e sd en R -> (forall w1 en1, R (gs en1 sd) -> runs (f w1) w1 e sd en1 Q) -> runs (rbind a f) w e sd en Q.
Proof.
  intros Ha Hf S. destruct (Ha S) as (w1 & en1 & m1 & -> & W1 & P1 & HR).
  destruct (Hf w1 en1 HR (weff_std W1 S)) as (w2 & en2 & m2 & H2 & W2 & P2 & HQ).
  exists w2, en2, (mcomp m1 m2). split; [exact H2|]. split; [apply (weff_trans W1 W2)|]. split; [|exact HQ].
  apply (prog_trans en en1 en2 sd _ _ m1 m2 (weff_now W2) P1 P2).
Qed.

Lemma runs_get_e f w e sd en (Q : sidest -> Prop) : runs (f en) w e sd en Q -> runs (rbind (get_e w e) f) w e sd en Q.
Proof. intros H S. rewrite (get_e_nth w e en) by apply S. exact (H S). Qed.

Lemma runs_imp a w e sd en (R Q : sidest -> Prop) : runs a w e sd en R -> (forall x, R x -> Q x) -> runs a w e sd en Q.
Proof. intros Ha HQ S. destruct (Ha S) as (w' & en' & m & H & W & P & HR). exists w', en', m. auto. Qed.

(* the three operations of a refresh; each leaves the side a function of the old one *)
Lemma runs_plain w e sd f en (Q : sidest -> Prop) :
  (forall x, s_oid (f x) = s_oid x /\ s_path (f x) = s_path x /\ s_spath (f x) = s_spath x /\
             s_shash (f x) = s_shash x /\ s_force (f x) = s_force x /\ s_chg (f x) = s_chg x) ->
  Q (f (gs en sd)) -> runs (plain w e sd f) w e sd en Q.
Proof.
  intros Hf HQ (C & _ & _ & N).
  destruct (plain_w w e sd f en N) as (w' & H1 & W1); [intros x; split; apply (Hf x)|].
  exists w', (ss en sd (f (gs en sd))), None. split; [exact H1|]. split; [exact W1|]. split.
  - apply prog_plain. intros x. destruct (Hf x) as (A & _ & B). auto.
  - rewrite gs_ss_same. exact HQ.
Qed.

(* touch_changed: a side without a change stamp gets the time of a fresh tick *)
Lemma runs_touch w e sd en o (Q : sidest -> Prop) :
  s_oid (gs en sd) = Some o -> tstr (Some o) = true -> (forall c, Q (w_chg (gs en sd) c)) ->
  runs (touch_changed w e sd) w e sd en Q.
Proof.
  intros Ho Hto HQ. apply runs_get_e.
  destruct (ign_eqb (e_ign en) INone && negb (tchg (s_chg (gs en sd))))%bool eqn:Ec.
  - intros S. pose proof S as (C & T & _ & N). apply andb_prop in Ec as [_ Hc]. apply negb_true_iff in Hc.
    destruct (tick_w w T e en N) as (W1 & Hs & Hnow). destruct (tick w) as [w1 t0]. cbn [fst snd] in *. subst t0.
    pose proof (weff_std W1 S) as (C1 & T1 & _ & N1).
    set (t := now (w_st w) + 1000) in *. assert (Htt: tchg (CNum t) = true) by (apply tchg_pos; unfold t; lia).
    destruct (set_changed_w w1 C1 e sd (CNum t) en N1) as (w2 & H2 & W2).
    destruct (chg_entry_stamp en sd (CNum t) Htt) as (Hp & He); [rewrite Ho; exact Hto|].
    rewrite Hp, He in W2. pose proof (weff_trans W1 W2) as W.
    exists w2, (ss en sd (w_chg (gs en sd) (CNum t))), (Some true). split; [exact H2|]. split; [exact W|]. rewrite gs_ss_same. split; [|apply HQ].
    split; [apply upd_side_ss; reflexivity|]. rewrite gs_ss_same.
    right. exists t. split; [reflexivity|]. split; [exact Htt|]. split; [|split; [|split; [reflexivity|cbn [w_chg s_oid]; rewrite Ho; exact Hto]]].
    + destruct (s_chg (gs en sd)) as [| |c]; simpl in *; try lia. destruct c; [lia|discriminate].
    + pose proof (weff_now W2). lia.
  - apply runs_ret. replace (gs en sd) with (w_chg (gs en sd) (s_chg (gs en sd))) by (destruct (gs en sd); reflexivity). apply HQ.
Qed.

Lemma runs_set_path_new w e sd p o en (Q : sidest -> Prop) :
  s_oid (gs en sd) = Some o -> tstr (Some o) = true -> s_path (gs en sd) = None -> s_otype (gs en sd) <> Dir ->
  tstr (Some p) = true -> Q (w_path (gs en sd) (Some p)) ->
  runs (AlgoModel.set_path w e sd (Some p)) w e sd en Q.
Proof.
  intros Ho Hto Hp Hot Htp HQ (C & _ & J & N).
  destruct (set_path_first_eff (env_of (cfg_std 1)) _ e sd p o en (IdxJ_st_tape _ [TSwap false; TSwap false] J) N Ho Hto Hp Hot Htp) as (s' & H0 & F0 & _).
  destruct (st_op_ok w (fun s => StateModel.set_path (env_of (cfg_std 1)) s e sd (Some p)) s' e _ None H0 F0) as (H1 & W1).
  unfold AlgoModel.set_path. rewrite (E_std w C).
  exists (with_st w (st_tape s' [])), (prio_entry (env_of (cfg_std 1)) (ss en sd (w_path (gs en sd) (Some p))) 0), None. split; [exact H1|]. split; [exact W1|]. split.
  - apply (prog_trans en (ss en sd (w_path (gs en sd) (Some p))) _ sd _ _ None None (N.le_refl _)); [|apply prog_prio0].
    apply (prog_plain en sd (fun y => w_path y (Some p))). intros; repeat split.
  - rewrite gs_prio0, gs_ss_same. exact HQ.
Qed.

Lemma key_of_std w sd k : w_cfg w = cfg_std 1 -> key_of w sd (ostr_k k) = ROk (kid_of k).
Proof. intros H. unfold key_of. rewrite H. destruct sd; reflexivity. Qed.

Lemma uget_latest_live w e sd en k ob n :
  w_cfg w = cfg_std 1 -> PWF (prov_of w sd) -> s_oid (gs en sd) = Some (ostr_k k) ->
  obj_at w sd k = Some ob -> ProvModel.o_exists ob = true -> ProvModel.o_kind ob = ProvModel.KFile ->
  ProvModel.o_path ob = [root_name sd; n] -> name_ok n = true ->
  popt (s_path (gs en sd)) (pstr (ProvModel.o_path ob)) ->
  runs (uget_latest w e sd) w e sd en (fun x' =>
    s_otype x' = File /\ s_ex x' = ExExists /\
    s_hash x' = Some (ProvModel.o_data ob) /\ s_path x' = Some (pstr (ProvModel.o_path ob))).
Proof.
  intros Hcfg HW Ho Hob Hl Hkf Hp Hnok Hpath.
  (* the links in body order: hash (with a stamp if it changed), exists, type, path (with a stamp if it changed), the
     dirty-only write; each [runs_bind] names the side as the link leaves it, as a function of the side before *)
  unfold uget_latest. apply runs_get_e. rewrite Ho, (key_of_std w sd k Hcfg). cbn [rbind].
  unfold obj_at in Hob. rewrite (info_oid_kid _ _ _ HW Hob), Hl.
  unfold ProvModel.info_of. cbn [ProvModel.i_data ProvModel.i_kind ProvModel.i_path]. rewrite Hkf. cbn [otype_of_kind].
  assert (Hnp: nps (cv_of (w_cfg w) sd) (pstr (ProvModel.o_path ob)) = pstr (ProvModel.o_path ob)).
  { rewrite Hcfg, Hp. replace (cv_of (cfg_std 1) sd) with (mk_conv true) by (destruct sd; reflexivity). apply nps_file, Hnok. }
  rewrite Hnp. set (d := ProvModel.o_data ob). set (q := pstr (ProvModel.o_path ob)) in *.
  apply (runs_bind _ _ _ _ _ _ (fun x => exists c, x = w_chg (w_hash (gs en sd) (Some d)) c)).
  { destruct (oN_eqb (s_hash (gs en sd)) (Some d)) eqn:Eh.
    - apply runs_ret. exists (s_chg (gs en sd)).
      destruct (s_hash (gs en sd)) as [h|] eqn:Eh'; [|discriminate]. apply N.eqb_eq in Eh. subst h.
      rewrite <- Eh'. destruct (gs en sd); reflexivity.
    - apply (runs_bind _ _ _ _ _ _ (fun x => x = w_hash (gs en sd) (Some d))).
      + apply runs_plain; [intros; repeat split|reflexivity].
      + intros w1 en1 G1. apply (runs_touch w1 e sd en1 (ostr_k k)); [rewrite G1; exact Ho|apply tstr_ostr|].
        intros c. exists c. rewrite G1. reflexivity. }
  intros wA enA (cA & GA).
  apply (runs_bind _ _ _ _ _ _ (fun x => x = w_ex (gs enA sd) ExExists)).
  { apply runs_plain; [intros; repeat split|reflexivity]. }
  intros wB enB GB.
  apply (runs_bind _ _ _ _ _ _ (fun x => x = w_otype (gs enB sd) File)).
  { apply runs_plain; [intros; repeat split|reflexivity]. }
  intros wC enC GC. rewrite GB, GA in GC. apply runs_get_e.
  apply (runs_bind _ _ _ _ _ _ (fun x => exists c, x = w_chg (w_path (gs enC sd) (Some q)) c)).
  { rewrite GC at 1. cbn [w_otype w_ex w_chg w_hash s_path]. destruct Hpath as [Hpn|Hps].
    - rewrite Hpn. cbn [ostr_eqb].
      apply (runs_bind _ _ _ _ _ _ (fun x => x = w_path (gs enC sd) (Some q))).
      + apply (runs_set_path_new wC e sd q (ostr_k k)); rewrite ?GC; cbn [w_otype w_ex w_chg w_hash s_oid s_path s_otype];
          auto using tstr_ostr; [discriminate|apply tstr_pstr].
      + intros w1 en1 G1. apply (runs_touch w1 e sd en1 (ostr_k k)); [rewrite G1, GC; exact Ho|apply tstr_ostr|].
        intros c. exists c. rewrite G1. reflexivity.
    - rewrite Hps, (proj2 (ostr_eqb_eq _ _) eq_refl). apply runs_ret.
      exists (s_chg (gs enC sd)). rewrite GC. cbn [w_otype w_ex w_chg w_hash w_path s_chg]. rewrite <- Hps. destruct (gs en sd); reflexivity. }
  intros wE enE (cE & GE). rewrite GC in GE.
  apply runs_plain; [intros; repeat split|]. rewrite GE. repeat split.
Qed.

Lemma EntOk_side evl evl' g w w' e en en' sd nw m :
  EntOk evl g w e en -> prog en en' sd nw m ->
  s_otype (gs en' sd) = File ->
  (forall sd0 k0, obj_at w' sd0 k0 = obj_at w sd0 k0) ->
  x_lg (getx w' e (negb sd)) = x_lg (getx w e (negb sd)) ->
  (forall sd0 k0, pd evl sd0 k0 = true -> pd evl' sd0 k0 = true) ->
  (forall k ob, s_oid (gs en sd) = Some (ostr_k k) -> obj_at w sd k = Some ob -> SideNew evl' g w' e en en' sd k ob) ->
  empty_kept en en' sd ->
  EntOk evl' g w' e en'.
Proof.
  intros EO P Hot Hobj Hlgo Hpd Hnew Hnone. pose proof (prog_upd P) as U.
  apply (EntOk_upd evl evl' g w w' e en en' sd EO U Hot Hobj).
  - intros k ob _ _ F. split; [apply Hpd|]. intros Hd.
    apply (dueP_mono evl evl' w w' e en en' _ k ob (fo_due F Hd)); [apply Hpd|exact Hlgo|apply (prog_maxchg P)|apply U].
  - intros k ob Ho Hob F. apply (FullOk_upd evl evl' g w w' e en en' sd k ob U F (Hobj (negb sd)) (Hnew k ob Ho Hob)).
    intros _ X. left. apply (prog_flag evl evl' en en' sd nw m k P (Hpd sd k) X).
  - exact Hnone.
Qed.

