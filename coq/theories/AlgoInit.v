(* AlgoInit.v — the initial world (both roots paired, nothing else) satisfies the coupling invariant. *)
From Coq Require Import NArith List Bool Arith Lia.
From CS Require Import Str StrLemmas StateModel StateProofs ProvModel ProvProofs AlgoModel AlgoCheck AlgoProv AlgoInv.
Import ListNotations.
Local Open Scope N_scope.

(* the fresh provider holds the account root only; the sync root is then made by mkdir *)
Lemma PWF_init0 : PWF (ProvModel.init {| c_oidpath := false; c_cs := true; c_forbidden := [] |}).
Proof.
  constructor; try reflexivity; cbn.
  - (* pw_oid *) intros [|[|k]] o H; simpl in H; try discriminate. injection H as <-. reflexivity.
  - (* pw_dict_id *) intros [|p]; [reflexivity|]. destruct (Nat.leb_spec (N.to_nat (N.pos p)) 0); [lia|reflexivity].
  - (* pw_dict_path *) intros q r H. destruct (path_eqb q []) eqn:E; [|discriminate]. apply path_eqb_eq in E. injection H as <-.
    eexists. split; [reflexivity|]. simpl. congruence.
  - (* pw_live_path *) intros [|[|k]] o H; simpl in H; try discriminate. injection H as <-. reflexivity.
Qed.

Lemma PWF_init sd : PWF (prov_init false true sd).
Proof.
  unfold prov_init. set (p0 := ProvModel.init _). pose proof PWF_init0 as W0. fold p0 in W0.
  assert (Hfree: forall k o, nth_error (p_heap p0) k = Some o -> o_exists o = true -> o_path o <> [root_name sd]).
  { intros [|[|k]] o H; simpl in H; try discriminate. injection H as <-. discriminate. }
  unfold mkdir. cbn [verify_parent]. rewrite (no_forbidden _ _ (pw_noforbid _ W0)), (info_path_none _ _ W0 Hfree).
  destruct (alloc_spec p0 [root_name sd] KDir 0 W0 Hfree) as (p' & A & [W' _ _ _ _]). rewrite A.
  apply PWF_with_cursor, W'.
Qed.

Lemma IdxJ_init t0 : IdxJ (state_init t0).
Proof.
  split.
  - intros e sd o H. unfold oid_of in H. destruct e as [|[|e]]; simpl in H.
    + assert (o = kstr (KId 1)) by (destruct sd; cbn in H; injection H as H; symmetry; exact H). subst o. split; [destruct sd; reflexivity|].
      intros p Hp _. unfold path_of in Hp. simpl in Hp. assert (p = pstr [root_name sd]) by (destruct sd; cbn in Hp; injection Hp as Hp; symmetry; exact Hp). subst p.
      destruct sd; reflexivity.
    + destruct sd; simpl in H; discriminate.
    + destruct e; discriminate.
  - split.
    + intros sd o e H. assert (Ho: oids (state_init t0) sd = [(kstr (KId 1), 0%nat)]) by (destruct sd; reflexivity).
      rewrite Ho in H. cbn [al_get] in H. destruct (str_eqb o (kstr (KId 1))) eqn:E1; [|discriminate].
      apply str_eqb_eq in E1. injection H as <-. subst o. destruct sd; reflexivity.
    + intros sd p o e H. unfold slot_get in H.
      assert (Hp: paths (state_init t0) sd = [(pstr [root_name sd], [(kstr (KId 1), 0%nat)])]) by (destruct sd; reflexivity).
      rewrite Hp in H. cbn [al_get] in H. destruct (str_eqb p (pstr [root_name sd])) eqn:E1; [|discriminate].
      apply str_eqb_eq in E1. cbn [al_get] in H. destruct (str_eqb o (kstr (KId 1))) eqn:E2; [|discriminate].
      apply str_eqb_eq in E2. injection H as <-. subst o p. destruct sd; (split; [reflexivity|split; [reflexivity|discriminate]]).
Qed.

Theorem init_inv t0 lg0 : lg0 <= t0 + 1 -> Inv g0 (world_init (cfg_std 1) t0 lg0).
Proof.
  intros Hlg. unfold Inv.
  assert (Hev: forall sd, real_evl (world_init (cfg_std 1) t0 lg0) sd = []) by (intros sd; destruct sd; reflexivity).
  assert (Hheap: forall sd, length (p_heap (prov_of (world_init (cfg_std 1) t0 lg0) sd)) = 2%nat) by (intros sd; destruct sd; reflexivity).
  constructor.
  - (* i_cfg *) reflexivity.
  - intros sd. destruct sd; apply PWF_init.
  - (* i_shape *) intros sd. constructor.
    + eexists. split; [destruct sd; reflexivity|]. destruct sd; repeat split; reflexivity.
    + eexists. split; [destruct sd; reflexivity|]. destruct sd; repeat split; reflexivity.
    + intros k ob Hk H. unfold obj_at in H. assert (nth_error (p_heap (prov_of (world_init (cfg_std 1) t0 lg0) sd)) k = None) by (apply nth_error_None; rewrite Hheap; exact Hk).
      congruence.
  - (* i_log *) intros sd ev Hin. rewrite Hev in Hin. destruct Hin.
  - apply IdxJ_init.
  - (* i_tape *) reflexivity.
  - (* i_csc *) intros e en Hn Hf. destruct e as [|[|[|e]]]; simpl in Hn; try discriminate; injection Hn as <-; discriminate.
  - (* i_csb *) intros x H. discriminate.
  - (* i_cse *) intros e en Hn H. discriminate.
  - (* i_clk *) simpl. lia.
  - (* i_clke *) intros e en Hn. destruct e as [|[|[|e]]]; simpl in Hn; try discriminate;
      injection Hn as <-; (split; [unfold maxchg, chgv; simpl; lia|]); intros sd; destruct sd; simpl; lia.
  - (* i_roots *) eexists. eexists. split; [reflexivity|]. split; [reflexivity|]. repeat split; reflexivity.
  - (* i_cov *) intros sd k Hk Hlt. rewrite Hheap in Hlt. lia.
  - (* i_ents *) intros e en He Hn. exfalso. destruct e as [|[|e]]; [lia|lia|]. destruct e; discriminate.
  - (* i_cove *) intros sd k Hk Hlt. rewrite Hheap in Hlt. lia.
  - (* i_ghost *) intros sd k cs H. destruct sd; discriminate.
  - (* i_xlen *) intros e sd He. simpl in He. unfold getx. destruct e as [|[|e]]; [lia|lia|]. simpl. destruct e, sd; reflexivity.
  - (* i_seen *) intros e en sd He Hn. exfalso. destruct e as [|[|e]]; [lia|lia|]. destruct e; discriminate.
Qed.
