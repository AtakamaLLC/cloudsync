(* ThreadProofs.v — C15: a well-locked, disciplined trace is serialisable; the acceptors decide the predicates.
   Everything is for ALL traces: any length, any number of threads, any nesting depth of the re-entrant lock,
   any state type, any transformer semantics of Mut and any observation function of Read.
   The lemmas are here; the theorems they add up to are stated and proved in PropC15.v.  After the section:
   the counter machine and the traces that refute serialisability without the discipline. *)
From Coq Require Import Arith NArith List Bool Lia.
From CS Require Import Sx ListFacts ThreadModel.
Import ListNotations.

Section Proofs.
Variable X : Type.
Notation event := (event X).
Implicit Types (e : event) (tr : list event) (l : lockst).

Lemma lock_after_app : forall tr1 tr2 l, lock_after l (tr1 ++ tr2) = lock_after (lock_after l tr1) tr2.
Proof. induction tr1 as [|e r IH]; simpl; intros; [reflexivity | apply IH]. Qed.

Lemma all_from_app : forall (P : lockst -> event -> Prop) tr1 tr2 l,
  all_from P l (tr1 ++ tr2) <-> all_from P l tr1 /\ all_from P (lock_after l tr1) tr2.
Proof.
  induction tr1 as [|e r IH]; simpl; intros.
  - tauto.
  - rewrite IH. tauto.
Qed.

Lemma all_from_prefix : forall (P : lockst -> event -> Prop) p q l, all_from P l (p ++ q) -> all_from P l p.
Proof. intros P p q l H. apply all_from_app in H. tauto. Qed.

(* [violations_from] and [lock_errors_from] are one scan, for two tests [bad] of an event against the lock *)
Fixpoint positions_from (bad : lockst -> event -> bool) (l : lockst) (i : N) (tr : list event) : list N :=
  match tr with
  | [] => []
  | e :: r => let rest := positions_from bad (lock_next l e) (N.succ i) r in
              if bad l e then i :: rest else rest
  end.

Definition bad_disc (l : lockst) (e : event) : bool := is_access e && negb (owns l (tid e)).
Definition bad_lock (l : lockst) (e : event) : bool := negb (lock_ok l e).

Lemma violations_from_positions : forall tr l i, violations_from l i tr = positions_from bad_disc l i tr.
Proof. induction tr as [|e r IH]; simpl; intros; [reflexivity|]. rewrite IH. reflexivity. Qed.

Lemma lock_errors_from_positions : forall tr l i, lock_errors_from l i tr = positions_from bad_lock l i tr.
Proof.
  induction tr as [|e r IH]; simpl; intros; [reflexivity|]. rewrite IH. unfold bad_lock.
  destruct (lock_ok l e); reflexivity.
Qed.

Lemma bad_disc_false : forall l e, bad_disc l e = false <-> ok_disc l e.
Proof.
  intros. unfold bad_disc, ok_disc. destruct (is_access e), (owns l (tid e)); simpl; intuition congruence.
Qed.
Lemma bad_disc_true : forall l e, bad_disc l e = true <-> is_access e = true /\ owns l (tid e) = false.
Proof. intros. unfold bad_disc. rewrite andb_true_iff, negb_true_iff. reflexivity. Qed.

Lemma positions_none : forall bad (P : lockst -> event -> Prop), (forall l e, bad l e = false <-> P l e) ->
  forall tr l i, hd_error (positions_from bad l i tr) = None <-> all_from P l tr.
Proof.
  intros bad P H. induction tr as [|e r IH]; simpl; intros l i; [tauto|].
  specialize (H l e). destruct (bad l e); simpl.
  - split; [discriminate | intros [Hp _]; apply H in Hp; discriminate].
  - rewrite IH. tauto.
Qed.

(* [serial] has no acceptor of its own in the model; the same scan with the test [foreign] decides it *)
Lemma serial_iff : forall tr, serial tr <-> hd_error (positions_from foreign None 0 tr) = None.
Proof. intros tr. symmetry. apply positions_none. reflexivity. Qed.

Lemma position_shift : forall (i : N) e (p : list event),
  (i + N.of_nat (length (e :: p)) = N.succ i + N.of_nat (length p))%N.
Proof. intros. cbn [length]. lia. Qed.

Lemma positions_first : forall bad (P : lockst -> event -> Prop), (forall l e, bad l e = false <-> P l e) ->
  forall tr l i k, hd_error (positions_from bad l i tr) = Some k ->
  exists p e q, tr = p ++ e :: q /\ (i + N.of_nat (length p))%N = k /\ all_from P l p /\
                bad (lock_after l p) e = true.
Proof.
  intros bad P H. induction tr as [|e r IH]; cbn [positions_from]; intros l i k Hk; [discriminate|].
  destruct (bad l e) eqn:Hb; cbn [hd_error] in Hk.
  - injection Hk as <-. exists [], e, r. repeat split; [apply N.add_0_r | exact Hb].
  - apply IH in Hk. destruct Hk as (p & e' & q & -> & <- & Hp & Hb'). apply H in Hb.
    exists (e :: p), e', q. repeat split; [apply position_shift | exact Hb | exact Hp | exact Hb'].
Qed.

Lemma positions_spec : forall bad (Q : lockst -> event -> Prop), (forall l e, bad l e = true <-> Q l e) ->
  forall tr l i k, In k (positions_from bad l i tr) <->
  exists p e q, tr = p ++ e :: q /\ (i + N.of_nat (length p))%N = k /\ Q (lock_after l p) e.
Proof.
  intros bad Q HQ. induction tr as [|e r IH]; cbn [positions_from]; intros l i k.
  - split; [intros []|]. intros ([|] & ? & ? & [=] & _).
  - split.
    + intros H.
      assert (Hc : bad l e = true /\ i = k \/ In k (positions_from bad (lock_next l e) (N.succ i) r))
        by (destruct (bad l e); cbn [In] in H; tauto).
      destruct Hc as [[Hb%HQ <-]|(p & e' & q & -> & <- & Hb)%IH].
      * exists [], e, r. repeat split; [apply N.add_0_r | exact Hb].
      * exists (e :: p), e', q. repeat split; [apply position_shift | exact Hb].
    + intros ([|e0 p] & e' & q & [= <- Hr] & <- & Hb).
      * apply HQ in Hb. cbn [lock_after] in Hb. rewrite Hb. left. symmetry. apply N.add_0_r.
      * rewrite position_shift.
        enough (In (N.succ i + N.of_nat (length p))%N (positions_from bad (lock_next l e) (N.succ i) r))
          by (destruct (bad l e); [right|]; assumption).
        apply IH. exists p, e', q. repeat split; [exact Hr | exact Hb].
Qed.

Notation ser l sec tr := (concat (@ser_blocks X l sec tr)).

Lemma ser_nil : forall l sec, ser l sec [] = sec.
Proof. intros l [|a s]; simpl; [reflexivity | rewrite app_nil_r; reflexivity]. Qed.

Lemma foreign_is_tau : forall l e, foreign l e = true -> ok_lock l e -> ok_disc l e -> exists t x, e = Tau t x.
Proof.
  intros [[u d]|] e Hf Hok Hd; [|discriminate]. unfold ok_lock, ok_disc in *. simpl in Hf.
  apply negb_true_iff in Hf. rewrite N.eqb_sym in Hf.
  destruct e as [t|t|t x|t x|t x]; simpl in *; eauto; try specialize (Hd eq_refl); congruence.
Qed.

Lemma lock_next_foreign : forall l e, foreign l e = true -> lock_next l e = l.
Proof.
  intros [[u d]|] e H; [|discriminate]. simpl in H. apply negb_true_iff in H. rewrite N.eqb_sym in H.
  destruct e; simpl in *; try rewrite H; reflexivity.
Qed.

Lemma lock_next_holder : forall u d e u' d', lock_next (Some (u, d)) e = Some (u', d') -> u' = u.
Proof.
  intros u d e u' d' H. destruct e as [t|t|t x|t x|t x]; simpl in H; try congruence.
  - destruct (N.eqb u t); congruence.
  - destruct (N.eqb u t); [destruct d|]; congruence.
Qed.

Lemma lock_next_free_some : forall e u d, lock_next None e = Some (u, d) -> tid e = u.
Proof. intros e u d H. destruct e; simpl in *; congruence. Qed.

(* One event through [ser_blocks]: the blocks it completes and the section in progress afterwards.  An event of
   another thread is a block of its own, put in front of the section; an event of the holder (or of anybody when
   the lock is free) joins the section, which is complete when the lock is free again. *)
Definition ser_step (l : lockst) (sec : list event) (e : event) : list (list event) * list event :=
  if foreign l e then ([[e]], sec)
  else match lock_next l e with None => ([sec ++ [e]], []) | Some _ => ([], sec ++ [e]) end.

Definition owned_by (l : lockst) (sec : list event) : Prop :=
  match l with None => sec = [] | Some (u, _) => forall e, In e sec -> tid e = u end.

Lemma ser_blocks_cons : forall l sec e r, owned_by l sec ->
  ser_blocks l sec (e :: r) = fst (ser_step l sec e) ++ ser_blocks (lock_next l e) (snd (ser_step l sec e)) r.
Proof.
  intros l sec e r Ho. unfold ser_step. destruct (foreign l e) eqn:Hf.
  - rewrite (lock_next_foreign _ _ Hf). destruct l as [[u d]|]; [|discriminate].
    simpl in *. apply negb_true_iff in Hf. rewrite Hf. reflexivity.
  - destruct l as [[u d]|]; simpl in *.
    + apply negb_false_iff in Hf. rewrite Hf. destruct (lock_next (Some (u, d)) e); reflexivity.
    + subst sec. destruct (lock_next None e); reflexivity.
Qed.

Definition legal (l : lockst) (e : event) : Prop := ok_lock l e /\ ok_disc l e /\ ok_serial l e.

Lemma all_from_legal : forall tr l,
  all_from legal l tr <-> well_locked_from l tr /\ disciplined_from l tr /\ serial_from l tr.
Proof.
  unfold well_locked_from, disciplined_from, serial_from.
  induction tr as [|e r IH]; simpl; intros.
  - tauto.
  - rewrite IH. unfold legal. tauto.
Qed.

(* [sec], the part of the critical section in progress that its holder performed: on its own it is a legal trace from
   the free lock to the present one *)
Definition sec_inv (l : lockst) (sec : list event) : Prop :=
  all_from legal None sec /\ lock_after None sec = l /\ owned_by l sec.

Lemma sec_inv_nil : sec_inv None [].
Proof. repeat split. Qed.

(* the third part is owned_by (lock_next l e) (sec ++ [e]) while the lock stays held; when it becomes free the section
   is complete and only the fact that one thread performed all of it is kept *)
Lemma sec_inv_step : forall l sec e, sec_inv l sec -> foreign l e = false -> ok_lock l e -> ok_disc l e ->
  all_from legal None (sec ++ [e]) /\ lock_after None (sec ++ [e]) = lock_next l e /\
  exists u, (forall e', In e' (sec ++ [e]) -> tid e' = u) /\ forall u' d', lock_next l e = Some (u', d') -> u' = u.
Proof.
  intros l sec e (Hg & Hl & Ho) Hf Hk Hd. split; [|split].
  - apply all_from_app. rewrite Hl. simpl. repeat split; assumption.
  - rewrite lock_after_app, Hl. reflexivity.
  - destruct l as [[u d]|]; simpl in *.
    + apply negb_false_iff, N.eqb_eq in Hf. exists u. split; [|intros u' d'; apply lock_next_holder].
      intros e' [Hin|[<-|[]]]%in_app_or; auto.
    + subst sec. exists (tid e). split; [intros e' [<-|[]]; reflexivity|].
      intros u' d' H. symmetry. eapply lock_next_free_some. exact H.
Qed.

Definition single_thread (b : list event) : Prop := exists u, forall e, In e b -> tid e = u.
(* run on its own from the free lock it ends with the lock free: a lock-free event or a whole critical section *)
Definition closed (b : list event) : Prop := lock_after None b = None.

Definition is_atomic_step (b : list event) : Prop := b <> [] /\ single_thread b /\ closed b.

(* if f keeps a Tau of thread t it keeps no event of any other thread (a per-thread projection); vacuous when f keeps no
   Tau at all (the accesses) *)
Definition separating (f : event -> bool) : Prop :=
  forall t x u, f (Tau t x) = true -> N.eqb t u = false -> forall e', tid e' = u -> f e' = false.

(* what one legal event does: the invariant of the section goes on, the blocks completed are atomic steps and legal
   traces of their own, and a separating filter sees the event behind the section, as in the original order *)
Lemma ser_step_spec : forall l sec e, ok_lock l e -> ok_disc l e -> sec_inv l sec ->
  sec_inv (lock_next l e) (snd (ser_step l sec e)) /\
  Forall (fun b => is_atomic_step b /\ all_from legal None b) (fst (ser_step l sec e)) /\
  forall f, separating f ->
    filter f (concat (fst (ser_step l sec e)) ++ snd (ser_step l sec e)) = filter f (sec ++ [e]).
Proof.
  intros l sec e Hk Hd Hs. unfold ser_step. destruct (foreign l e) eqn:Hf.
  - rewrite (lock_next_foreign _ _ Hf). destruct (foreign_is_tau _ _ Hf Hk Hd) as (t & x & ->).
    split; [exact Hs|]. split.
    + constructor; [|constructor].
      repeat split; [discriminate | exists t; intros e' [<-|[]]; reflexivity | discriminate].
    + intros f Hsep. simpl. rewrite filter_app. simpl. destruct (f (Tau t x)) eqn:Hft; [|rewrite app_nil_r; reflexivity].
      rewrite filter_nil; [reflexivity|]. destruct l as [[u d]|]; [|discriminate]. destruct Hs as (_ & _ & Ho).
      simpl in Hf. apply negb_true_iff in Hf. intros e' Hin. exact (Hsep t x u Hft Hf e' (Ho e' Hin)).
  - destruct (sec_inv_step _ _ _ Hs Hf Hk Hd) as (A1 & A2 & u & A3 & A4).
    destruct (lock_next l e) as [[u' d']|] eqn:Hn; simpl.
    + pose proof (A4 u' d' eq_refl) as ->. repeat split; auto.
    + split; [exact sec_inv_nil|]. rewrite !app_nil_r. repeat constructor; auto.
      * intros [_ [=]]%app_eq_nil.
      * exists u. exact A3.
Qed.

(* [ser_blocks] along a well-locked, disciplined trace is [ser_step] event by event; [sec_inv] goes along, and each
   step comes with what [ser_step_spec] says of it *)
Lemma ser_ind : forall (P : lockst -> list event -> list event -> Prop),
  (forall l sec, sec_inv l sec -> P l sec []) ->
  (forall l sec e r, sec_inv l sec ->
     ser_blocks l sec (e :: r) = fst (ser_step l sec e) ++ ser_blocks (lock_next l e) (snd (ser_step l sec e)) r ->
     Forall (fun b => is_atomic_step b /\ all_from legal None b) (fst (ser_step l sec e)) ->
     (forall f, separating f ->
        filter f (concat (fst (ser_step l sec e)) ++ snd (ser_step l sec e)) = filter f (sec ++ [e])) ->
     P (lock_next l e) (snd (ser_step l sec e)) r -> P l sec (e :: r)) ->
  forall tr l sec, well_locked_from l tr -> disciplined_from l tr -> sec_inv l sec -> P l sec tr.
Proof.
  intros P H0 HS. induction tr as [|e r IH]; intros l sec HW HD Hs; [auto|].
  destruct HW as [HWe HW], HD as [HDe HD]. destruct (ser_step_spec l sec e HWe HDe Hs) as (Hs' & Hout & Hfil).
  apply HS; auto. apply ser_blocks_cons, Hs.
Qed.

(* over the blocks as [ser_step_spec] gives them; only that they are closed and legal is used *)
Lemma legal_blocks : forall bs, Forall (fun b => is_atomic_step b /\ all_from legal None b) bs ->
  all_from legal None (concat bs) /\ lock_after None (concat bs) = None.
Proof.
  induction 1 as [|b bs [(_ & _ & Hc) Hg] _ [IH1 IH2]]; simpl; [auto|].
  rewrite all_from_app, lock_after_app, Hc. auto.
Qed.

Lemma ser_legal : forall tr l sec,
  well_locked_from l tr -> disciplined_from l tr -> sec_inv l sec -> all_from legal None (ser l sec tr).
Proof.
  apply (ser_ind (fun l sec tr => all_from legal None (ser l sec tr))).
  - intros l sec Hs. rewrite ser_nil. apply Hs.
  - intros l sec e r _ E Hout _ IH. rewrite E.
    destruct (legal_blocks _ Hout) as [G1 G2].
    rewrite concat_app, all_from_app, G2. auto.
Qed.

Lemma ser_filter : forall f, separating f ->
  forall tr l sec, well_locked_from l tr -> disciplined_from l tr -> sec_inv l sec ->
    filter f (ser l sec tr) = filter f (sec ++ tr).
Proof.
  intros f Hf. apply (ser_ind (fun l sec tr => filter f (ser l sec tr) = filter f (sec ++ tr))).
  - intros l sec _. rewrite ser_nil, app_nil_r. reflexivity.
  - intros l sec e r _ E _ Hfil IH. rewrite E.
    rewrite concat_app, filter_app, IH, <- filter_app, app_assoc, filter_app, (Hfil f Hf), <- filter_app, <- app_assoc.
    reflexivity.
Qed.

Lemma ser_proj : forall w tr, well_locked tr -> disciplined tr -> proj w (serialise tr) = proj w tr.
Proof.
  intros w tr HW HD. apply (ser_filter _) with (sec := []); try assumption; [|apply sec_inv_nil].
  intros t x u Ht Hne e' <-. simpl in Ht. apply N.eqb_eq in Ht. subst. rewrite N.eqb_sym. exact Hne.
Qed.

Lemma ser_accesses : forall tr, well_locked tr -> disciplined tr -> accesses (serialise tr) = accesses tr.
Proof.
  intros tr HW HD. apply (ser_filter _) with (sec := []); try assumption; [|apply sec_inv_nil]. discriminate.
Qed.

Lemma ser_blocks_steps : forall tr l sec,
  well_locked_from l tr -> disciplined_from l tr -> sec_inv l sec -> lock_after l tr = None ->
  Forall is_atomic_step (ser_blocks l sec tr).
Proof.
  apply (ser_ind (fun l sec tr => lock_after l tr = None -> Forall is_atomic_step (ser_blocks l sec tr))).
  - intros l sec (_ & _ & Ho) Hend. cbn in Hend. subst l. simpl in Ho. subst sec. constructor.
  - intros l sec e r _ E Hout _ IH Hend. rewrite E. apply Forall_app. split; [|exact (IH Hend)].
    revert Hout. apply Forall_impl. tauto.
Qed.

(* a point at which the lock is free cuts the blocks *)
Lemma ser_blocks_app : forall (p q : list event) l sec,
  well_locked_from l p -> disciplined_from l p -> sec_inv l sec -> lock_after l p = None ->
  ser_blocks l sec (p ++ q) = ser_blocks l sec p ++ ser_blocks None [] q.
Proof.
  intros p q. revert p.
  apply (ser_ind (fun l sec p => lock_after l p = None ->
                                 ser_blocks l sec (p ++ q) = ser_blocks l sec p ++ ser_blocks None [] q)).
  - intros l sec (_ & _ & Ho) Hend. cbn in Hend. subst l. simpl in Ho. subst sec. reflexivity.
  - intros l sec e r Hs E _ _ IH Hend.
    rewrite <- app_comm_cons, E, ser_blocks_cons by apply Hs. rewrite (IH Hend). apply app_assoc.
Qed.

Variable state : Type.
Variable value : Type.
Variable apply : state -> thread -> X -> state.
Variable observe : state -> thread -> X -> value.
Notation exec := (exec apply).
Notation seen := (seen apply observe).

Lemma exec_app : forall tr1 tr2 s, exec s (tr1 ++ tr2) = exec (exec s tr1) tr2.
Proof. induction tr1 as [|e r IH]; simpl; intros; [reflexivity|]. destruct e; apply IH. Qed.

Lemma exec_accesses : forall tr s, exec s tr = exec s (accesses tr).
Proof. induction tr as [|e r IH]; simpl; intros; [reflexivity|]. destruct e; simpl; apply IH. Qed.

Lemma seen_accesses : forall tr s, seen s tr = seen s (accesses tr).
Proof.
  induction tr as [|e r IH]; simpl; intros; [reflexivity|].
  destruct e; simpl; try apply IH. rewrite IH. reflexivity.
Qed.

Lemma exec_concat : forall bs s, exec s (concat bs) = fold_left (fun s b => exec s b) bs s.
Proof. induction bs as [|b bs IH]; simpl; intros; [reflexivity|]. rewrite exec_app. apply IH. Qed.

(* same events per thread in the same order, same final state from every initial state, every Read sees the same value *)
Definition equiv (tr tr' : list event) : Prop :=
  (forall w, proj w tr' = proj w tr) /\
  (forall s, exec s tr' = exec s tr) /\
  (forall s, seen s tr' = seen s tr).

Lemma serialise_exec : forall tr s, well_locked tr -> disciplined tr -> exec s (serialise tr) = exec s tr.
Proof. intros tr s HW HD. rewrite exec_accesses, ser_accesses, <- exec_accesses by assumption. reflexivity. Qed.

Lemma serialise_equiv : forall tr, well_locked tr -> disciplined tr -> equiv tr (serialise tr).
Proof.
  intros tr HW HD. repeat split; intros.
  - apply ser_proj; assumption.
  - apply serialise_exec; assumption.
  - rewrite seen_accesses, ser_accesses, <- seen_accesses by assumption. reflexivity.
Qed.

Variable Inv : state -> Prop.
Definition step_preserves (b : list event) : Prop := forall s, Inv s -> Inv (exec s b).

Lemma steps_preserve : forall bs s, Forall step_preserves bs -> Inv s -> Inv (fold_left (fun s b => exec s b) bs s).
Proof.
  intros bs s H Hi. rewrite Forall_forall in H. apply fold_left_invariant; [|exact Hi].
  intros a b Hb Ha. exact (H b Hb a Ha).
Qed.

End Proofs.

Arguments equiv {X state value}.
Arguments single_thread {X}. Arguments closed {X}. Arguments step_preserves {X state}.

(* Without the discipline the statement is false; the witness of C15_undisciplined_refuted and C15_lost_update:
   a shared counter + one register per thread (threads 1 and 2).
   x = 0: load the counter into the thread's register; x = 1: store register + 1; other: atomic increment *)
Definition rstate := (N * (N * N))%type.
Definition rapply (s : rstate) (t : thread) (x : N) : rstate :=
  let '(sh, (r1, r2)) := s in
  match x with
  | 0%N => if N.eqb t 1 then (sh, (sh, r2)) else (sh, (r1, sh))
  | 1%N => if N.eqb t 1 then ((r1 + 1)%N, (r1, r2)) else ((r2 + 1)%N, (r1, r2))
  | _ => ((sh + 1)%N, (r1, r2))
  end.
Definition robserve (s : rstate) (t : thread) (x : N) : N := fst s.
Definition rinit : rstate := (0%N, (0%N, 0%N)).

(* thread 1 increments under the lock (load, store); thread 2 increments without taking it, in between *)
Definition tr_unlocked : list (event N) := [Acq 1%N; Mut 1%N 0%N; Mut 2%N 2%N; Mut 1%N 1%N; Rel 1%N].

Definition serialisable_without_discipline : Prop :=
  forall (X state value : Type) (apply : state -> thread -> X -> state) (observe : state -> thread -> X -> value)
         (tr : list (event X)),
    well_locked tr -> exists tr', serial tr' /\ well_locked tr' /\ equiv apply observe tr tr'.

Lemma proj_other : forall (X : Type) (a b : thread) (tr : list (event X)),
  N.eqb a b = false -> Forall (fun e => tid e = a \/ tid e = b) tr -> proj b tr = [] -> proj a tr = tr.
Proof.
  intros X a b tr Hab. induction 1 as [|e r [He|He] _ IH]; [reflexivity| |]; unfold proj; simpl; rewrite He.
  - rewrite Hab, N.eqb_refl. intros H. f_equal. exact (IH H).
  - rewrite N.eqb_refl. discriminate.
Qed.

(* [l] with [x] put at each place in turn *)
Fixpoint insertions {A : Type} (x : A) (l : list A) : list (list A) :=
  (x :: l) :: match l with [] => [] | y :: l' => map (cons y) (insertions x l') end.

(* a trace of two threads, one of which performs a single event, is that event put somewhere into the other's *)
Lemma two_thread_split : forall (X : Type) (a b : thread) (tr : list (event X)) (e2 : event X),
  N.eqb a b = false -> Forall (fun e => tid e = a \/ tid e = b) tr -> proj b tr = [e2] ->
  In tr (insertions e2 (proj a tr)).
Proof.
  intros X a b tr e2 Hab. induction 1 as [|e r [He|He] Hr IH]; [discriminate| |]; unfold proj; simpl; rewrite He.
  - rewrite Hab, N.eqb_refl. intros H. right. apply in_map. exact (IH H).
  - rewrite N.eqb_refl, N.eqb_sym, Hab. intros [= -> H]. fold (proj a r). rewrite (proj_other X a b r Hab Hr H).
    destruct r; left; reflexivity.
Qed.

(* no serial trace with the per-thread events of [tr_unlocked] ends in its state: it is thread 1's four events with
   thread 2's increment at one of five places; before or after the section the counter ends at 2, inside it the trace
   is not serial *)
Lemma unlocked_not_serialisable : forall tr',
  serial tr' -> (forall w, proj w tr' = proj w tr_unlocked) -> exec rapply rinit tr' <> exec rapply rinit tr_unlocked.
Proof.
  intros tr' Hser Hproj Hexec. apply serial_iff in Hser.
  assert (H : In tr' (insertions (Mut 2%N 2%N) (proj 1%N tr'))).
  { apply (two_thread_split N 1%N 2%N); [reflexivity | | rewrite Hproj; reflexivity].
    apply Forall_forall. intros e Hin.
    assert (He : In e (proj (tid e) tr')) by (apply filter_In; split; [exact Hin | apply N.eqb_refl]).
    rewrite Hproj in He. apply filter_In in He. destruct He as [He _].
    destruct He as [<-|[<-|[<-|[<-|[<-|[]]]]]]; auto. }
  rewrite Hproj in H. destruct H as [<-|[<-|[<-|[<-|[<-|[]]]]]]; vm_compute in Hexec, Hser; discriminate.
Qed.

(* the classic form: two unlocked read-modify-writes lose an update; run one after the other they do not *)
Definition tr_lost : list (event N) := [Mut 1%N 0%N; Mut 2%N 0%N; Mut 1%N 1%N; Mut 2%N 1%N].
Definition tr_atomic : list (event N) := [Mut 1%N 0%N; Mut 1%N 1%N; Mut 2%N 0%N; Mut 2%N 1%N].
