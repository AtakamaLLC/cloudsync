(* CrashThms.v — C07: what PropC07 exports beyond CrashProofs.durable_never_ahead(_after_crash) and
   CrashRecover.recover_converges: never ahead along plan-driven runs (never_ahead_every_crash_point), the plans never
   block (plans_never_blocked), the write order of the plans, the refutations of the full-strength statements with their
   witnesses. *)
From Coq Require Import NArith List Bool Arith Lia.
From CS Require Import Sx CrashModel CrashProofs CrashRecover.
Import ListNotations.

(* a plan is a free run whose labels are all micro operations: the invariant of part A holds along plan-driven runs *)
Lemma run_ops_lrun ms : forall x, run_ops x ms = lrun x (map LOp ms).
Proof. induction ms as [|m r IH]; intros x; simpl; [reflexivity|]. destruct (mstep x m); auto. Qed.

Lemma run_ops_inv ms x y : inv x -> run_ops x ms = Some y -> inv y.
Proof. intros Hi H. rewrite run_ops_lrun in H. exact (lrun_inv _ _ _ Hi H). Qed.

Lemma do_plan_inv x ms : inv x -> inv (do_plan x ms).
Proof. intros H. unfold do_plan. destruct (run_ops x ms) eqn:E; [eapply run_ops_inv; eauto|assumption]. Qed.

Lemma erun_inv g : forall ls c d, inv (c_st c) -> erun g c ls = Some d -> inv (c_st d).
Proof.
  induction ls as [|l ls IH]; intros c d Hc Hr; simpl in Hr; [now injection Hr as <-|].
  destruct (estep g c l) as [c1|] eqn:E; [|discriminate]. apply (IH c1); [|assumption].
  destruct l as [u|m|m k]; simpl in E.
  - destruct (g && c_rec c); [discriminate|]. injection E as <-. now apply user_inv.
  - injection E as <-. now apply do_plan_inv.
  - injection E as <-. now apply crash_inv, do_plan_inv.
Qed.

Lemma do_syncs_inv a : forall n x, inv x -> inv (do_syncs a x n).
Proof. induction n as [|n IH]; intros x H; simpl; [assumption|]. apply do_plan_inv. auto. Qed.

Lemma recover_inv a x : inv x -> inv (recover_with a x).
Proof.
  intros H. unfold recover_with. repeat apply do_plan_inv. apply do_syncs_inv. repeat apply do_plan_inv.
  now apply crash_inv.
Qed.

Theorem never_ahead_every_crash_point : forall g ls c, erun g cfg0 ls = Some c ->
  never_ahead (c_st c) = true /\ never_ahead (recover (c_st c)) = true /\
  forall m k, never_ahead (crash (do_plan (c_st c) (firstn k (plan_of true (c_st c) m)))) = true.
Proof.
  intros g ls c H. pose proof (erun_inv g ls cfg0 c inv_init H) as R.
  split; [now apply inv_never_ahead|]. split; [now apply inv_never_ahead, recover_inv|].
  intros m k. now apply inv_never_ahead, crash_inv, do_plan_inv.
Qed.

(* KEnd, the end of an intake, is the only step allowed to do nothing *)
Theorem plans_never_blocked : forall ls c i, erun true cfg0 ls = Some c -> i < length (slots (c_st c)) ->
  run_ops (c_st c) (plan_of true (c_st c) (KMark i)) <> None /\
  run_ops (c_st c) (plan_of true (c_st c) (KSync i)) <> None.
Proof.
  intros ls c i H Hi. pose proof (proj1 (binv_cfg c) (erun_binv ls cfg0 c binv_cfg0 H)) as Hb.
  destruct (nth_error (slots (c_st c)) i) as [sl|] eqn:Ei; [|apply nth_error_None in Ei; lia].
  simpl plan_of. unfold plan_sync. rewrite Ei. change [MSlot i SMark; MSlot i SRow] with (map (MSlot i) [SMark; SRow]).
  split.
  - destruct (slot_ops_run _ _ i sl _ _ Hb Ei (mark_slot_ok _ _ _ sl)) as (y & sl' & -> & _). discriminate.
  - destruct (slot_ops_run _ _ i sl _ _ Hb Ei (sync_slot_ok _ _ _ sl (knows_peers (c_st c) sl))) as (y & sl' & -> & _).
    discriminate.
Qed.

Lemma writes_of_app a b : writes_of (a ++ b) = writes_of a ++ writes_of b.
Proof. induction a as [|m r IH]; simpl; [reflexivity|]. destruct (wk_of m); simpl; now rewrite IH. Qed.

Lemma shape_sync_rows l : all_rows l = true -> shape_sync l = true.
Proof. destruct l as [|[] r]; simpl; auto; discriminate. Qed.

Theorem sync_plan_write_order : forall adopt x i, shape_ok true (writes_of (plan_sync adopt x i)) = true.
Proof.
  intros adopt x i. unfold plan_sync. destruct (nth_error (slots x) i) as [sl|]; [|reflexivity].
  unfold plan_sync_slot. destruct (sl_mem sl) as [e|]; [|reflexivity].
  destruct (e_disc e); [reflexivity|].
  destruct (negb (os_live (o_now (sl_org sl)))).
  { destruct (s_has (e_peer e)); [|reflexivity]. destruct (nth_error (sl_peers sl) (e_ref e)) as [p|]; [|reflexivity].
    destruct (os_live (o_now p)); reflexivity. }
  destruct (negb (s_has (e_peer e) && s_live (e_peer e))).
  { destruct (first_live_at _ _) as [k|]; [|reflexivity]. destruct (nth_error (sl_peers sl) k) as [p|]; [|reflexivity].
    destruct (adopt && _); reflexivity. }
  destruct (nth_error (sl_peers sl) (e_ref e)) as [p|]; [|reflexivity].
  destruct (opt_eqb (s_spath (e_org e)) _); destruct (opt_eqb (s_shash (e_org e)) _); try reflexivity;
    destruct (_ && kind_eqb _ _); try reflexivity; destruct (os_kind (o_now (sl_org sl))); reflexivity.
Qed.

Lemma plan_marks_rows s c : forall l i, all_rows (writes_of (plan_marks s c l i)) = true.
Proof.
  induction l as [|sl r IH]; intros i; simpl; [reflexivity|].
  destruct (Bool.eqb (sl_side sl) s && Nat.ltb c (o_ev (sl_org sl))); simpl; apply IH.
Qed.

Lemma shape_intake_rows_cursor : forall l, all_rows l = true -> shape_intake (l ++ [WCursor]) = true.
Proof.
  induction l as [|w r IH]; intros H; simpl in *; [reflexivity|].
  destruct w; try discriminate. destruct r; simpl in *; [reflexivity|]. apply IH. assumption.
Qed.

Theorem intake_plan_write_order : forall s x, shape_ok false (writes_of (plan_intake s x)) = true.
Proof.
  intros s x. unfold plan_intake. rewrite writes_of_app. simpl. apply shape_intake_rows_cursor, plan_marks_rows.
Qed.

Theorem step_plan_write_order : forall x m,
  shape_ok (match m with KSync _ => true | _ => false end) (writes_of (plan_of true x m)) = true.
Proof. intros x [i|s|i]; simpl plan_of; [reflexivity|reflexivity|apply sync_plan_write_order]. Qed.

Example commit_before_write_rejected : shape_ok true [WRow; WProv] = false.
Proof. reflexivity. Qed.
Example cursor_before_rows_rejected : shape_ok false [WCursor; WRow] = false.
Proof. reflexivity. Qed.

(* CrashRecover.recover_converges at full strength: also when users act between the crash and the end of the
   recovery *)
Definition half_recorded_recoverable_full : Prop :=
  forall ls c, erun false cfg0 ls = Some c -> converged (c_st c) (recover (c_st c)).

(* first witness: the process dies right after creating the peer; before the restart the user writes the file again:
   the peer found at the translated path has other content, and is renamed to ".conflicted" *)
Definition witness_user_write_after_crash : list elabel :=
  [EUser (UNew false 1%N (KFile 1%N)); EStep (KMark 0); EStep (KEnd false);
   ECrash (KSync 0) 2; EUser (UWrite 0 2%N)].
(* second witness: the process dies right after uploading new content; before the restart the user restores the previous
   content: the marks say "nothing to transfer", the recovery does not converge *)
Definition witness_user_revert_after_crash : list elabel :=
  [EUser (UNew false 1%N (KFile 1%N)); EStep (KMark 0); EStep (KEnd false); EStep (KSync 0);
   EUser (UWrite 0 2%N); EStep (KMark 0); EStep (KEnd false); ECrash (KSync 0) 2; EUser (UWrite 0 1%N)].

(* a witness run is checked by one closed boolean computation *)
Lemma on_run_true g ls (f : cfg -> bool) :
  match erun g cfg0 ls with Some c => f c | None => false end = true -> exists c, erun g cfg0 ls = Some c /\ f c = true.
Proof. destruct (erun g cfg0 ls) as [c|]; [eauto|discriminate]. Qed.

Lemma witness_user_write_conflicted :
  exists c, erun false cfg0 witness_user_write_after_crash = Some c /\ has_conflicted (recover (c_st c)) = true.
Proof. apply (on_run_true false _ (fun c => has_conflicted (recover (c_st c)))). vm_compute. reflexivity. Qed.

Lemma witness_user_revert_not_settled :
  exists c, erun false cfg0 witness_user_revert_after_crash = Some c /\ settled (recover (c_st c)) = false.
Proof.
  destruct (on_run_true false witness_user_revert_after_crash (fun c => negb (settled (recover (c_st c))))) as [c [H1 H2]].
  - vm_compute. reflexivity.
  - exists c. split; [assumption|]. now apply negb_true_iff.
Qed.

Theorem half_recorded_recoverable_refuted : ~ half_recorded_recoverable_full.
Proof.
  intros H. destruct witness_user_write_conflicted as [c [Hr Hc]]. destruct (H _ _ Hr) as (_ & _ & Hn & _). congruence.
Qed.

(* the recovery rule matters: without the adoption of an equal-content peer the same crash (no user involved)
   ends with a ".conflicted" copy *)
Definition recoverable_without_adoption : Prop :=
  forall ls c, erun true cfg0 ls = Some c -> has_conflicted (recover_with false (c_st c)) = false.
(* witness_user_write_after_crash without its user *)
Definition witness_crash_after_create : list elabel :=
  [EUser (UNew false 1%N (KFile 1%N)); EStep (KMark 0); EStep (KEnd false); ECrash (KSync 0) 2].
Theorem recoverable_without_adoption_refuted : ~ recoverable_without_adoption.
Proof.
  intros H.
  assert (E : exists c, erun true cfg0 witness_crash_after_create = Some c /\
                        has_conflicted (recover_with false (c_st c)) = true).
  { apply (on_run_true true _ (fun c => has_conflicted (recover_with false (c_st c)))). vm_compute. reflexivity. }
  destruct E as [c [Hr Hc]]. rewrite (H _ _ Hr) in Hc. discriminate.
Qed.
