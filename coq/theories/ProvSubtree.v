(* ProvSubtree.v — a successful guarded rename moves the subtree and nothing else
   (rename_moves_subtree), on top of ProvRename.relocated. *)
From Coq Require Import NArith List Bool Lia Arith.
From CS Require Import ProvModel ProvProofs ProvWf ProvMove ProvRename.
Import ListNotations.

Lemma key_is_oid_pathstyle s k r o : S_inv s -> c_oidpath (p_cfg s) = true ->
  dget k (p_dict s) = Some r -> nth_error (p_heap s) r = Some o -> o_oid o = k.
Proof.
  intros HS Hc Hd Ho. destruct k as [n|q].
  - destruct (s_id s HS _ _ Hd) as [X _]. congruence.
  - pose proof (s_path_at s _ _ _ HS Hd Ho) as Hq.
    rewrite (s_oid s HS r o Ho), Hc.
    destruct (sane_cases _ (s_sane s HS)) as [X|[_ X]]; [congruence|]. rewrite (np_cs _ _ X) in Hq. congruence.
Qed.

Lemma rename_success_char s k p s' k' r o : S_inv s -> W_inv s -> guard_op s (ORename k p) = true ->
  get_live s k = Some (r, o) -> rename s k p = (s', Ok k') -> path_eqb (o_path o) p = false ->
  exists s1 s3, phase s k p r o s1 /\ relocated s1 r (o_path o) p (moved_of s1 o ++ [r]) s3 /\
                same_core s3 s' /\ nth_error (p_heap s1) r = Some o /\
                k' = (if c_oidpath (p_cfg s) then KPath p else o_oid o).
Proof.
  intros HS HW Hgd Hg Hren Hpe.
  destruct (rename_guarded_cases s k p r o HS HW Hgd Hg)
    as [[e [E _]]|[s1 [PH [[E _]|(_ & s3' & s3 & RL & SC & E)]]]]; try congruence.
  rewrite E in Hren. apply rename_finish_ok in Hren as (-> & o2 & H2 & -> & Hid).
  destruct (ph_cell _ _ _ _ _ _ PH) as (o1 & Hr & Epath & _ & Eoid & _ & Hcase).
  pose proof RL as [_ [_ [Hmoved _]]]. destruct SC as [SC1 [SC2 SC3]].
  destruct (Hmoved r o1 (in_elt r _ []) Hr) as [N1 _]. rewrite <- SC2, H2 in N1. inversion N1; subst o2.
  assert (Ok' : o_oid (mv (p_cfg s1) (o_path o) p o1) = if c_oidpath (p_cfg s) then KPath p else o_oid o).
  { simpl. rewrite (ph_cfg _ _ _ _ _ _ PH). destruct (c_oidpath (p_cfg s)); [|exact Eoid].
    unfold new_path. rewrite Epath, skipn_all, app_nil_r. reflexivity. }
  exists s1, s3'. split; [exact PH|]. split; [exact RL|]. split; [repeat split; auto|]. split; [|exact Ok'].
  (* the cell is still o: had the folder deleted at the target been o itself, k would not be its oid *)
  destruct Hcase as [[-> _]|[_ [_ Hne]]]; [exact Hr|]. exfalso. apply Hne.
  apply get_live_spec in Hg as [G1 [G2 _]].
  destruct (c_oidpath (p_cfg s)) eqn:Hcp.
  - eapply key_is_oid_pathstyle; eassumption.
  - rewrite <- (Hid eq_refl). symmetry. exact Ok'.
Qed.

Theorem rename_moves_subtree s k p s' k' r o :
  INV s -> guard_op s (ORename k p) = true ->
  get_live s k = Some (r, o) -> rename s k p = (s', Ok k') -> path_eqb (o_path o) p = false ->
  let c := p_cfg s in let old := o_path o in
  p_cfg s' = c /\
  k' = (if c_oidpath c then KPath p else o_oid o) /\
  (forall rel q x, get_live s (pkey s (old ++ rel)) = Some (q, x) ->
     get_live s' (pkey s' (p ++ rel)) = Some (q, mv c old p x)) /\
  (np c old <> np c p -> forall rel, get_live s' (pkey s' (old ++ rel)) = None) /\
  (forall P q y, get_live s (pkey s P) = Some (q, y) -> ~ at_under c old P -> np c P <> np c p ->
     get_live s' (pkey s' P) = Some (q, y)) /\
  (forall P q y', get_live s' (pkey s' P) = Some (q, y') ->
     (exists rel x, np c P = np c (p ++ rel) /\ get_live s (pkey s (old ++ rel)) = Some (q, x) /\
                    y' = mv c old p x) \/
     (get_live s (pkey s P) = Some (q, y') /\ ~ at_under c old P)).
Proof.
  intros [HS HW] Hgd Hg Hren Hpe c old.
  destruct (rename_success_char s k p s' k' r o HS HW Hgd Hg Hren Hpe) as (s1 & s3 & PH & RL & SC & Hr1 & Hk').
  pose proof (fun q Hin => moved_list_facts HW Hg PH q (moved_of_incl q Hin)) as FL.
  pose proof (live_at_under_moved HW Hg PH) as FA.
  pose proof (target_not_above Hg PH Hr1) as Hnu2.
  pose proof (ph_cfg _ _ _ _ _ _ PH) as Ec. pose proof (ph_live _ _ _ _ _ _ PH) as Hlive.
  pose proof (ph_same _ _ _ _ _ _ PH) as Hsame.
  (* of `relocated`: the tree invariant, the configuration, the moved cells, the cells that stay *)
  destruct RL as (W3 & Ec3 & Rmoved & Rstay & _).
  pose proof (W_same_core _ _ SC W3) as W'.
  pose proof (S_rename s k p HS) as S'. rewrite Hren in S'.
  destruct SC as [SCc [SCh _]].
  rewrite Ec, <- SCh in Rmoved. rewrite <- SCh in Rstay.
  fold c in Rmoved, FL, FA, Hnu2, Hsame. fold old in Rmoved, FL, FA, Hnu2.
  set (L := moved_of s1 o ++ [r]) in *.
  assert (Ecs' : p_cfg s' = c) by (unfold c; congruence).
  simpl in Hgd. rewrite Hg in Hgd. apply andb_true_iff in Hgd as [Hnr Hnu]. apply negb_true_iff in Hnu. fold c old in Hnu.
  pose proof (renamed_cell_filed HW Hg) as Hown. fold c old in Hown.
  (* cells of s that are not the deleted folder are the same in s1 *)
  assert (Hinto1 : forall q x, nth_error (p_heap s) q = Some x ->
            (np c (o_path x) <> np c p \/ q = r) -> nth_error (p_heap s1) q = Some x).
  { intros q x Hx [Hne| ->]; [|apply get_live_spec in Hg as [_ [G2 _]]; congruence].
    rewrite Hsame; [exact Hx|]. intros Q. exact (Hne (s_path_at s _ _ _ HS Q Hx)). }
  assert (After : forall P q y', get_live s' (pkey s' P) = Some (q, y') ->
     (exists rel x, np c P = np c (p ++ rel) /\ get_live s (pkey s (old ++ rel)) = Some (q, x) /\
                    y' = mv c old p x) \/
     (get_live s (pkey s P) = Some (q, y') /\ ~ at_under c old P)).
  { intros P q y' Hgl. apply (get_live_path s' P q y' S' W') in Hgl as [Q2 [Q3 Hq]]. rewrite Ecs' in Hq.
    destruct (in_dec Nat.eq_dec q L) as [Hin|Hnin].
    - left. destruct (FL q Hin) as [x [H1 [AU _]]].
      destruct (Rmoved q x Hin H1) as [N1 _]. rewrite Q2 in N1. inversion N1; subst y'. simpl in Q3, Hq.
      exists (skipn (length old) (o_path x)), x. split; [symmetry; exact Hq|]. split; [|reflexivity].
      apply (get_live_path s _ q x HS HW). split; [exact (Hlive q x H1 Q3)|]. split; [exact Q3|].
      rewrite np_app. apply at_under_split. exact AU.
    - right. rewrite (Rstay q Hnin) in Q2. split.
      + apply (get_live_path s P q y' HS HW). split; [exact (Hlive q y' Q2 Q3)|]. split; [exact Q3|exact Hq].
      + intros AU. apply Hnin, (FA q y' Q2 Q3). apply (at_under_np c old P); [symmetry; exact Hq|exact AU]. }
  split; [exact Ecs'|]. split; [exact Hk'|]. split; [|split; [|split; [|exact After]]].
  - (* the subtree is found under the new paths *)
    intros rel q x Hgl. apply (get_live_path s _ q x HS HW) in Hgl as [Q2 [Q3 Hq]]. fold c in Hq.
    assert (AU : at_under c old (o_path x)) by (apply (at_under_np c old (old ++ rel)); [congruence|apply at_under_app]).
    assert (Q2' : nth_error (p_heap s1) q = Some x).
    { (* were x the folder deleted at the target, the target would be at or below old: it is not, unless it is old *)
      apply Hinto1; [exact Q2|].
      destruct (path_eq_dec (np c (o_path x)) (np c p)) as [E|E]; [right|left; exact E].
      destruct (at_under_cases _ _ _ (at_under_np c old _ _ E AU)) as [E2|E2]; [|congruence].
      pose proof (w_filed s HW q x Q2 Q3) as F. fold c in F. rewrite E, E2, Hown in F. congruence. }
    destruct (Rmoved q x (FA q x Q2' Q3 AU) Q2') as [N1 _].
    apply (get_live_path s' _ q _ S' W'). rewrite Ecs'. split; [exact N1|]. split; [exact Q3|].
    change (np c (new_path old p x) = np c (p ++ rel)).
    rewrite np_new_path, np_app. f_equal.
    rewrite (at_under_split c old _ AU), np_app in Hq. exact (app_inv_head _ _ _ Hq).
  - (* the old paths are free: what is found there afterwards would be below both old and p *)
    intros Hne rel. destruct (get_live s' (pkey s' (old ++ rel))) as [[q y']|] eqn:G; [exfalso|reflexivity].
    destruct (After _ _ _ G) as [[rel' [x [E _]]]|[_ Hn]].
    + rewrite !np_app in E. exact (no_common_descendant c old p _ _ Hne Hnu Hnu2 (eq_sym E)).
    + apply Hn, at_under_app.
  - (* what is outside the subtree (and is not the empty folder that was at the target) stays *)
    intros P q y Hgl Hnau Hnp. apply (get_live_path s P q y HS HW) in Hgl as [Q2 [Q3 Hq]]. fold c in Hq.
    assert (Q2' : nth_error (p_heap s1) q = Some y) by (apply Hinto1; [exact Q2|left; congruence]).
    assert (Hnin : ~ In q L).
    { intros Hin. destruct (the_cell (FL q Hin) y Q2') as [AU _].
      apply Hnau. apply (at_under_np c old (o_path y)); assumption. }
    apply (get_live_path s' P q y S' W'). rewrite Ecs', (Rstay q Hnin). auto.
Qed.
