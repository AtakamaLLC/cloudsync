(* AlgoLatest.v — SyncEntry.get_latest keeps the invariant and leaves the refreshed sides agreeing with their
   providers (or with an event still pending).  "Current" comes in three strengths: [ReadyS] (one side: an event is
   pending or the picture is the provider's), [SideNow] (ReadyS and the side shows an object with its path or a gone one),
   [Upto] (the loop invariant: every side whose refresh stamp has reached mx is SideNow). *)
From Coq Require Import NArith List Bool Arith Lia.
From CS Require Import StateModel StateProofs AlgoModel AlgoCheck AlgoProv AlgoInv AlgoIntake AlgoSync.
Import ListNotations.
Local Open Scope N_scope.

Definition ReadyS (evl : evlist) (w : world) (e : nat) (sd : bool) : Prop :=
  forall en k ob, nth_error (ents (w_st w)) e = Some en -> s_oid (gs en sd) = Some (ostr_k k) ->
    obj_at w sd k = Some ob -> pd evl sd k = true \/ freshP (gs en sd) ob.

(* `self[side]._last_gotten = max_changed` *)
Definition set_lg (mx : N) (x : xside) : xside := mkX mx (x_tname x) (x_tfile x).

(* the three cases of unconditionally_get_latest, uniformly *)
Lemma uget_latest_run evl g w e sd en :
  InvP evl g w -> (2 <= e)%nat -> nth_error (ents (w_st w)) e = Some en ->
  runs (uget_latest w e sd) w e sd en (fun x' =>
    s_otype x' = File /\
    (forall k ob, s_oid (gs en sd) = Some (ostr_k k) -> obj_at w sd k = Some ob ->
       freshP x' ob /\ popt (s_path x') (pstr (ProvModel.o_path ob)) /\
       (ProvModel.o_exists ob = false -> s_ex x' = ExTrashed /\ s_hash x' = s_hash (gs en sd) /\ s_path x' = s_path (gs en sd)) /\
       (ProvModel.o_exists ob = true -> s_ex x' = ExExists /\ s_hash x' = Some (ProvModel.o_data ob) /\
                                       s_path x' = Some (pstr (ProvModel.o_path ob)))) /\
    (s_oid (gs en sd) = None -> s_path x' = s_path (gs en sd) /\ s_hash x' = s_hash (gs en sd) /\
                                s_chg x' = s_chg (gs en sd) /\
                                (is_discarded (e_ign en) = false -> s_ex x' = ExUnknown))).
Proof.
  intros I He Hn. pose proof (i_cfg I) as Hcfg.
  pose proof (i_ents I e en He Hn) as EO. destruct (eo_side EO sd) as [c1 c2 c3 c5 c4].
  destruct (s_oid (gs en sd)) as [o|] eqn:Eo.
  - destruct (c4 o eq_refl) as (k & ob & -> & Hob & Hk & F).
    destruct (sh_files (i_shape I sd) k ob Hk Hob) as (Hkf & n & Hp & Hnok).
    assert (Hone: forall k0 ob0, Some (ostr_k k) = Some (ostr_k k0) -> obj_at w sd k0 = Some ob0 -> k0 = k /\ ob0 = ob).
    { intros k0 ob0 Hk0 Hob0. apply (same_object w sd k k0 ob ob0 ltac:(congruence) Hob Hob0). }
    destruct (ProvModel.o_exists ob) eqn:El.
    + apply (runs_imp _ _ _ _ _ _ _ (uget_latest_live w e sd en k ob n Hcfg (i_pwf I sd) Eo Hob El Hkf Hp Hnok (fo_path F))).
      intros x' (F1 & F2 & F3 & F4). split; [exact F1|]. split; [|intros; discriminate].
      intros k0 ob0 Hk0 Hob0. destruct (Hone k0 ob0 Hk0 Hob0) as (-> & ->).
      split; [unfold freshP; rewrite El; auto|]. split; [right; exact F4|]. split; [intros; congruence|auto].
    + unfold uget_latest. apply runs_get_e. rewrite Eo.
      rewrite (key_of_std w sd k Hcfg). cbn [rbind]. unfold obj_at in Hob.
      rewrite (info_oid_kid _ _ _ (i_pwf I sd) Hob), El. unfold get_no_info. rewrite Hcfg.
      assert (Hoip: oip_of (cfg_std 1) sd = false) by (destruct sd; reflexivity). rewrite Hoip.
      apply runs_plain; [intros; repeat split|]. cbn [w_ex s_otype s_ex s_hash s_path s_chg].
      split; [exact c1|]. split; [|intros; discriminate].
      intros k0 ob0 Hk0 Hob0. destruct (Hone k0 ob0 Hk0 Hob0) as (-> & ->).
      split; [unfold freshP; rewrite El; reflexivity|]. split; [apply (fo_path F)|]. split; [auto|intros; congruence].
  - unfold uget_latest. apply runs_get_e. rewrite Eo.
    destruct (ex_in_gone (s_ex (gs en sd))) eqn:Eg.
    + apply runs_ret.
      split; [exact c1|]. split; [intros; discriminate|]. intros _. repeat (split; [reflexivity|]). intros Hd. apply (c5 eq_refl Hd).
    + apply runs_plain; [intros; repeat split|]. cbn [w_ex s_otype s_ex s_hash s_path s_chg].
      split; [exact c1|]. split; [intros; discriminate|]. intros _. auto.
Qed.

Definition SideNow (evl : evlist) (w : world) (e : nat) (sd : bool) : Prop :=
  ReadyS evl w e sd /\
  forall en, nth_error (ents (w_st w)) e = Some en -> s_oid (gs en sd) <> None -> ShapeS (gs en sd).

(* what get_latest on entry e leaves alone; the clock and the change set only grow *)
Definition kept (w w' : world) (e : nat) : Prop :=
  (forall sd0, prov_of w' sd0 = prov_of w sd0) /\
  (forall x sd0, x <> e -> getx w' x sd0 = getx w x sd0) /\ now (w_st w) <= now (w_st w') /\
  (forall sd0, x_tfile (getx w' e sd0) = x_tfile (getx w e sd0)) /\ length (ents (w_st w')) = length (ents (w_st w)) /\
  (forall x, set_mem x (cset (w_st w)) = true -> set_mem x (cset (w_st w')) = true).

Lemma kept_refl w e : kept w w e.
Proof. split; [auto|]. split; [auto|]. split; [apply N.le_refl|auto]. Qed.
Lemma kept_trans w w1 w2 e : kept w w1 e -> kept w1 w2 e -> kept w w2 e.
Proof.
  intros (A1 & B1 & C1 & D1 & E1 & F1) (A2 & B2 & C2 & D2 & E2 & F2).
  split; [intros; rewrite A2; apply A1|]. split; [intros; rewrite B2 by assumption; apply B1; assumption|].
  split; [lia|]. split; [intros; rewrite D2; apply D1|]. split; [congruence|auto].
Qed.

(* the body of get_latest's loop: refresh of one side, then the new refresh stamp *)
Lemma refresh_side_run evl g w e sd en mx :
  InvP evl g w -> (2 <= e)%nat -> nth_error (ents (w_st w)) e = Some en -> mx <= now (w_st w) + 1 ->
  exists w1, uget_latest w e sd = ROk w1 /\
  let w2 := setx w1 e sd (set_lg mx) in
  InvP evl g w2 /\ SideNow evl w2 e sd /\ kept w w2 e /\ getx w2 e (negb sd) = getx w e (negb sd) /\
  exists en2, nth_error (ents (w_st w2)) e = Some en2 /\ gs en2 (negb sd) = gs en (negb sd) /\
              e_ign en2 = e_ign en /\ maxchg en2 <= N.max (maxchg en) (now (w_st w2)).
Proof.
  intros I He Hn Hmx.
  (* the refresh is a chain of state operations: a weff that keeps what prog says, hence a touch, so inv_entry applies;
     EntOk of the new entry is EntOk_side, its SideNew read off the two cases of uget_latest_run (object alive / dead);
     the refreshed side shows what the provider has, hence SideNow *)
  destruct (uget_latest_run evl g w e sd en I He Hn (conj (i_cfg I) (conj (i_tape I) (conj (i_idx I) Hn)))) as (w' & en' & m & H1 & W1 & P1 & Hot & Hfull & Hnone).
  exists w'. split; [exact H1|]. intros w2.
  pose proof W1 as (Wcfg & WpL & WpR & Wx & (SA & SB & SC & SD & SJ) & WT).
  pose proof P1 as ((Pother & Pign & Poid & _) & Pchg).
  assert (Hprov: forall sd0, prov_of w2 sd0 = prov_of w sd0).
  { intros sd0. unfold w2. rewrite prov_of_setx. apply (weff_prov sd0 W1). }
  assert (Hobj: forall sd0 k0, obj_at w2 sd0 k0 = obj_at w sd0 k0) by (intros; apply obj_at_prov, Hprov).
  assert (Hst: w_st w2 = w_st w') by reflexivity.
  assert (Hn2: nth_error (ents (w_st w2)) e = Some en') by apply (weff_nth W1 Hn).
  assert (Hgo: forall x sd0, x <> e -> getx w2 x sd0 = getx w x sd0).
  { intros x sd0 Hne. unfold w2. rewrite getx_setx_other by exact Hne. apply (weff_getx x sd0 W1). }
  assert (Hgs: getx w2 e (negb sd) = getx w e (negb sd)).
  { unfold w2. rewrite getx_setx_other_side. apply (weff_getx e (negb sd) W1). }
  assert (Hgsd: getx w2 e sd = set_lg mx (getx w e sd)).
  { unfold w2. rewrite getx_setx_same. f_equal. apply (weff_getx e sd W1). }
  pose proof (i_ents I e en He Hn) as EO.
  destruct (i_clke I e en Hn) as (Hmaxo & Hlgo).
  pose proof (prog_maxchg_le P1) as Hmle.
  assert (Hmax': maxchg en' <= now (w_st w') + 1) by lia.
  assert (Hshape: s_oid (gs en' sd) <> None -> ShapeS (gs en' sd)).
  { intros Hoid. rewrite Poid in Hoid. destruct (s_oid (gs en sd)) as [o|] eqn:Eo; [|contradiction].
    destruct (so_full (eo_side EO sd) o Eo) as (k0 & ob0 & -> & Hob0 & _).
    destruct (Hfull k0 ob0 eq_refl Hob0) as (_ & _ & Fdead & Flive).
    destruct (ProvModel.o_exists ob0) eqn:El.
    - destruct (Flive eq_refl) as (X1 & _ & X3). left. split; [exact X1|rewrite X3; discriminate].
    - destruct (Fdead eq_refl) as (X1 & _). right. rewrite X1. reflexivity. }
  assert (HI: InvP evl g w2).
  { apply (inv_entry evl evl g w w2 e en' I); rewrite ?Hst; auto.
    - apply touch_setx, (touch_weff w w' e en en' m Hn (inv_mem _ _ _ _ _ I Hn) W1 (flagged_prog P1)).
    - intros sd0. destruct (side_cases sd sd0) as [->| ->]; [rewrite Hgsd; simpl; lia|]. rewrite Hgs. specialize (Hlgo (negb sd)). lia.
    - intros en0 sd0 Hen0 _. assert (en0 = en) by congruence. subst en0. apply (upd_side_oid en en' sd), (prog_upd P1).
    - apply (EntOk_side evl evl g w w2 e en en' sd (now (w_st w')) m EO P1 Hot Hobj).
      + rewrite Hgs. reflexivity.
      + auto.
      + intros k ob Ho Hob. destruct (Hfull k ob Ho Hob) as (Fr & Fp & Fdead & Flive).
        pose proof (proj2 (EntOk_full EO Ho Hob)) as FO.
        constructor.
        * (* sn_trash *) intros Hex. destruct (ProvModel.o_exists ob) eqn:El; [|reflexivity]. destruct (Flive eq_refl) as (X & _). congruence.
        * (* sn_due *) intros _. right. right. exact Fr.
        * exact Fp.
        * (* sn_owner: a live object shows the content written last, a dead one leaves hash and path as they were *)
          intros Hd cs Hcs. destruct (fo_hash_in FO Hd Hcs) as (Q1 & Q4). destruct (fo_head FO Hd Hcs) as (r & Q3).
          destruct (fo_owner2 FO Hd cs Hcs) as (_ & Q6).
          destruct (ProvModel.o_exists ob) eqn:El.
          -- destruct (Flive eq_refl) as (_ & Xh & Xp). rewrite Xh, Xp.
             split; [right; exists (ProvModel.o_data ob); split; [reflexivity|rewrite Q3; left; reflexivity]|]. split; intros; discriminate.
          -- destruct (Fdead eq_refl) as (_ & Xh & Xp). rewrite Xh, Xp. split; [exact Q1|]. split; [exact Q4|exact Q6].
        * (* sn_mirror: the engine's copy is alive *)
          intros Hd Hcs. destruct (fo_mirror FO Hd Hcs) as (Ml & _). apply (Flive Ml).
      + intros Hno. destruct (Hnone Hno) as (X1 & X2 & X3 & X4). destruct (so_empty (eo_side EO sd) Hno) as (Y1 & Y2 & Y3 & _).
        rewrite X1, X2, X3. auto.
    - intros sd0 Hoid Hd Hp. destruct (side_cases sd sd0) as [->| ->]; [apply Hshape; exact Hoid|].
      rewrite Pother in *. rewrite Hgs in Hp. rewrite Pign in Hd.
      apply (i_seen I e en (negb sd) He Hn Hoid Hd). pose proof (prog_maxchg P1). lia. }
  split; [exact HI|]. split; [split|split; [|split; [exact Hgs|]]].
  - intros en2 k ob Hen2 Ho2 Hob2. assert (en2 = en') by congruence. subst en2.
    rewrite Poid in Ho2. rewrite Hobj in Hob2. right. apply (Hfull k ob Ho2 Hob2).
  - intros en2 Hen2. assert (en2 = en') by congruence. subst en2. exact Hshape.
  - split; [exact Hprov|]. split; [exact Hgo|]. split; [rewrite Hst; exact SC|]. split; [|split; [rewrite Hst, SA; apply upd_at_length|]].
    + intros sd0. destruct (side_cases sd sd0) as [->| ->]; [rewrite Hgsd|rewrite Hgs]; reflexivity.
    + intros x Hm. rewrite Hst, SB. destruct Pchg as [(_ & ->)|(_ & _ & _ & _ & _ & -> & _)]; [exact Hm|].
      destruct (Nat.eqb x e); [reflexivity|exact Hm].
  - exists en'. split; [exact Hn2|]. split; [exact Pother|]. split; [exact Pign|]. rewrite Hst. exact Hmle.
Qed.

(* the loop invariant of get_latest *)
Definition Upto (evl : evlist) (w : world) (e : nat) (mx : N) : Prop :=
  forall sd, mx <= x_lg (getx w e sd) -> SideNow evl w e sd.

Lemma get_latest_loop_run evl g e force mx : forall sides w en,
  InvP evl g w -> (2 <= e)%nat -> nth_error (ents (w_st w)) e = Some en -> mx <= now (w_st w) + 1 ->
  exists w', get_latest_loop w e force mx sides = ROk w' /\
  InvP evl g w' /\ kept w w' e /\
  (exists en', nth_error (ents (w_st w')) e = Some en' /\ e_ign en' = e_ign en /\
               maxchg en' <= N.max (maxchg en) (now (w_st w'))) /\
  (Upto evl w e mx -> Upto evl w' e mx) /\
  (forall sd0, In sd0 sides \/ mx <= x_lg (getx w e sd0) -> mx <= x_lg (getx w' e sd0)).
Proof.
  induction sides as [|sd r IH]; intros w en I He Hn Hmx.
  - exists w. split; [reflexivity|]. split; [exact I|]. split; [apply kept_refl|].
    split; [exists en; split; [exact Hn|split; [reflexivity|lia]]|]. split; [auto|].
    intros sd0 [[]|Hle]. exact Hle.
  - simpl. destruct (force || N.ltb (x_lg (getx w e sd)) mx)%bool eqn:Ec.
    + destruct (refresh_side_run evl g w e sd en mx I He Hn Hmx) as (wa & Eu & I2 & N2 & K2 & Hgs2 & en2 & Hn2 & Hgo2 & Hi2 & Hm2).
      rewrite Eu. cbn [rbind].
      change (setx wa e sd (fun x => mkX mx (x_tname x) (x_tfile x))) with (setx wa e sd (set_lg mx)).
      set (w2 := setx wa e sd (set_lg mx)) in *.
      assert (Hlg2: x_lg (getx w2 e sd) = mx) by (unfold w2; rewrite getx_setx_same; reflexivity).
      pose proof K2 as (Hp2 & _ & Hnow2 & _).
      destruct (IH w2 en2 I2 He Hn2 ltac:(lia)) as (w' & H & I3 & K3 & (en3 & Hn3 & Hi3 & Hm3) & HU3 & Hlg3).
      pose proof K3 as (_ & _ & Hnow3 & _).
      exists w'. split; [exact H|]. split; [exact I3|]. split; [exact (kept_trans _ _ _ _ K2 K3)|].
      split; [exists en3; split; [exact Hn3|split; [congruence|lia]]|]. split.
      * (* the refreshed side is current; the other side and its object are as they were *)
        intros U. apply HU3. intros sd0 Hle. destruct (side_cases sd sd0) as [->| ->]; [exact N2|].
        rewrite Hgs2 in Hle. destruct (U _ Hle) as (R & Sh). split.
        -- intros en0 k ob Hen0 Ho Hob. assert (en0 = en2) by congruence. subst en0. rewrite Hgo2 in *.
           unfold obj_at in Hob. rewrite Hp2 in Hob. apply (R en k ob Hn Ho Hob).
        -- intros en0 Hen0 Hoid. assert (en0 = en2) by congruence. subst en0. rewrite Hgo2 in *. apply (Sh en Hn Hoid).
      * intros sd0 Hin. apply Hlg3. destruct (side_cases sd sd0) as [->| ->]; [right; rewrite Hlg2; apply N.le_refl|].
        destruct Hin as [[Heq|Hin]|Hle]; [destruct sd; discriminate|left; exact Hin|right; rewrite Hgs2; exact Hle].
    + cbn [rbind]. apply orb_false_elim in Ec as [_ Ec]. apply N.ltb_ge in Ec.
      destruct (IH w en I He Hn Hmx) as (w' & H & I3 & K3 & Hen3 & HU3 & Hlg3).
      exists w'. repeat (split; [assumption|]). intros sd0 [[<-|Hin]|Hle]; apply Hlg3; auto.
Qed.

Lemma maxchg_fold en : fold_right (fun sd m => N.max (chgval (s_chg (gs en sd))) m) 0 [false; true] = maxchg en.
Proof. unfold maxchg, chgv. simpl. lia. Qed.

Lemma get_latest_mx en sides w : maxchg en <= now (w_st w) + 1 ->
  fold_right (fun sd m => N.max (chgval (s_chg (gs en sd))) m) 0 sides <= now (w_st w) + 1.
Proof. unfold maxchg, chgv. intros Hm. induction sides as [|sd r IHs]; simpl; [lia|]. destruct sd; simpl; lia. Qed.

Theorem get_latest_run evl g w e force sides en :
  InvP evl g w -> (2 <= e)%nat -> nth_error (ents (w_st w)) e = Some en ->
  exists w', get_latest w e force sides = ROk w' /\
  InvP evl g w' /\ kept w w' e.
Proof.
  intros I He Hn. unfold get_latest. rewrite (get_e_nth _ _ _ Hn). cbn [rbind].
  destruct (get_latest_loop_run evl g e force _ sides w en I He Hn (get_latest_mx en sides w (proj1 (i_clke I e en Hn))))
    as (w' & H & A & K & _).
  exists w'. split; [exact H|]. split; [exact A|exact K].
Qed.

(* the refresh of both sides before an entry is synchronised *)
Theorem get_latest_both evl g w e w' :
  InvP evl g w -> (2 <= e)%nat -> (forall en, nth_error (ents (w_st w)) e = Some en -> is_discarded (e_ign en) = false) ->
  get_latest w e false [false; true] = ROk w' ->
  InvP evl g w' /\ ReadyS evl w' e false /\ ReadyS evl w' e true /\ (forall sd0, prov_of w' sd0 = prov_of w sd0) /\
  (forall x sd0, x <> e -> getx w' x sd0 = getx w x sd0) /\
  (exists en en', nth_error (ents (w_st w)) e = Some en /\ nth_error (ents (w_st w')) e = Some en' /\ e_ign en' = e_ign en /\
                  maxchg en' <= N.max (maxchg en) (now (w_st w'))) /\
  now (w_st w) <= now (w_st w') /\
  (forall en' sd, nth_error (ents (w_st w')) e = Some en' -> s_oid (gs en' sd) <> None -> ShapeS (gs en' sd)).
Proof.
  intros I He Hnd H. unfold get_latest, get_e, lift, get_ent in H.
  destruct (nth_error (ents (w_st w)) e) as [en|] eqn:Hn; [|discriminate]. cbn [rbind] in H.
  specialize (Hnd en eq_refl). rewrite maxchg_fold in H.
  destruct (i_clke I e en Hn) as (Hmx & _).
  destruct (get_latest_loop_run evl g e false (maxchg en) [false; true] w en I He Hn Hmx)
    as (w1 & H1 & I' & (Hp & Hg & Hnow & _) & (en' & Hn' & Hi & Hm) & HU & Hlg).
  assert (w1 = w') by congruence. subst w1.
  (* at the start, a side that is not due for a refresh is current: clause fo_K, and Seen *)
  assert (U: Upto evl w e (maxchg en)).
  { intros sd Hle. split.
    - intros en0 k ob Hen0 Ho Hob. assert (en0 = en) by congruence. subst en0.
      pose proof (proj2 (EntOk_full (i_ents I e en He Hn) Ho Hob)) as FO.
      destruct (fo_K FO Hnd) as [X|[X|X]]; [left; exact X|lia|right; exact X].
    - intros en0 Hen0 Hoid. assert (en0 = en) by congruence. subst en0. apply (i_seen I e en sd He Hn Hoid Hnd Hle). }
  destruct (HU U false (Hlg false (or_introl (or_introl eq_refl)))) as (R0 & S0).
  destruct (HU U true (Hlg true (or_introl (or_intror (or_introl eq_refl))))) as (R1 & S1).
  repeat (split; [assumption|]). split; [exists en, en'; auto|]. split; [exact Hnow|].
  intros en0 [|] Hen0 Hoid; [apply (S1 en0 Hen0 Hoid)|apply (S0 en0 Hen0 Hoid)].
Qed.
