(* CacheTame.v — the tame states (all stored names normalised and non-empty) are closed under
   the regular operations: no empty path component and no insertion at the root path.  In a tame state
   [step] never answers RUnmodelled. *)
From Coq Require Import NArith List Bool Lia.
From CS Require Import Sx Str StrLemmas CacheModel CacheProofs CacheInv.
Import ListNotations.

Definition fold_ok (cf : cfg) : Prop :=
  (forall n, cf_fold cf (cf_fold cf n) = cf_fold cf n) /\ (forall n, n <> 0%N -> cf_fold cf n <> 0%N).

Lemma fold_ok_id tm : fold_ok {| cf_fold := fun n => n; cf_tmpl := tm |}.
Proof. split; simpl; auto. Qed.

Lemma fold_ok_std tm : fold_ok {| cf_fold := fold_std; cf_tmpl := tm |}.
Proof.
  split; simpl; intros n.
  - destruct (fold_std_cases n) as [E|[E H]]; rewrite E; [exact E|].
    destruct (fold_std_cases (n + 32)) as [E2|[_ H2]]; [exact E2|lia].
  - destruct (fold_std_cases n) as [E|[E _]]; rewrite E; lia.
Qed.

Definition path_ok (p : list N) : bool := forallb (fun n => negb (N.eqb n 0)) p.
Definition nonnil (p : list N) : bool := match p with [] => false | _ => true end.

(* [cf] is not used: regularity is about the path as the caller wrote it *)
Definition op_regular (cf : cfg) (x : op) : bool :=
  match x with
  | OCreate p _ _ | OMkdir p _ _ | OSetOid p _ _ | OUpdate p _ _ _ _ => path_ok p && nonnil p
  | ORename _ q => path_ok q && nonnil q
  | ODelete _ _ | OSetMeta _ _ _ => true
  end.

Definition regular_path (p : path) : Prop := path_ok p = true /\ p <> [].

Lemma regular_pathP p : path_ok p && nonnil p = true <-> regular_path p.
Proof. unfold regular_path. rewrite andb_true_iff. destruct p; simpl; intuition (discriminate || congruence). Qed.

Section Tame.
  Variable cf : cfg.
  Hypothesis Hfold : fold_ok cf.
  Let fold := cf_fold cf.

  Lemma name_ok_fold n : n <> 0%N -> name_ok fold (fold n) = true.
  Proof. intros Hn. apply name_ok_iff. split; [apply Hfold|apply Hfold, Hn]. Qed.

  Lemma name_ok_nz n : name_ok fold n = true -> n <> 0%N.
  Proof. intros H. apply name_ok_iff in H. apply H. Qed.

  Lemma names_ok_map p : path_ok p = true -> Forall (fun n => name_ok fold n = true) (map fold p).
  Proof.
    unfold path_ok. rewrite forallb_forall, Forall_forall. intros H x Hx. apply in_map_iff in Hx as [y [<- Hy]].
    apply name_ok_fold, N.eqb_neq, negb_true_iff, H, Hy.
  Qed.

  Lemma path_ok_map p : path_ok p = true -> path_ok (map fold p) = true.
  Proof.
    unfold path_ok. rewrite !forallb_forall. intros H x Hx. apply in_map_iff in Hx as [y [<- Hy]].
    apply negb_true_iff, N.eqb_neq, Hfold, N.eqb_neq, negb_true_iff, H, Hy.
  Qed.

  Lemma regular_path_map p : regular_path p -> regular_path (map fold p).
  Proof. intros [Hp Hne]. split; [apply path_ok_map, Hp|destruct p; [congruence|discriminate]]. Qed.

  Lemma regular_admissible x : op_regular cf x = true -> op_admissible regular_path x.
  Proof.
    destruct x; simpl; try exact (fun _ => I); apply regular_pathP.
  Qed.

  Lemma delete_loc_tame c l : tame cf c = true -> tame cf (snd (delete_loc c l)) = true.
  Proof.
    intros Ht. destruct l as [|rp|o g]; try exact Ht.
    rewrite delete_loc_tree. apply (all_nodes_cut (names_ok_at_ok fold)), Ht.
  Qed.

  Lemma edit_tame c rp f : md_edit f -> tame cf c = true -> tame cf (with_root c (modify rp f (c_root c))) = true.
  Proof. intros Hf. apply all_nodes_edit; apply Hf. Qed.

  Lemma insert_tail_tame par nm nd pid c2 :
    tame cf c2 = true -> keys_ok fold nd = true -> name_ok fold nm = true ->
    tame cf (snd (insert_tail par nm nd pid c2)) = true.
  Proof.
    intros Ht2 Hnd Hnm. apply insert_tail_closed; [intros l; apply delete_loc_tame, Ht2|].
    intros c3 Ht3. unfold attach_node. destruct (lookup par (c_root c3)) as [P|]; [|destruct (n_id nd); exact Ht3].
    apply all_nodes_modify; [exact Ht3|]. intros x _ Hx.
    apply (all_nodes_add_kid (names_ok_at_ok fold)); auto.
  Qed.

  Lemma fold_fold p : map fold (map fold p) = map fold p.
  Proof. rewrite map_map. apply map_ext, Hfold. Qed.

  (* __insert_node is handed normalised paths only *)
  Lemma insert_node_tame c nd raw :
    tame cf c = true -> keys_ok fold nd = true -> regular_path raw -> map fold raw = raw ->
    tame cf (snd (insert_node cf c nd raw)) = true.
  Proof.
    intros Ht Hnd [Hp Hne] Hn. rewrite insert_node_eq. unfold ins_pre.
    destruct raw as [|a l _] using rev_ind; [congruence|]. unfold path_ok in Hp. rewrite forallb_app in Hp.
    apply andb_true_iff in Hp as [Hl Ha]. simpl in Ha. rewrite andb_true_r in Ha.
    rewrite map_app in Hn. apply app_inj_tail in Hn as [_ Hfa]. rewrite removelast_last, last_last. cbv zeta.
    apply insert_tail_tame; [|exact Hnd|apply name_ok_iff; split; [exact Hfa|apply N.eqb_neq, negb_true_iff, Ha]].
    apply (delete_loc_tame (with_root c _)), (all_nodes_mkdirp (names_ok_at_ok fold)); [|exact I|exact Ht].
    apply names_ok_map, Hl.
  Qed.

  Lemma make_node_tame c d p o m : regular_path p -> tame cf c = true -> tame cf (snd (make_node cf c d p o m)) = true.
  Proof.
    intros Hp Ht. unfold make_node. destruct (negb (md_ok_opt cf m)); [exact Ht|].
    apply insert_node_tame; auto using regular_path_map, fold_fold.
  Qed.

  Lemma set_id_tame c rp o :
    tame cf c = true ->
    let c1 := snd (delete_loc c (loc_oid c o)) in tame cf (with_root c1 (modify rp (set_id o) (c_root c1))) = true.
  Proof.
    intros Ht c1. apply all_nodes_edit; try (intros []; reflexivity). apply delete_loc_tame, Ht.
  Qed.

  Lemma move_tame c rp nd q :
    regular_path q -> tame cf c = true -> lookup rp (c_root c) = Some nd ->
    let c1 := with_root c (cut rp (c_root c)) in
    tame cf (snd (insert_node cf (snd (delete_loc c1 (loc_path cf c1 q))) nd (map fold q))) = true.
  Proof.
    intros Hq Ht El c1. apply insert_node_tame.
    - apply delete_loc_tame, (all_nodes_cut (names_ok_at_ok fold)), Ht.
    - apply (all_nodes_lookup Ht El).
    - apply regular_path_map, Hq.
    - apply fold_fold.
  Qed.

  Lemma tame_pieces : step_pieces cf (fun x => tame cf (snd x) = true) regular_path.
  Proof.
    exact {| sp_ans := fun r r' c (H : tame cf c = true) _ => H;
             sp_del := delete_loc_tame;
             sp_edit := edit_tame;
             sp_ghost := fun c o g (H : tame cf c = true) => H;
             sp_make := make_node_tame;
             sp_norm := regular_path_map;
             sp_setid := fun c rp o d m k Ht _ _ _ => set_id_tame c rp o Ht;
             sp_move := fun c rp nd q Hq Ht _ El => move_tame c rp nd q Hq Ht El |}.
  Qed.

  (* tameness alone is closed under the regular operations; the invariant is not needed for it *)
  Theorem step_keeps_tame c x : op_regular cf x = true -> tame cf c = true -> tame cf (snd (step cf c x)) = true.
  Proof.
    intros Hr Ht. exact (step_closed cf _ _ tame_pieces c x Ht (regular_admissible x Hr) Ht).
  Qed.

  Theorem exec_keeps_tame ops : forall c,
    tame cf c = true -> forallb (op_regular cf) ops = true -> tame cf (exec cf c ops) = true.
  Proof.
    unfold exec. induction ops as [|x ops IH]; intros c Ht Hr; simpl; [exact Ht|].
    simpl in Hr. apply andb_true_iff in Hr as [Hx Hr]. apply IH; [apply step_keeps_tame; assumption|exact Hr].
  Qed.

End Tame.


Lemma delete_loc_modelled c l : fst (delete_loc c l) <> RUnmodelled.
Proof. destruct l as [|[|n rp]|o g]; simpl; discriminate. Qed.

Lemma attach_node_modelled par nm nd c3 : fst (attach_node par nm nd c3) <> RUnmodelled.
Proof. unfold attach_node. destruct (lookup par (c_root c3)); [simpl; discriminate|]. destruct (n_id nd); simpl; discriminate. Qed.

Lemma insert_node_modelled cf c nd raw : fst (insert_node cf c nd raw) <> RUnmodelled.
Proof.
  unfold insert_node, insert_tail. destruct (n_id nd) as [o|]; [|apply attach_node_modelled].
  destruct (loc_oid _ o); try (simpl; discriminate);
    (destruct (oid_is _ o); [simpl; discriminate|apply attach_node_modelled]).
Qed.

Lemma make_node_modelled cf c d p o m : fst (make_node cf c d p o m) <> RUnmodelled.
Proof. unfold make_node. destruct (negb (md_ok_opt cf m)); [simpl; discriminate|apply insert_node_modelled]. Qed.

Lemma modelled_pieces cf : step_pieces cf (fun x => fst x <> RUnmodelled) (fun _ => True).
Proof.
  exact {| sp_ans := fun r r' c _ (H : r' <> RUnmodelled) => H;
           sp_del := fun c l _ => delete_loc_modelled c l;
           sp_edit := fun c rp f _ (H : ROk <> RUnmodelled) => H;
           sp_ghost := fun c o g (H : ROk <> RUnmodelled) => H;
           sp_make := fun c d p o m _ _ => make_node_modelled cf c d p o m;
           sp_norm := fun p (H : True) => H;
           sp_setid := fun c rp o d m k (H : ROk <> RUnmodelled) _ _ _ => H;
           sp_move := fun c rp nd q _ _ _ _ => insert_node_modelled cf _ nd _ |}.
Qed.

Theorem tame_step_modelled cf c x : tame cf c = true -> fst (step cf c x) <> RUnmodelled.
Proof.
  intros Ht. apply (step_closed cf _ _ (modelled_pieces cf) c x Ht (op_admissible_true x)). discriminate.
Qed.
