(* AlgoProgress.v — the change set is exactly the set of flagged entries, and while it is not empty the selection of
   SyncState.change (ageing 0) returns an entry.  (A bound on the number of steps to quiet is not proved.) *)
From Coq Require Import NArith ZArith QArith List Bool Arith Lia.
From CS Require SchedModel SchedProofs.
From CS Require Import StateModel StateProofs AlgoModel AlgoCheck AlgoState AlgoInv AlgoStep.
Import ListNotations.
Local Open Scope N_scope.

Theorem change_set_exact g w e en : Inv g w -> nth_error (ents (w_st w)) e = Some en ->
  (set_mem e (cset (w_st w)) = true <-> flagged en = true).
Proof. intros I Hn. rewrite (inv_mem _ g w e en I Hn). reflexivity. Qed.

Lemma qN_le a b : a <= b -> (qN a <= qN b)%Q.
Proof. intros H. unfold qN. rewrite <- Zle_Qle. lia. Qed.

(* with ageing 0 the threshold is at least the clock reading, and a flag's stamp is not later than that *)
Lemma side_aged_flag c t last : tchg c = true -> chgval c <= t ->
  SchedModel.side_aged (SchedModel.threshold (SchedModel.cfg_exact 0 0) (qN t) 0 (qN last)) (stamp_of c) = true.
Proof.
  intros Hc Ht. destruct c as [| |n]; try discriminate. simpl in Hc, Ht. apply negb_true_iff in Hc. apply N.eqb_neq in Hc.
  unfold SchedModel.side_aged. cbn [stamp_of SchedModel.orz].
  rewrite SchedProofs.truthy_pos by (unfold qN; rewrite <- (Zlt_Qlt 0); lia). cbn [andb].
  apply Qle_bool_iff. unfold SchedModel.threshold, SchedModel.threshold_adj, SchedModel.earlier_than, SchedModel.fsub.
  cbn [SchedModel.c_rnd SchedModel.cfg_exact]. change (Qle_bool 0 0) with true. cbv iota.
  eapply Qle_trans; [|apply SchedProofs.qmax_ge_l]. unfold Qminus. rewrite Qplus_0_r. apply qN_le. exact Ht.
Qed.

Lemma pick_enabled s ord t e en : In e ord -> nth_error (ents s) e = Some en -> flagged en = true -> maxchg en <= t ->
  pick s ord t <> None.
Proof.
  intros Hin Hn Hf Hm Hp. unfold pick in Hp.
  destruct (SchedModel.pick_sorted _ (tagged s ord)) as [x|] eqn:E; [discriminate|].
  pose proof (proj1 (SchedProofs.pick_none _ _) E (e, to_sc en)) as X.
  assert (Hin2: In (e, to_sc en) (tagged s ord)).
  { unfold tagged. apply in_map_iff. exists e. rewrite Hn. auto. }
  specialize (X Hin2). cbn [snd] in X. unfold SchedModel.eligible in X.
  apply orb_false_elim in X as [X _]. apply orb_false_elim in X as [XL XR].
  cbn [to_sc SchedModel.chL SchedModel.chR] in XL, XR.
  unfold flagged in Hf. unfold maxchg, chgv in Hm.
  apply orb_prop in Hf as [Hf|Hf]; apply andb_prop in Hf as [Hf _].
  - rewrite (side_aged_flag (s_chg (e_l en)) t (lastch s) Hf) in XL; [discriminate|]. lia.
  - rewrite (side_aged_flag (s_chg (e_r en)) t (lastch s) Hf) in XR; [discriminate|]. lia.
Qed.

(* SyncManager.do is never idle while work is pending: with a non-empty change set, after the path-filling loop and the
   clock tick of the step, the selection returns an entry - for every iteration order of the set *)
Theorem selection_not_idle g w order w1 :
  Inv g w -> cset (w_st w) <> [] ->
  fill_paths w (norm_order order (cset (w_st w))) = ROk w1 ->
  pick (w_st (fst (tick w1))) (norm_order order (cset (w_st w))) (now (w_st w1) + 1000) <> None.
Proof.
  intros I Hne Ef.
  pose proof (norm_order_members g w order I) as Hord. set (ord := norm_order order (cset (w_st w))) in *.
  destruct (fill_paths_run g ord w I Hord) as (w1' & Ef' & I1 & _ & _ & Hmono). assert (w1' = w1) by congruence. subst w1'.
  (* the first member of the set is flagged, and no stamp is later than the clock after the tick *)
  destruct (cset (w_st w)) as [|c0 cr] eqn:Ecs; [contradiction|].
  assert (Hin: In c0 ord) by (apply norm_order_in; left; reflexivity).
  pose proof (Hmono c0 (set_mem_In c0 (c0 :: cr) (in_eq _ _))) as Hm1.
  pose proof (i_csb I1 c0 Hm1) as Hlt.
  destruct (nth_error (ents (w_st w1)) c0) as [en|] eqn:Hn; [|apply nth_error_None in Hn; lia].
  destruct (i_clke I1 c0 en Hn) as (Hmx & _).
  apply (pick_enabled (w_st (fst (tick w1))) ord (now (w_st w1) + 1000) c0 en Hin Hn (i_cse I1 c0 en Hn Hm1)). lia.
Qed.
