(* CrashProofs.v — C07, part A: "durable never ahead" holds after EVERY sequence of guarded micro operations,
   user operations and crashes (induction over the sequence: every write boundary is a crash point).  The invariant is
   inv = cur_inv + slot_inv per slot.  set_nth is ListFacts.upd_nth: its lemmas are there. *)
From Coq Require Import NArith List Bool Arith Lia.
From CS Require Import Sx ListFacts CrashModel.
Import ListNotations.

Definition grows (o o' : obj) : Prop :=
  (forall h, had_hash o h = true -> had_hash o' h = true) /\ (forall p, had_path o p = true -> had_path o' p = true).

Lemma grows_refl o : grows o o.
Proof. split; auto. Qed.

Lemma grows_push o s ev : grows o (push o s ev).
Proof.
  split; intros x H; unfold had_hash, had_path, states, push in *; simpl in *;
    apply orb_true_iff; right; exact H.
Qed.

Definition ogrows (a b : option obj) : Prop :=
  match a with None => True | Some o => exists o', b = Some o' /\ grows o o' end.

Lemma ogrows_refl a : ogrows a a.
Proof. destruct a; simpl; eauto using grows_refl. Qed.

(* the strict forms are monotone in the histories; na_side / na_row are not (negb (now_hash ..)): this is why the
   invariant keeps the strict form *)
Lemma na_side_s_mono x y ox oy ox' oy' d d' :
  ogrows ox ox' -> ogrows oy oy' -> (d = true -> d' = true) ->
  na_side_s x y ox oy d = true -> na_side_s x y ox' oy' d' = true.
Proof.
  intros Hx Hy Hd. unfold na_side_s. destruct (negb (s_has x)); [auto|].
  destruct ox as [o|].
  - destruct Hx as [o' [-> [Gh Gp]]].
    intros H. apply andb_true_iff in H as [H1 H2]. apply andb_true_iff. split.
    + destruct (s_shash x) as [h|]; [|reflexivity].
      apply andb_true_iff in H1 as [Ha Hb]. apply andb_true_iff. split; [auto|].
      destruct (s_has y).
      * destruct oy as [q|]; [|discriminate]. destruct Hy as [q' [-> [Gh' _]]]. auto.
      * destruct d; [rewrite Hd; auto|discriminate].
    + destruct (s_spath x) as [p|]; [|reflexivity].
      apply andb_true_iff in H2 as [Ha Hb]. apply andb_true_iff. split; [auto|].
      destruct (s_has y); [|reflexivity].
      destruct oy as [q|]; [|discriminate]. destruct Hy as [q' [-> [_ Gp']]]. auto.
  - intros H. destruct (s_shash x); [discriminate|]. destruct (s_spath x); [discriminate|].
    destruct ox'; reflexivity.
Qed.

Lemma na_row_s_mono x y ox oy ox' oy' d d' :
  ogrows ox ox' -> ogrows oy oy' -> (d = true -> d' = true) ->
  na_row_s x y ox oy d = true -> na_row_s x y ox' oy' d' = true.
Proof.
  intros Hx Hy Hd H. unfold na_row_s in *. apply andb_true_iff in H as [H1 H2].
  apply andb_true_iff. split; eapply na_side_s_mono; eauto.
Qed.

Lemma na_side_s_weak x y ox oy d : na_side_s x y ox oy d = true -> na_side x y ox oy d = true.
Proof.
  unfold na_side_s, na_side. destruct (negb (s_has x)); [auto|]. destruct ox as [o|]; [|auto].
  intros H. apply andb_true_iff in H as [H1 H2]. apply andb_true_iff. split.
  - destruct (s_shash x) as [h|]; [|reflexivity]. apply andb_true_iff in H1 as [Ha Hb]. rewrite Ha. simpl.
    destruct (s_has y); [|assumption]. rewrite Hb. apply orb_true_r.
  - destruct (s_spath x) as [p|]; [|reflexivity]. apply andb_true_iff in H2 as [Ha Hb]. rewrite Ha. simpl.
    destruct (s_has y); [|reflexivity]. rewrite Hb. apply orb_true_r.
Qed.

Lemma na_row_s_weak x y ox oy d : na_row_s x y ox oy d = true -> na_row x y ox oy d = true.
Proof.
  unfold na_row_s, na_row. intros H. apply andb_true_iff in H as [A B]. apply andb_true_iff.
  split; now apply na_side_s_weak.
Qed.

Definition peer_of (e : ent) (ps : list obj) : option obj :=
  if s_has (e_peer e) then nth_error ps (e_ref e) else None.
Definition ent_na1 (e : ent) (sl : slot) : Prop :=
  s_has (e_org e) = true /\
  na_row_s (e_org e) (e_peer e) (Some (sl_org sl)) (peer_of e (sl_peers sl)) (e_disc e) = true.
Definition ent_acc (e : ent) (sl : slot) : Prop :=
  s_changed (e_org e) = true \/ uptodate (e_org e) (o_now (sl_org sl)) = true.

(* The invariant of one slot, clause by clause:
     1  the origin's latest event exists (bound by the event counter of its side);
     2, 3  strict NA1 (ent_na1) of the row and of the in-memory entry: memory is what SRow will store;
     4  NA2 of the row, under the IN-MEMORY cursor: an object whose events mcur covers is accounted for (ent_acc:
        change mark, or described as it is) by a row; MAdv's guard and SRow establish it.  never_ahead reads the
        stored cursor: dcur <= mcur (cur_inv) carries the clause over (inv_never_ahead);
     5  the same of the in-memory entry, so that SRow keeps 4;
     6  nothing dirty => memory = row (what the guard of MAdv, row_marked, relies on). *)
Definition slot_inv (x : st) (sl : slot) : Prop :=
  let s := sl_side sl in
  o_ev (sl_org sl) <= sel s (nev x) /\
  (forall r, sl_row sl = Some r -> ent_na1 r sl) /\
  (forall e, sl_mem sl = Some e -> ent_na1 e sl) /\
  (o_ev (sl_org sl) <= sel s (mcur x) -> exists r, sl_row sl = Some r /\ ent_acc r sl) /\
  (forall e, sl_mem sl = Some e -> o_ev (sl_org sl) <= sel s (mcur x) -> ent_acc e sl) /\
  (sl_dirty sl = false -> sl_mem sl = sl_row sl).

Definition cur_inv (x : st) : Prop :=
  forall s, sel s (dcur x) <= sel s (mcur x) /\ sel s (mcur x) <= sel s (nev x).

Definition inv (x : st) : Prop := cur_inv x /\ Forall (slot_inv x) (slots x).

Lemma slot_ev_le x sl : slot_inv x sl -> o_ev (sl_org sl) <= sel (sl_side sl) (nev x).
Proof. intros H. apply H. Qed.
Lemma slot_row_na1 x sl : slot_inv x sl -> forall r, sl_row sl = Some r -> ent_na1 r sl.
Proof. intros H. apply H. Qed.
Lemma slot_mem_na1 x sl : slot_inv x sl -> forall e, sl_mem sl = Some e -> ent_na1 e sl.
Proof. intros H. apply H. Qed.
Lemma slot_row_acc x sl : slot_inv x sl -> o_ev (sl_org sl) <= sel (sl_side sl) (mcur x) ->
  exists r, sl_row sl = Some r /\ ent_acc r sl.
Proof. intros H. apply H. Qed.
Lemma slot_mem_acc x sl : slot_inv x sl ->
  forall e, sl_mem sl = Some e -> o_ev (sl_org sl) <= sel (sl_side sl) (mcur x) -> ent_acc e sl.
Proof. intros H. apply H. Qed.
Lemma slot_clean x sl : slot_inv x sl -> sl_dirty sl = false -> sl_mem sl = sl_row sl.
Proof. intros H. apply H. Qed.

Lemma slot_inv_intro x sl :
  o_ev (sl_org sl) <= sel (sl_side sl) (nev x) ->
  (forall r, sl_row sl = Some r -> ent_na1 r sl) ->
  (forall e, sl_mem sl = Some e -> ent_na1 e sl) ->
  (o_ev (sl_org sl) <= sel (sl_side sl) (mcur x) -> exists r, sl_row sl = Some r /\ ent_acc r sl) ->
  (forall e, sl_mem sl = Some e -> o_ev (sl_org sl) <= sel (sl_side sl) (mcur x) -> ent_acc e sl) ->
  (sl_dirty sl = false -> sl_mem sl = sl_row sl) ->
  slot_inv x sl.
Proof. intros H1 H2 H3 H4 H5 H6. unfold slot_inv. auto 7. Qed.

Lemma sel_upd_same {T} s (v : T) p : sel s (upd s v p) = v.
Proof. destruct s; reflexivity. Qed.
Lemma sel_upd {T} s t (v : T) p : sel t (upd s v p) = if Bool.eqb t s then v else sel t p.
Proof. destruct s, t; reflexivity. Qed.

Lemma inv_init : inv init.
Proof. split; [intros [|]; simpl; lia|constructor]. Qed.

Lemma slot_inv_nev x y sl :
  sel (sl_side sl) (mcur y) = sel (sl_side sl) (mcur x) -> (forall s, sel s (nev x) <= sel s (nev y)) ->
  slot_inv x sl -> slot_inv y sl.
Proof.
  intros Hm Hn H. apply slot_inv_intro; rewrite ?Hm.
  - pose proof (slot_ev_le x sl H). specialize (Hn (sl_side sl)). lia.
  - exact (slot_row_na1 x sl H).
  - exact (slot_mem_na1 x sl H).
  - exact (slot_row_acc x sl H).
  - exact (slot_mem_acc x sl H).
  - exact (slot_clean x sl H).
Qed.

Lemma sel_upd_S s n t : sel t n <= sel t (upd s (S (sel s n)) n).
Proof. rewrite sel_upd. destruct (Bool.eqb t s) eqn:E; [apply eqb_prop in E; subst t|]; lia. Qed.

(* the counters after an MSlot step, as mstep writes them: none is lower *)
Lemma mslot_nev_le (w : bool) s n t : sel t n <= sel t (if w then upd s (S (sel s n)) n else n).
Proof. destruct w; [apply sel_upd_S|lia]. Qed.

Lemma inv_set_slot x y i sl' :
  inv x -> slots y = set_nth i sl' (slots x) -> mcur y = mcur x -> dcur y = dcur x ->
  (forall s, sel s (nev x) <= sel s (nev y)) -> slot_inv y sl' -> inv y.
Proof.
  intros [Hc Hf] Hs Hm Hd Hn Hsl. split.
  - intros s. rewrite Hm, Hd. destruct (Hc s). specialize (Hn s). lia.
  - rewrite Hs. apply Forall_upd; [|exact Hsl]. eapply Forall_impl; [|exact Hf]. intros a. apply slot_inv_nev; [now rewrite Hm|exact Hn].
Qed.

Definition peers_grow (ps ps' : list obj) : Prop := forall k, ogrows (nth_error ps k) (nth_error ps' k).

Lemma ent_na1_grows e sl sl' :
  grows (sl_org sl) (sl_org sl') -> peers_grow (sl_peers sl) (sl_peers sl') -> ent_na1 e sl -> ent_na1 e sl'.
Proof.
  intros Ho Hp [Hh Hn]. split; [assumption|].
  eapply na_row_s_mono; [| |intros H; exact H|exact Hn].
  - simpl. eauto.
  - unfold peer_of. destruct (s_has (e_peer e)); [apply Hp|exact I].
Qed.

Lemma peers_grow_set ps k p p' : nth_error ps k = Some p -> grows p p' -> peers_grow ps (set_nth k p' ps).
Proof.
  intros Hk G j. destruct (Nat.eq_dec k j) as [<-|Hne].
  - rewrite (nth_upd_same _ _ _ _ Hk), Hk. simpl. eauto.
  - rewrite nth_upd_other by assumption. apply ogrows_refl.
Qed.

Lemma peers_grow_app ps q : peers_grow ps (ps ++ q).
Proof.
  intros j. destruct (nth_error ps j) as [o|] eqn:Hj; [|exact I]. exists o. split; [|apply grows_refl].
  rewrite nth_error_app1; [assumption|]. apply nth_error_Some. congruence.
Qed.

Lemma peers_grow_id ps : peers_grow ps ps.
Proof. intros j. apply ogrows_refl. Qed.

(* opt_eqb is ListFacts.option_eqb N.eqb *)
Lemma opt_eqb_eq a b : opt_eqb a b = true -> a = b.
Proof. apply (option_eqb_eq N.eqb N.eqb_eq). Qed.
Lemma opt_eqb_refl a : opt_eqb a a = true.
Proof. now apply (option_eqb_eq N.eqb N.eqb_eq). Qed.
Lemma kind_eqb_eq a b : kind_eqb a b = true -> a = b.
Proof. destruct a, b; simpl; try discriminate; auto. intros H. apply N.eqb_eq in H. congruence. Qed.
Lemma kind_eqb_refl a : kind_eqb a a = true.
Proof. destruct a; simpl; auto. apply N.eqb_refl. Qed.
Lemma eqb_bool_eq a b : Bool.eqb a b = true -> a = b.
Proof. apply eqb_prop. Qed.

Lemma fresh_uptodate e o : fresh e o = true -> uptodate (e_org e) (o_now o) = true.
Proof.
  unfold fresh, uptodate. intros H.
  apply andb_true_iff in H as [H Hl]. apply andb_true_iff in H as [H Hh]. apply andb_true_iff in H as [_ Hp].
  rewrite Hl, Hp, Hh. simpl. apply orb_true_r.
Qed.

Lemma fresh_refreshed x o er k d :
  fresh {| e_org := refreshed x (o_now o); e_peer := er; e_ref := k; e_disc := d |} o = true.
Proof. unfold fresh, refreshed; simpl. now rewrite N.eqb_refl, opt_eqb_refl, eqb_reflx. Qed.

Lemma had_hash_now o : match os_kind (o_now o) with KFile c => had_hash o c = true | KDir => True end.
Proof. unfold had_hash, states. simpl. destruct (os_kind (o_now o)); [|exact I]. now rewrite N.eqb_refl. Qed.
Lemma had_path_now o : had_path o (os_path (o_now o)) = true.
Proof. unfold had_path, states. simpl. now rewrite N.eqb_refl. Qed.

Lemma na_side_synced a b oa ob d :
  os_path (o_now oa) = os_path (o_now ob) -> os_kind (o_now oa) = os_kind (o_now ob) ->
  na_side_s (synced_side (o_now a)) (synced_side (o_now b)) (Some oa) (Some ob) d = true ->
  True.
Proof. auto. Qed.

Lemma na_row_link org p :
  os_path (o_now p) = os_path (o_now org) -> os_kind (o_now p) = os_kind (o_now org) ->
  na_row_s (synced_side (o_now org)) (synced_side (o_now p)) (Some org) (Some p) false = true.
Proof.
  intros Hp Hk. unfold na_row_s, na_side_s, synced_side. simpl.
  pose proof (had_hash_now org) as H1. pose proof (had_hash_now p) as H2.
  pose proof (had_path_now org) as H3. pose proof (had_path_now p) as H4.
  rewrite Hk in *. rewrite Hp in *. rewrite H3, H4.
  destruct (os_kind (o_now org)); simpl; [rewrite H1, H2|]; reflexivity.
Qed.

Lemma reflects_eq p s : reflects p s = true ->
  os_path p = os_path s /\ os_kind p = os_kind s /\ os_live p = true /\ os_conf p = false.
Proof.
  unfold reflects. intros H.
  apply andb_true_iff in H as [H Hc]. apply andb_true_iff in H as [H Hl]. apply andb_true_iff in H as [Hp Hk].
  apply N.eqb_eq in Hp. apply kind_eqb_eq in Hk. apply negb_true_iff in Hc. auto.
Qed.

(* NA1 reads of a side only whether it has an oid and its sync marks.  SMark, SRefresh and SDiscard leave these
   alone and may only raise e_disc (same_marks e e'), which is why they keep NA1 *)
Definition same_marks (e e' : ent) : Prop :=
  s_has (e_org e') = true /\ s_shash (e_org e') = s_shash (e_org e) /\ s_spath (e_org e') = s_spath (e_org e) /\
  s_has (e_peer e') = s_has (e_peer e) /\ s_shash (e_peer e') = s_shash (e_peer e) /\
  s_spath (e_peer e') = s_spath (e_peer e) /\ e_ref e' = e_ref e /\ (e_disc e = true -> e_disc e' = true).

Lemma na_side_s_ext x x' y y' ox oy d :
  s_has x' = s_has x -> s_shash x' = s_shash x -> s_spath x' = s_spath x -> s_has y' = s_has y ->
  na_side_s x' y' ox oy d = na_side_s x y ox oy d.
Proof. unfold na_side_s. now intros -> -> -> ->. Qed.

Lemma ent_na1_same_marks e e' sl : same_marks e e' -> ent_na1 e sl -> ent_na1 e' sl.
Proof.
  intros (A & B & C & D & E & F & G & H) [Hh Hn]. split; [assumption|].
  apply (na_row_s_mono _ _ _ _ _ _ (e_disc e) _ (ogrows_refl _) (ogrows_refl _) H).
  unfold na_row_s, peer_of in *. rewrite D, G.
  now rewrite (na_side_s_ext (e_org e) (e_org e') (e_peer e) (e_peer e')),
              (na_side_s_ext (e_peer e) (e_peer e') (e_org e) (e_org e')) by congruence.
Qed.

Definition slot_step_ok (x : st) (sl sl' : slot) : Prop := slot_inv x sl -> slot_inv x sl' /\ sl_side sl' = sl_side sl.

Ltac inv_some := match goal with H : Some _ = Some _ |- _ => injection H as <- end.

Lemma with_peers_inv x sl ps : peers_grow (sl_peers sl) ps -> slot_inv x sl -> slot_inv x (with_peers sl ps).
Proof.
  intros Hg H. apply slot_inv_intro.
  - exact (slot_ev_le x sl H).
  - intros r Hr. apply (ent_na1_grows r sl); [apply grows_refl|exact Hg|]. exact (slot_row_na1 x sl H r Hr).
  - intros e He. apply (ent_na1_grows e sl); [apply grows_refl|exact Hg|]. exact (slot_mem_na1 x sl H e He).
  - exact (slot_row_acc x sl H).
  - exact (slot_mem_acc x sl H).
  - exact (slot_clean x sl H).
Qed.

Lemma with_mem_inv x sl e :
  slot_inv x sl -> ent_na1 e sl -> (o_ev (sl_org sl) <= sel (sl_side sl) (mcur x) -> ent_acc e sl) ->
  slot_inv x (with_mem sl e).
Proof.
  intros H Hn Ha. apply slot_inv_intro.
  - exact (slot_ev_le x sl H).
  - exact (slot_row_na1 x sl H).
  - intros e' [= <-]. exact Hn.
  - exact (slot_row_acc x sl H).
  - intros e' [= <-]. exact Ha.
  - discriminate.
Qed.

Lemma sexec_inv x np o sl sl' : sexec np o sl = Some sl' -> slot_inv x sl -> slot_inv x sl'.
Proof.
  intros Hex Hinv. destruct o; simpl in Hex.
  (* the four writes to an existing peer: its history grows *)
  4-7: destruct (sl_mem sl) as [e0|]; [|discriminate]; destruct (nth_error (sl_peers sl) k) as [p|] eqn:Ep; [|discriminate];
    destruct (_ && _); [|discriminate]; inv_some; apply with_peers_inv; [|assumption];
    eapply peers_grow_set; [eassumption|apply grows_push].
  - (* SMark: the change mark accounts for the object *)
    inv_some. apply with_mem_inv; [assumption| |intros _; left; destruct (sl_mem sl); reflexivity].
    destruct (sl_mem sl) as [e0|] eqn:Em; [|split; reflexivity].
    eapply ent_na1_same_marks; [|exact (slot_mem_na1 x sl Hinv e0 Em)]. unfold same_marks, marked; simpl. tauto.
  - (* SRefresh: the entry describes the object as it is *)
    destruct (sl_mem sl) as [e0|] eqn:Em; [|discriminate]. inv_some. apply with_mem_inv; [assumption| |intros _; right].
    + eapply ent_na1_same_marks; [|exact (slot_mem_na1 x sl Hinv e0 Em)]. unfold same_marks, refreshed; simpl. tauto.
    + apply (fresh_uptodate _ (sl_org sl)), fresh_refreshed.
  - (* SPCreate *)
    destruct (sl_mem sl) as [e0|]; [|discriminate]. destruct (_ && _); [|discriminate]. inv_some.
    apply with_peers_inv; [apply peers_grow_app|assumption].
  - (* SLink: the guard says the peer reflects the origin, which is NA1 of the synced marks *)
    destruct (sl_mem sl) as [e0|] eqn:Em; [|discriminate]. destruct (nth_error (sl_peers sl) k) as [p|] eqn:Ep; [|discriminate].
    destruct (_ && _) eqn:G; [|discriminate]. inv_some.
    apply andb_true_iff in G as [G Gd]. apply andb_true_iff in G as [G Gr]. apply andb_true_iff in G as [Gf Gl].
    apply reflects_eq in Gr as (Rp & Rk & Rl & Rc). apply with_mem_inv; [assumption| |intros _; right].
    + split; [reflexivity|]. simpl. unfold peer_of; simpl. rewrite Ep. apply na_row_link; assumption.
    + unfold uptodate, synced_side; simpl. rewrite Gl, N.eqb_refl, opt_eqb_refl. reflexivity.
  - (* SDiscard *)
    destruct (sl_mem sl) as [e0|] eqn:Em; [|discriminate]. destruct (_ && _) eqn:G; [|discriminate]. inv_some.
    apply andb_true_iff in G as [G Ga]. apply andb_true_iff in G as [Gf Gl]. apply negb_true_iff in Gl.
    apply with_mem_inv; [assumption| |intros _; right].
    + pose proof (slot_mem_na1 x sl Hinv e0 Em) as Hn. eapply ent_na1_same_marks; [|exact Hn].
      unfold same_marks, unchanged; simpl. destruct Hn as [Hh _]. tauto.
    + unfold uptodate, unchanged; simpl. rewrite Gl. reflexivity.
  - (* SRow *)
    destruct (sl_mem sl) as [e0|] eqn:Em; [|discriminate]. inv_some. apply slot_inv_intro.
    + exact (slot_ev_le x sl Hinv).
    + intros r [= <-]. exact (slot_mem_na1 x sl Hinv e0 Em).
    + intros e [= <-]. exact (slot_mem_na1 x sl Hinv e0 Em).
    + intros Hle. exists e0. split; [reflexivity|]. exact (slot_mem_acc x sl Hinv e0 Em Hle).
    + intros e [= <-]. exact (slot_mem_acc x sl Hinv e0 Em).
    + reflexivity.
Qed.

(* every branch of sexec answers with_mem, with_peers or a record with the same side and origin *)
Lemma sexec_side np o sl sl' : sexec np o sl = Some sl' -> sl_side sl' = sl_side sl /\ sl_org sl' = sl_org sl.
Proof.
  destruct o; simpl; intros H;
    repeat match type of H with
           | match ?c with _ => _ end = _ => destruct c; try discriminate
           end; injection H as <-; split; reflexivity.
Qed.

Lemma row_marked_iff sl : row_marked sl = true <->
  exists r, sl_row sl = Some r /\ s_changed (e_org r) = true /\ sl_dirty sl = false.
Proof.
  unfold row_marked. destruct (sl_row sl) as [r|]; [rewrite andb_true_iff, negb_true_iff|]; split;
    [intros [A B]; eauto|intros (r' & [= <-] & A & B); auto|discriminate|intros (r & [=] & _)].
Qed.

(* the guard of MAdv s *)
Definition adv_ok (x : st) (s : bool) : Prop :=
  forall sl, In sl (slots x) -> sl_side sl = s -> o_ev (sl_org sl) <= sel s (mcur x) \/ row_marked sl = true.

Lemma mstep_adv x s y : mstep x (MAdv s) = Some y <->
  adv_ok x s /\ y = {| slots := slots x; nev := nev x; mcur := upd s (sel s (nev x)) (mcur x); dcur := dcur x |}.
Proof.
  cbn [mstep]. destruct (forallb _ (slots x)) eqn:G.
  - rewrite forallb_forall in G. split; [|intros [_ ->]; reflexivity].
    intros [= <-]. split; [|reflexivity]. intros sl Hin <-. specialize (G sl Hin). rewrite eqb_reflx in G. cbn in G.
    apply orb_true_iff in G as [G|G]; [left; now apply Nat.leb_le|now right].
  - split; [discriminate|]. intros [H _]. exfalso. rewrite (proj2 (forallb_forall _ _)) in G; [discriminate|]. intros sl Hin.
    destruct (Bool.eqb (sl_side sl) s) eqn:E; [|reflexivity]. apply eqb_prop in E.
    destruct (H sl Hin E) as [L|L]; [apply Nat.leb_le in L|]; rewrite L; [reflexivity|apply orb_true_r].
Qed.

Lemma mstep_inv x m y : mstep x m = Some y -> inv x -> inv y.
Proof.
  intros Hs [Hc Hf]. destruct m as [i o|s|s].
  - simpl in Hs. destruct (nth_error (slots x) i) as [sl|] eqn:Ei; [|discriminate].
    destruct (sexec _ o sl) as [sl'|] eqn:Ex; [|discriminate]. inv_some.
    pose proof (nth_error_forall _ _ _ _ Hf Ei) as Hsl.
    apply (inv_set_slot x _ i sl'); try reflexivity; [now split|intros s; apply mslot_nev_le|].
    apply (slot_inv_nev x); [reflexivity|intros s; apply mslot_nev_le|]. eapply sexec_inv; eassumption.
  - apply mstep_adv in Hs as [G ->]. split.
    + intros t. destruct (Hc t), (Hc s). destruct s, t; simpl in *; split; lia.
    + apply Forall_forall. intros sl Hin. rewrite Forall_forall in Hf. pose proof (Hf sl Hin) as H.
      destruct (Bool.eqb (sl_side sl) s) eqn:E.
      * (* the cursor of the slot's side moves: the guard is what clauses 4 and 5 ask for *)
        apply eqb_prop in E. specialize (G sl Hin E). subst s. apply slot_inv_intro; cbn [nev mcur].
        -- exact (slot_ev_le x sl H).
        -- exact (slot_row_na1 x sl H).
        -- exact (slot_mem_na1 x sl H).
        -- intros _. destruct G as [G|G]; [exact (slot_row_acc x sl H G)|].
           apply row_marked_iff in G as (r & Er & G & _). exists r. split; [exact Er|left; exact G].
        -- intros e He _. destruct G as [G|G]; [exact (slot_mem_acc x sl H e He G)|].
           apply row_marked_iff in G as (r & Er & G & Gd). rewrite (slot_clean x sl H Gd), Er in He. inv_some. left. exact G.
        -- exact (slot_clean x sl H).
      * apply (slot_inv_nev x); [cbn [mcur]; now rewrite sel_upd, E|reflexivity|exact H].
  - simpl in Hs. inv_some. split.
    + intros t. destruct (Hc t), (Hc s). destruct s, t; simpl in *; split; lia.
    + exact Hf.
Qed.

Lemma user_change_grows o u s' n : user_change o u = Some s' -> grows o (push o s' n).
Proof. intros _. apply grows_push. Qed.

(* user x u, when u changes the origin of slot i to s' (user_cases) *)
Definition user_at (x : st) (i : nat) (sl : slot) (s' : ost) : st :=
  {| slots := set_nth i (with_org sl (push (sl_org sl) s' (S (sel (sl_side sl) (nev x))))) (slots x);
     nev := upd (sl_side sl) (S (sel (sl_side sl) (nev x))) (nev x); mcur := mcur x; dcur := dcur x |}.

Lemma user_cases (P : st -> Prop) x u :
  (forall s p k, P (user x (UNew s p k))) -> P x ->
  (forall i sl s', nth_error (slots x) i = Some sl -> user_change (sl_org sl) u = Some s' -> P (user_at x i sl s')) ->
  P (user x u).
Proof.
  intros Hn H0 Hc. destruct u as [s p k|i c|i p|i]; [apply Hn| | |]; unfold user; cbn [uop_slot];
    (destruct (nth_error (slots x) i) as [sl|] eqn:Ei; [|exact H0]);
    (destruct (user_change (sl_org sl) _) as [s'|] eqn:Eu; [|exact H0]); now apply Hc.
Qed.

Lemma user_inv x u : inv x -> inv (user x u).
Proof.
  intros Hi. pose proof Hi as [Hc Hf]. apply user_cases; [|exact Hi|].
  - intros s p k. split.
    + intros t. simpl. destruct (Hc t) as [A B]. pose proof (sel_upd_S s (nev x) t). split; lia.
    + simpl. apply Forall_app. split.
      * eapply Forall_impl; [|exact Hf]. intros sl. apply (slot_inv_nev x); [reflexivity|apply sel_upd_S].
      * (* the new object: no row, no memory entry, its event is beyond both cursors *)
        constructor; [|constructor]. apply slot_inv_intro; simpl; rewrite ?sel_upd_same; try discriminate.
        -- lia.
        -- intros Hle. destruct (Hc s) as [A B]. lia.
        -- reflexivity.
  - intros i sl s' Ei _. eapply (inv_set_slot x _ i); try reflexivity; [exact Hi|apply sel_upd_S|].
    pose proof (nth_error_forall _ _ _ _ Hf Ei) as Hsl.
    pose proof (slot_ev_le x sl Hsl) as Hev. destruct (Hc (sl_side sl)) as [A B].
    (* the object's new event is beyond both cursors: clauses 4 and 5 ask for nothing *)
    apply slot_inv_intro; simpl; rewrite ?sel_upd_same.
    + lia.
    + intros r Hr. apply (ent_na1_grows r sl); [apply grows_push|apply peers_grow_id|]. exact (slot_row_na1 x sl Hsl r Hr).
    + intros e He. apply (ent_na1_grows e sl); [apply grows_push|apply peers_grow_id|]. exact (slot_mem_na1 x sl Hsl e He).
    + intros Hle. lia.
    + intros e He Hle. lia.
    + exact (slot_clean x sl Hsl).
Qed.

Lemma crash_inv x : inv x -> inv (crash x).
Proof.
  intros [Hc Hf]. split.
  - intros t. simpl. destruct (Hc t). split; lia.
  - simpl. apply Forall_forall. intros sl' Hin. apply in_map_iff in Hin as [sl [<- Hin]].
    rewrite Forall_forall in Hf. pose proof (Hf sl Hin) as H. destruct (Hc (sl_side sl)) as [A B].
    (* memory := row, in-memory cursor := stored cursor <= the old one *)
    apply slot_inv_intro; simpl.
    + exact (slot_ev_le x sl H).
    + exact (slot_row_na1 x sl H).
    + exact (slot_row_na1 x sl H).
    + intros Hle. apply (slot_row_acc x sl H). lia.
    + intros e He Hle. destruct (slot_row_acc x sl H) as [r [Hr Ha]]; [lia|]. rewrite Hr in He. injection He as <-. exact Ha.
    + reflexivity.
Qed.

Theorem lrun_inv : forall ls x y, inv x -> lrun x ls = Some y -> inv y.
Proof.
  induction ls as [|l ls IH]; intros x y Hi Hr; simpl in Hr.
  - now injection Hr as <-.
  - destruct (lstep x l) as [z|] eqn:El; [|discriminate]. apply (IH z); [|assumption].
    destruct l as [u|m|]; simpl in El.
    + injection El as <-. now apply user_inv.
    + eapply mstep_inv; eauto.
    + injection El as <-. now apply crash_inv.
Qed.

Lemma inv_never_ahead x : inv x -> never_ahead x = true.
Proof.
  intros [Hc Hf]. unfold never_ahead. apply forallb_forall. intros sl Hin.
  rewrite Forall_forall in Hf. specialize (Hf sl Hin).
  unfold slot_never_ahead. apply andb_true_iff. split.
  - destruct (sl_row sl) as [r|] eqn:Er; [|reflexivity]. apply na_row_s_weak, (slot_row_na1 x sl Hf r Er).
  - unfold na_obj, pending_ev. simpl.
    destruct (Nat.ltb (sel (sl_side sl) (dcur x)) (o_ev (sl_org sl))) eqn:El; [reflexivity|].
    apply Nat.ltb_ge in El. destruct (Hc (sl_side sl)) as [A B].
    destruct (slot_row_acc x sl Hf) as [r [Hr Ha]]; [lia|]. rewrite Hr. simpl. rewrite orb_false_r.
    destruct Ha as [Ha|Ha]; rewrite Ha; [reflexivity|apply orb_true_r].
Qed.

(* every prefix of a run is a run: this is "at every write boundary of every run" *)
Theorem durable_never_ahead : forall ls x, lrun init ls = Some x -> never_ahead x = true.
Proof. intros ls x H. apply inv_never_ahead. eapply lrun_inv; [apply inv_init|exact H]. Qed.

(* the theorem above at ls ++ [LCrash]: a crash is a label of the same runs *)
Theorem durable_never_ahead_after_crash : forall ls x, lrun init ls = Some x -> never_ahead (crash x) = true.
Proof. intros ls x H. apply inv_never_ahead, crash_inv. eapply lrun_inv; [apply inv_init|exact H]. Qed.
