(* PropC03.v — C03: one-sided changes mirror exactly; origin side untouched; no echo.
   Theorems about the acceptor Monitor.accept (all traces). *)
From Coq Require Import NArith List Bool.
From CS Require Import Sx TreeModel Monitor MonitorProofs MonitorExamples.
Import ListNotations.

(* at every quiet report of an accepted run both views equal the previously synchronised tree with the
   user's operations applied: the other side mirrors the changed side exactly
   (= MonitorProofs.quiet_views_are_history) *)
Theorem C03_mirror_at_quiet : forall cfg l r tr m',
  check_spec cfg = true -> accept cfg l r tr = inl m' ->
  forall pre x post, tr = pre ++ x :: post -> o_ev x = EQuiet ->
    same_tree (view (rootL cfg) (o_L x)) (apply_ops (view (rootL cfg) l) (rel_user_ops cfg pre)) = true /\
    same_tree (view (rootR cfg) (o_R x)) (apply_ops (view (rootL cfg) l) (rel_user_ops cfg pre)) = true.
Proof. exact quiet_views_are_history. Qed.
Print Assumptions C03_mirror_at_quiet.

(* no engine action changes the origin side's view, and no provider write follows a quiet report *)
Theorem C03_origin_untouched_no_echo : forall cfg l r tr m' s0,
  origin cfg = Some s0 -> accept cfg l r tr = inl m' ->
  forall pre x post s ts, tr = pre ++ x :: post -> o_ev x = EEng s ts ->
    exists ma, run_of cfg (init_state cfg l r) pre ma /\ quiet ma = false /\
      (s = s0 -> same_tree (view (root_of cfg s) (tree_of ma s)) (view (root_of cfg s) (if s then o_R x else o_L x)) = true).
Proof. exact origin_untouched_no_echo. Qed.
Print Assumptions C03_origin_untouched_no_echo.

Theorem C03_no_conflicted_artefact : forall cfg l r tr m',
  no_conflicted cfg = true -> accept cfg l r tr = inl m' ->
  forall pre x post, tr = pre ++ x :: post -> o_ev x = EQuiet ->
    has_conflicted cfg (view (rootL cfg) (o_L x)) = false /\ has_conflicted cfg (view (rootR cfg) (o_R x)) = false.
Proof. exact quiet_no_conflicted. Qed.
Print Assumptions C03_no_conflicted_artefact.

(* non-vacuity: a concrete one-sided run is accepted; of the ways of breaking C03 only an engine write on the
   origin side has a rejected example (MonitorExamples.ex_rejected_origin, ORIGIN) *)
Theorem C03_example_accepted : accepted (ex_cfg (Some false)) ex_l0 ex_r0 ex_trace = true.
Proof. exact ex_accepted. Qed.
Print Assumptions C03_example_accepted.
