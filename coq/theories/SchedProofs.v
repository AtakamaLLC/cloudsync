(* SchedProofs.v — lemmas about SchedModel (C17).  The selection of change() is characterised once, for any strict weak
   order, as the first-occurring minimum among the eligible elements (Section SortLaws, [is_pick]); the laws of the pick are
   read off that.  Then: the last change stamp never decreases under the table operations ([steps_last]); the closed form of
   a punt in ideal arithmetic ([punt_exact], [punted_ch]) and the delay it causes ([punt_bounded_delay]); change() on the
   table ([change_min], [change_none]); no truthy stamp precedes the notification it derives from ([all_ok], kept by every
   table operation; [history_from] is what that invariant is for); the threshold at age <= 0 ([threshold_nonpos],
   [age_zero_eligible]); the witnesses PropC17.v uses. *)
From Coq Require Import QArith Qround ZArith NArith List Bool Lia Lqa Sorting.Sorted.
From CS Require Import Sx ListFacts SchedModel.
Import ListNotations.
Open Scope Q_scope.

Lemma qltb_true a b : qltb a b = true <-> a < b.
Proof.
  unfold qltb. rewrite negb_true_iff, <- not_true_iff_false, Qle_bool_iff.
  split; [apply Qnot_le_lt|apply Qlt_not_le].
Qed.
Lemma qltb_false a b : qltb a b = false <-> b <= a.
Proof. unfold qltb. rewrite negb_false_iff. apply Qle_bool_iff. Qed.
Lemma qeqb_false a b : Qeq_bool a b = false <-> ~ a == b.
Proof. rewrite <- Qeq_bool_iff. symmetry. apply not_true_iff_false. Qed.

Lemma truthy_some c : truthy c = true <-> exists q, c = Some q /\ ~ q == 0.
Proof.
  destruct c as [q|]; simpl.
  - rewrite negb_true_iff, qeqb_false. split; [eauto|]. intros (q' & [= <-] & H). exact H.
  - split; [discriminate|]. intros (q & [=] & _).
Qed.
Lemma truthy_pos q : 0 < q -> truthy (Some q) = true.
Proof. intros H. apply truthy_some. exists q. split; [reflexivity|lra]. Qed.

Lemma qmax_cases a b : qmax a b = a \/ qmax a b = b.
Proof. unfold qmax. destruct (qltb a b); auto. Qed.
Lemma qmax_ge_l a b : a <= qmax a b.
Proof. unfold qmax. destruct (qltb a b) eqn:E; [apply qltb_true in E|]; lra. Qed.
Lemma qmax_ge_r a b : b <= qmax a b.
Proof. unfold qmax. destruct (qltb a b) eqn:E; [|apply qltb_false in E]; lra. Qed.

Definition key_lt (a b : ent) : Prop := pri a < pri b \/ (pri a == pri b /\ tkey a < tkey b).
Definition key_le (a b : ent) : Prop := pri a < pri b \/ (pri a == pri b /\ tkey a <= tkey b).

Lemma key_ltb_true a b : key_ltb a b = true <-> key_lt a b.
Proof.
  unfold key_ltb, key_lt.
  destruct (Qeq_bool (pri a) (pri b)) eqn:E; [apply Qeq_bool_iff in E|apply qeqb_false in E];
    rewrite qltb_true; lra.
Qed.
Lemma key_ltb_false a b : key_ltb a b = false <-> key_le b a.
Proof.
  unfold key_ltb, key_le.
  destruct (Qeq_bool (pri a) (pri b)) eqn:E; [apply Qeq_bool_iff in E|apply qeqb_false in E];
    rewrite qltb_false; lra.
Qed.

Lemma key_lt_le a b : key_lt a b -> key_le a b.
Proof. unfold key_lt, key_le. lra. Qed.


Section SortLaws.
  Context {T : Type}.
  Variable ltb : T -> T -> bool.
  Hypothesis ltb_irrefl : forall x, ltb x x = false.
  Hypothesis ltb_trans : forall x y z, ltb x y = true -> ltb y z = true -> ltb x z = true.
  Definition nlt (a b : T) : Prop := ltb b a = false.      (* a may stand before b *)
  Hypothesis nlt_trans : forall x y z, nlt x y -> nlt y z -> nlt x z.

  Lemma ltb_asym x y : ltb x y = true -> ltb y x = false.
  Proof.
    intros H. destruct (ltb y x) eqn:E; [|reflexivity].
    rewrite <- (ltb_irrefl x). symmetry. exact (ltb_trans _ _ _ H E).
  Qed.

  Lemma insert_in x l z : In z (insert ltb x l) <-> z = x \/ In z l.
  Proof.
    induction l as [|y r IH]; simpl; [intuition|].
    destruct (ltb y x); simpl; rewrite ?IH; intuition.
  Qed.
  Lemma isort_in l z : In z (isort ltb l) <-> In z l.
  Proof. induction l as [|x r IH]; simpl; [reflexivity|]. rewrite insert_in, IH. intuition. Qed.

  Lemma insert_sorted x l : StronglySorted nlt l -> StronglySorted nlt (insert ltb x l).
  Proof.
    intros Hs. induction Hs as [|y r Hr IH Hy]; simpl; [repeat constructor|].
    destruct (ltb y x) eqn:E; constructor; auto using StronglySorted.
    - rewrite Forall_forall in *. intros z Hz. apply insert_in in Hz as [->|Hz]; [exact (ltb_asym _ _ E)|auto].
    - constructor; [exact E|]. eapply Forall_impl; [|exact Hy]. intros z. apply nlt_trans, E.
  Qed.

  Lemma isort_sorted l : StronglySorted nlt (isort ltb l).
  Proof. induction l as [|x r IH]; simpl; [constructor|apply insert_sorted; exact IH]. Qed.

  Lemma find_insert p x s : StronglySorted nlt s ->
    find p (insert ltb x s) =
    if p x then match find p s with
                | Some y => if ltb y x then Some y else Some x
                | None => Some x
                end
    else find p s.
  Proof.
    intros Hs. induction Hs as [|y r Hr IH Hy]; simpl; [destruct (p x); reflexivity|].
    destruct (ltb y x) eqn:E; simpl.
    - destruct (p y); [rewrite E; destruct (p x); reflexivity|exact IH].
    - destruct (p x); [|reflexivity]. destruct (p y); [rewrite E; reflexivity|].
      destruct (find p r) as [z|] eqn:F; [|reflexivity].
      (* y <= x, and y <= z since the tail is sorted: z is not below x *)
      apply find_some in F as [Hin _]. rewrite Forall_forall in Hy.
      rewrite (nlt_trans _ _ _ E (Hy z Hin)). reflexivity.
  Qed.

  Theorem find_isort p l : find p (isort ltb l) = first_min ltb p l.
  Proof.
    induction l as [|x r IH]; simpl; [reflexivity|].
    rewrite find_insert by apply isort_sorted. rewrite IH. reflexivity.
  Qed.

  Definition is_pick (p : T -> bool) (l : list T) (x : T) : Prop :=
    exists l1 l2, l = l1 ++ x :: l2 /\ p x = true /\
      (forall y, In y l1 -> p y = true -> ltb x y = true) /\
      (forall y, In y l2 -> p y = true -> ltb y x = false).

  Lemma is_pick_min p l x : is_pick p l x -> forall y, In y l -> p y = true -> ltb y x = false.
  Proof.
    intros (l1 & l2 & -> & Px & H1 & H2) y Hy Py. apply in_app_or in Hy as [Hy|[<-|Hy]]; auto using ltb_asym.
  Qed.

  Lemma is_pick_head p x r : p x = true -> (forall y, In y r -> p y = true -> ltb y x = false) ->
    is_pick p (x :: r) x.
  Proof. intros Px H. exists [], r. repeat split; [exact Px|intros y []|exact H]. Qed.
  Lemma is_pick_later p x0 r x : is_pick p r x -> (p x0 = true -> ltb x x0 = true) -> is_pick p (x0 :: r) x.
  Proof.
    intros (l1 & l2 & -> & Px & H1 & H2) H0. exists (x0 :: l1), l2. repeat split; auto.
    intros y [<-|Hy]; auto.
  Qed.

  Lemma first_min_none p l : first_min ltb p l = None <-> forall y, In y l -> p y = false.
  Proof.
    induction l as [|x r IH]; simpl; [split; [intros _ y []|reflexivity]|].
    destruct (p x) eqn:Px.
    - split.
      + destruct (first_min ltb p r) as [y|]; [destruct (ltb y x)|]; discriminate.
      + intros H. rewrite (H x) in Px by auto. discriminate.
    - rewrite IH. split; [intros H y [<-|Hy]; auto|auto].
  Qed.

  Lemma first_min_pick p l x : first_min ltb p l = Some x -> is_pick p l x.
  Proof.
    revert x. induction l as [|x0 r IH]; simpl; intros x H; [discriminate|].
    destruct (p x0) eqn:Px0; [|apply is_pick_later; [auto|congruence]].
    destruct (first_min ltb p r) as [y|] eqn:F.
    - specialize (IH y eq_refl). destruct (ltb y x0) eqn:E; injection H as <-.
      + apply is_pick_later; auto.
      + apply is_pick_head; [exact Px0|]. intros z Hz Pz.
        exact (nlt_trans _ _ _ E (is_pick_min _ _ _ IH z Hz Pz)).
    - injection H as <-. apply is_pick_head; [exact Px0|]. intros z Hz Pz.
      rewrite (proj1 (first_min_none p r) F z Hz) in Pz. discriminate.
  Qed.

  Lemma pick_first_min p l x : is_pick p l x -> first_min ltb p l = Some x.
  Proof.
    intros (l1 & l2 & -> & Px & H1 & H2). induction l1 as [|z l1 IH]; simpl.
    - rewrite Px. destruct (first_min ltb p l2) as [y|] eqn:F; [|reflexivity].
      apply first_min_pick in F as (a & b & -> & Py & _). rewrite H2; auto using in_elt.
    - rewrite IH by auto using in_cons. destruct (p z) eqn:Pz; [|reflexivity]. rewrite H1; auto using in_eq.
  Qed.

  Theorem first_min_spec p l x : first_min ltb p l = Some x <-> is_pick p l x.
  Proof. split; [apply first_min_pick|apply pick_first_min]. Qed.
End SortLaws.

Definition elig (et : Q) (x : nat * ent) : bool := eligible et (snd x).

Lemma ikey_irrefl x : ikey_ltb x x = false.
Proof. apply key_ltb_false. unfold key_le. lra. Qed.
Lemma ikey_trans x y z : ikey_ltb x y = true -> ikey_ltb y z = true -> ikey_ltb x z = true.
Proof. unfold ikey_ltb. rewrite !key_ltb_true. unfold key_lt. lra. Qed.
Lemma ikey_nlt_trans x y z : ikey_ltb y x = false -> ikey_ltb z y = false -> ikey_ltb z x = false.
Proof. unfold ikey_ltb. rewrite !key_ltb_false. unfold key_le. lra. Qed.

Theorem pick_sorted_min et l : pick_sorted et l = pick_min et l.
Proof. apply find_isort; [apply ikey_irrefl|apply ikey_trans|apply ikey_nlt_trans]. Qed.

Lemma pick_is_pick et l x : pick_sorted et l = Some x <-> is_pick ikey_ltb (elig et) l x.
Proof. rewrite pick_sorted_min. apply first_min_spec; [apply ikey_irrefl|apply ikey_trans|apply ikey_nlt_trans]. Qed.

Theorem pick_spec et l x : pick_sorted et l = Some x <->
  exists l1 l2, l = l1 ++ x :: l2 /\ eligible et (snd x) = true /\
    (forall y, In y l1 -> eligible et (snd y) = true -> key_lt (snd x) (snd y)) /\
    (forall y, In y l2 -> eligible et (snd y) = true -> key_le (snd x) (snd y)).
Proof.
  rewrite pick_is_pick. unfold is_pick, elig, ikey_ltb.
  setoid_rewrite key_ltb_true. setoid_rewrite key_ltb_false. reflexivity.
Qed.

Theorem pick_none et l : pick_sorted et l = None <-> forall y, In y l -> eligible et (snd y) = false.
Proof. rewrite pick_sorted_min. apply first_min_none. Qed.

Lemma pick_some et l y : In y l -> eligible et (snd y) = true -> exists x, pick_sorted et l = Some x.
Proof.
  intros Hy Py. destruct (pick_sorted et l) as [x|] eqn:P; [eauto|].
  rewrite (proj1 (pick_none et l) P y Hy) in Py. discriminate.
Qed.

Theorem picked_is_eligible et l x : pick_sorted et l = Some x -> In x l /\ eligible et (snd x) = true.
Proof. intros H. apply pick_is_pick in H as (l1 & l2 & -> & Px & _). auto using in_elt. Qed.

Theorem picked_is_min et l x : pick_sorted et l = Some x ->
  forall y, In y l -> eligible et (snd y) = true -> key_le (snd x) (snd y).
Proof.
  intros H y Hy Py. apply pick_is_pick in H. apply key_ltb_false.
  exact (is_pick_min _ ikey_irrefl ikey_trans _ _ _ H y Hy Py).
Qed.

Definition aged (et : Q) (c : stamp) : Prop := exists q, c = Some q /\ ~ q == 0 /\ q <= et.

Lemma side_aged_true et c : side_aged et c = true <-> aged et c.
Proof.
  unfold side_aged, aged. rewrite andb_true_iff, truthy_some, Qle_bool_iff. split.
  - intros [(q & -> & H) Hle]. eauto.
  - intros (q & -> & H & Hle). eauto.
Qed.

Theorem eligible_iff et e :
  eligible et e = true <-> aged et (chL e) \/ aged et (chR e) \/ pri e < 0.
Proof.
  unfold eligible. rewrite !orb_true_iff, !side_aged_true, qltb_true. tauto.
Qed.

Lemma aged_eligible et s e : aged et (ch s e) -> eligible et e = true.
Proof. intros H. apply eligible_iff. destruct s; auto. Qed.
Lemma eligible_side et e : eligible et e = true -> pri e < 0 \/ exists s, aged et (ch s e).
Proof. intros [H|[H|H]]%eligible_iff; [right; exists SL|right; exists SR|left]; exact H. Qed.

Lemma picked_pri_le et l x y : pick_sorted et l = Some x ->
  In y l -> eligible et (snd y) = true -> pri (snd x) <= pri (snd y).
Proof. intros H Hy Py. pose proof (picked_is_min _ _ _ H y Hy Py) as Hk. unfold key_le in Hk. lra. Qed.
Theorem smaller_priority_first et l x y : pick_sorted et l = Some x ->
  In y l -> eligible et (snd y) = true -> pri (snd y) < pri (snd x) -> False.
Proof. intros H Hy Py Hlt. pose proof (picked_pri_le _ _ _ _ H Hy Py). lra. Qed.

Theorem picked_when_smallest et l x : In x l -> eligible et (snd x) = true ->
  (forall y, In y l -> y <> x -> eligible et (snd y) = true -> key_lt (snd x) (snd y)) ->
  NoDup l -> pick_sorted et l = Some x.
Proof.
  intros Hin Px Hall Hnd. apply pick_spec. apply in_split in Hin as (l1 & l2 & ->).
  apply NoDup_remove_2 in Hnd. rewrite in_app_iff in Hnd.
  assert (Hlt : forall y, In y l1 \/ In y l2 -> eligible et (snd y) = true -> key_lt (snd x) (snd y)).
  { intros y Hy Py. apply Hall; [rewrite in_app_iff; simpl; tauto| |exact Py]. intros ->. exact (Hnd Hy). }
  exists l1, l2. repeat split; [exact Px| |]; intros y Hy Py; [|apply key_lt_le]; apply Hlt; auto.
Qed.

Lemma other_other s : other (other s) = s.
Proof. destruct s; reflexivity. Qed.

Lemma set_changed_fields s v e e' : set_changed s v e = Ok e' ->
  ch s e' = v /\ (ch (other s) e' = ch (other s) e \/ ch (other s) e' = Some 0) /\
  pri e' = pri e /\ (forall s', nt s' e' = nt s' e) /\ (forall s', oid s' e' = oid s' e).
Proof.
  unfold set_changed. intros H.
  destruct (_ || _); [|destruct (_ && _)]; injection H as <-; destruct s; simpl;
    repeat split; auto; intros []; reflexivity.
Qed.

Lemma set_changed_ch s v e e' : set_changed s v e = Ok e' -> ch s e' = v.
Proof. intros H. apply (set_changed_fields _ _ _ _ H). Qed.
Lemma set_changed_other s v e e' : set_changed s v e = Ok e' ->
  ch (other s) e' = ch (other s) e \/ ch (other s) e' = Some 0.
Proof. intros H. apply (set_changed_fields _ _ _ _ H). Qed.
Lemma set_changed_nt s v e e' s' : set_changed s v e = Ok e' -> nt s' e' = nt s' e.
Proof. intros H. apply (set_changed_fields _ _ _ _ H). Qed.

Lemma set_changed_simple s v e : truthy v = true -> oid s e = true ->
  set_changed s v e = Ok (with_ch s v (with_in true e)).
Proof. intros Hv Ho. unfold set_changed. rewrite Hv, Ho. reflexivity. Qed.

Definition bump_ok (c : cfg) : Prop := forall x, x < c_rnd c (x + c_eps c).

Lemma nth_error_upd_other {T} i j (x : T) l : i <> j -> nth_error (upd i x l) j = nth_error l j.
Proof. apply nth_upd_other. Qed.
Lemma upd_length {T} i (x : T) l : length (upd i x l) = length l.
Proof. apply ListFacts.upd_length. Qed.

Lemma bind_ok {A B} (r : res A) (f : A -> res B) y : bind r f = Ok y -> exists x, r = Ok x /\ f x = Ok y.
Proof. destruct r as [x|]; [eauto|discriminate]. Qed.

Theorem mark_changed_stamp c sd clock i s s' : bump_ok c -> mark_changed c sd clock i s = Ok s' ->
  last s < last s' /\ clock <= last s' /\
  exists e', nth_error (ents s') i = Some e' /\ ch sd e' = Some (last s').
Proof.
  intros Hb. unfold mark_changed. destruct (nth_error (ents s) i) as [e|] eqn:En; [|discriminate].
  intros H. apply bind_ok in H as (e1 & E1 & H). destruct (Qle_bool clock (last s)) eqn:Ec.
  - apply bind_ok in H as (e2 & E2 & [= <-]). simpl.
    apply Qle_bool_iff in Ec. pose proof (Hb (last s)) as Hlt. unfold fadd.
    split; [exact Hlt|]. split; [lra|].
    exists e2. split; [exact (nth_upd_same _ _ _ _ En)|exact (set_changed_ch _ _ _ _ E2)].
  - injection H as <-. simpl. apply not_true_iff_false in Ec. rewrite Qle_bool_iff in Ec.
    split; [lra|]. split; [lra|].
    exists e1. split; [exact (nth_upd_same _ _ _ _ En)|exact (set_changed_ch _ _ _ _ E1)].
Qed.

Lemma on_ent_last i f s s' : on_ent i f s = Ok s' -> last s' = last s.
Proof.
  unfold on_ent. destruct (nth_error (ents s) i); [|discriminate].
  intros H. apply bind_ok in H as (e' & _ & [= <-]). reflexivity.
Qed.
Lemma finished_last c sd rel i s s' : finished c sd rel i s = Ok s' -> last s' = last s.
Proof.
  unfold finished. destruct (nth_error (ents s) i); [|discriminate].
  intros H. apply bind_ok in H as (e1 & _ & H). destruct (truthy (chR e1) || truthy (chL e1)).
  - injection H as <-. reflexivity.
  - apply bind_ok in H as (l2 & _ & [= <-]). reflexivity.
Qed.

(* every operation on an existing entry goes through [nopick] *)
Lemma nopick_ok (r : res st) s' (p : option (option nat)) :
  bind r (fun s' => Ok (s', None)) = Ok (s', p) -> r = Ok s'.
Proof. intros H. apply bind_ok in H as (x & -> & [= -> _]). reflexivity. Qed.

Lemma step_last c o s s' p : bump_ok c -> step c o s = Ok (s', p) -> last s <= last s'.
Proof.
  intros Hb H.
  destruct o; simpl in H; try apply nopick_ok in H; try (rewrite (on_ent_last _ _ _ _ H); apply Qle_refl).
  - (* ONew *) injection H as <- _. apply Qle_refl.
  - apply (mark_changed_stamp _ _ _ _ _ _ Hb) in H. lra.
  - rewrite (finished_last _ _ _ _ _ _ H). apply Qle_refl.
  - (* OChange *) apply bind_ok in H as (x & _ & [= <- _]). apply Qle_refl.
Qed.

Lemma steps_inv c (R : st -> st -> Prop) :
  (forall s, R s s) -> (forall s1 s2 s3, R s1 s2 -> R s2 s3 -> R s1 s3) ->
  (forall o s s' p, step c o s = Ok (s', p) -> R s s') ->
  forall ops s s', steps c ops s = Ok s' -> R s s'.
Proof.
  intros Hr Ht Hs. induction ops as [|o r IH]; simpl; intros s s' H.
  - injection H as <-. apply Hr.
  - apply bind_ok in H as ([s1 p] & E & H). eapply Ht; [exact (Hs _ _ _ _ E)|exact (IH _ _ H)].
Qed.

Lemma steps_last c ops s s' : bump_ok c -> steps c ops s = Ok s' -> last s <= last s'.
Proof.
  intros Hb. apply (steps_inv c (fun a b => last a <= last b)); [intros; lra|intros; lra|].
  intros o s0 s1 p. apply step_last, Hb.
Qed.

Theorem change_times_strictly_increase c ops i sd t j sd' t' s0 s1 s2 s3 : bump_ok c ->
  mark_changed c sd t i s0 = Ok s1 -> steps c ops s1 = Ok s2 -> mark_changed c sd' t' j s2 = Ok s3 ->
  exists e1 e2 m1 m2,
    nth_error (ents s1) i = Some e1 /\ ch sd e1 = Some m1 /\
    nth_error (ents s3) j = Some e2 /\ ch sd' e2 = Some m2 /\
    m1 < m2 /\ t <= m1 /\ t' <= m2.
Proof.
  intros Hb H1 Hs H2.
  apply mark_changed_stamp in H1 as (_ & Ht1 & e1 & En1 & Ec1); [|exact Hb].
  apply mark_changed_stamp in H2 as (Hlt & Ht2 & e2 & En2 & Ec2); [|exact Hb].
  apply steps_last in Hs; [|exact Hb].
  exists e1, e2, (last s1), (last s3). repeat split; auto. lra.
Qed.

(* [exact c]: the rounding of c is the identity (ideal arithmetic); not the tactic *)
Definition exact (c : cfg) : Prop := forall x, c_rnd c x = x.
Definition side_healthy (s : side) (e : ent) : Prop :=
  truthy (ch s e) = true -> oid s e = true /\ 0 < orz (ch s e).
(* the state the engine keeps entries in; [forall s, side_healthy s e] by conversion *)
Definition healthy (e : ent) : Prop :=
  forall s, truthy (ch s e) = true -> oid s e = true /\ 0 < orz (ch s e).

Fixpoint punts (c : cfg) (k : nat) (e : ent) : res ent :=
  match k with O => Ok e | S k' => bind (punt c e) (punts c k') end.

Lemma punt_exact c e : exact c ->
  punt c e = if qltb 0 (pri e + 1)
             then bind (shift c SL e) (fun e1 => bind (shift c SR e1) (fun e2 => Ok (with_pri (pri e + 1) e2)))
             else Ok (with_pri (pri e + 1) e).
Proof.
  intros Hx. unfold punt, set_priority, fadd. rewrite Hx.
  rewrite (proj2 (qeqb_false (pri e) (pri e + 1))), (proj2 (qltb_true (pri e) (pri e + 1))) by lra. reflexivity.
Qed.

Lemma punt_pri c e e' : exact c -> punt c e = Ok e' -> pri e' = pri e + 1.
Proof.
  intros Hx. rewrite (punt_exact c e Hx). destruct (qltb 0 (pri e + 1)); intros H.
  - apply bind_ok in H as (e1 & _ & H). apply bind_ok in H as (e2 & _ & [= <-]). reflexivity.
  - injection H as <-. reflexivity.
Qed.

Lemma inject_Z_succ k : inject_Z (Z.of_nat (S k)) == inject_Z (Z.of_nat k) + 1.
Proof. rewrite Nat2Z.inj_succ, <- Z.add_1_r, inject_Z_plus. reflexivity. Qed.

Lemma punts_pri c k : exact c -> forall e e', punts c k e = Ok e' -> pri e' == pri e + inject_Z (Z.of_nat k).
Proof.
  intros Hx. induction k as [|k IH]; intros e e' H.
  - injection H as <-. change (inject_Z (Z.of_nat 0)) with 0. lra.
  - apply bind_ok in H as (e1 & P1 & H). rewrite (IH _ _ H), (punt_pri _ _ _ Hx P1).
    rewrite inject_Z_succ. lra.
Qed.

(* what a priority-raising punt writes to side s of a healthy entry *)
Definition punted_ch (c : cfg) (e : ent) (s : side) : stamp :=
  if truthy (ch s e) then Some (orz (ch s e) + c_punt c s) else ch s e.

Lemma punted_truthy c e s : healthy e -> 0 <= c_punt c s -> truthy (punted_ch c e s) = truthy (ch s e).
Proof.
  intros Hh Hp. unfold punted_ch. destruct (truthy (ch s e)) eqn:Tr; [|exact Tr].
  apply truthy_pos. destruct (Hh s Tr). lra.
Qed.
Lemma punted_orz c e s : truthy (ch s e) = true -> orz (punted_ch c e s) = orz (ch s e) + c_punt c s.
Proof. intros Tr. unfold punted_ch. rewrite Tr. reflexivity. Qed.

Lemma shift_healthy c s e : exact c -> 0 <= c_punt c s -> side_healthy s e ->
  exists e', shift c s e = Ok e' /\ (forall s', oid s' e' = oid s' e) /\
    ch (other s) e' = ch (other s) e /\ ch s e' = punted_ch c e s.
Proof.
  intros Hx Hp Hh. unfold side_healthy in Hh. unfold shift, punted_ch, fadd. rewrite Hx. destruct (truthy (ch s e)); [|eauto].
  destruct (Hh eq_refl) as [Ho Hpos]. rewrite set_changed_simple; [|apply truthy_pos; lra|exact Ho].
  eexists. split; [reflexivity|]. destruct s; repeat split; intros []; reflexivity.
Qed.

Lemma punt_once c e : exact c -> 0 <= c_pL c -> 0 <= c_pR c -> healthy e -> 0 <= pri e ->
  exists e', punt c e = Ok e' /\ (forall s, oid s e' = oid s e) /\ (forall s, ch s e' = punted_ch c e s).
Proof.
  intros Hx HpL HpR Hh Hp. rewrite (punt_exact c e Hx), (proj2 (qltb_true 0 (pri e + 1))) by lra.
  destruct (shift_healthy c SL e Hx HpL (Hh SL)) as (e1 & -> & O1 & X1 & C1).
  change (ch SR e1 = ch SR e) in X1.
  (* so the REMOTE shift sees the REMOTE stamp and oid of e *)
  destruct (shift_healthy c SR e1 Hx HpR) as (e2 & S2 & O2 & X2 & C2).
  { unfold side_healthy. rewrite (O1 SR), X1. apply (Hh SR). }
  simpl. rewrite S2. eexists. split; [reflexivity|].
  split; [intros s; rewrite <- O1, <- O2; destruct s; reflexivity|].
  intros []; [exact (eq_trans X2 C1)|]. unfold punted_ch. rewrite <- X1. exact C2.
Qed.

Lemma punts_spec c k : exact c -> 0 <= c_pL c -> 0 <= c_pR c -> forall e, healthy e -> 0 <= pri e ->
  exists e', punts c k e = Ok e' /\
    (forall s, truthy (ch s e') = truthy (ch s e)) /\
    (forall s, truthy (ch s e) = true -> orz (ch s e') == orz (ch s e) + inject_Z (Z.of_nat k) * c_punt c s).
Proof.
  intros Hx HpL HpR. induction k as [|k IH]; intros e Hh Hp.
  - exists e. split; [reflexivity|]. split; [reflexivity|].
    intros s _. change (inject_Z (Z.of_nat 0)) with 0. lra.
  - destruct (punt_once c e Hx HpL HpR Hh Hp) as (e1 & P1 & O1 & C1).
    assert (Hpp : forall s, 0 <= c_punt c s) by (intros []; assumption).
    destruct (IH e1) as (e2 & P2 & T2 & S2).
    { intros s. rewrite C1, O1, punted_truthy by auto. intros Tr. rewrite (punted_orz _ _ _ Tr).
      specialize (Hpp s). destruct (Hh s Tr). split; [assumption|lra]. }
    { rewrite (punt_pri _ _ _ Hx P1). lra. }
    exists e2. split; [simpl; rewrite P1; exact P2|].
    split; [intros s; rewrite T2, C1; auto using punted_truthy|].
    intros s Tr. rewrite S2, C1, (punted_orz _ _ _ Tr) by (rewrite C1, punted_truthy; auto).
    rewrite inject_Z_succ. lra.
Qed.

(* after k punts the entry is eligible again as soon as  stamp0 + k * punt_secs + age <= now *)
Theorem punt_bounded_delay c k e s now age : exact c -> 0 <= c_pL c -> 0 <= c_pR c ->
  healthy e -> 0 <= pri e -> truthy (ch s e) = true ->
  orz (ch s e) + inject_Z (Z.of_nat k) * c_punt c s + age <= now ->
  exists e', punts c k e = Ok e' /\ pri e' == pri e + inject_Z (Z.of_nat k) /\
    orz (ch s e') == orz (ch s e) + inject_Z (Z.of_nat k) * c_punt c s /\
    eligible (earlier_than c now age) e' = true.
Proof.
  intros Hx HpL HpR Hh Hp Tr Hnow.
  destruct (punts_spec c k Hx HpL HpR e Hh Hp) as (e' & P & T & S).
  exists e'. split; [exact P|]. split; [exact (punts_pri c k Hx e e' P)|]. split; [exact (S s Tr)|].
  apply (aged_eligible _ s). specialize (S s Tr). rewrite <- (T s) in Tr. apply truthy_some in Tr as (q & Eq & Hq).
  exists q. split; [exact Eq|]. split; [exact Hq|].
  unfold earlier_than, fsub. rewrite Hx. rewrite Eq in S. simpl in S. lra.
Qed.

(* while it waits it does not block anything with a smaller priority value *)
Lemma punted_behind c k e e' et l i y : exact c -> punts c k e = Ok e' ->
  In y l -> eligible et (snd y) = true -> pri (snd y) < pri e + inject_Z (Z.of_nat k) ->
  pick_sorted et l <> Some (i, e').
Proof.
  intros Hx P Hy Py Hlt Hpick. apply (smaller_priority_first _ _ _ _ Hpick Hy Py).
  simpl. rewrite (punts_pri c k Hx e e' P). exact Hlt.
Qed.
(* the statement of C17_no_starvation: punted_behind under the hypotheses of punt_bounded_delay, of which only [exact c] is used *)
Theorem no_starvation c k e e' et l i y : exact c -> 0 <= c_pL c -> 0 <= c_pR c ->
  healthy e -> 0 <= pri e -> punts c k e = Ok e' ->
  In (i, e') l -> In y l -> eligible et (snd y) = true ->
  pri (snd y) < pri e + inject_Z (Z.of_nat k) ->
  pick_sorted et l <> Some (i, e').
Proof.
  intros Hx _ _ _ _ P _. exact (punted_behind c k e e' et l i y Hx P).
Qed.

Lemma order_ok_tagged order s : order_ok order s = true ->
  (forall x, In x (tagged order s) -> nth_error (ents s) (fst x) = Some (snd x) /\ inset (snd x) = true) /\
  (forall j e, nth_error (ents s) j = Some e -> inset e = true -> In (j, e) (tagged order s)).
Proof.
  unfold order_ok, tagged, member. rewrite !andb_true_iff, !forallb_forall. intros [[_ Ok2] Ok3]. split.
  - intros x Hx. apply in_map_iff in Hx as (i & <- & Hi). specialize (Ok2 i Hi). simpl.
    destruct (nth_error (ents s) i) as [e|] eqn:En; [|discriminate]. rewrite (nth_error_nth _ _ _ En). auto.
  - intros j e En Hi. apply in_map_iff. exists j. rewrite (nth_error_nth _ _ _ En). split; [reflexivity|].
    assert (Hlt : (j < length (ents s))%nat) by (apply nth_error_Some; congruence).
    specialize (Ok3 j). rewrite En, Hi, in_seq in Ok3. cbn [negb orb] in Ok3. rewrite existsb_exists in Ok3.
    destruct Ok3 as (x & Hx & E); [lia|]. apply Nat.eqb_eq in E. subst x. exact Hx.
Qed.

Lemma change_inv c now age order s r : change c now age order s = Ok r ->
  order_ok order s = true /\ r = option_map fst (pick_sorted (threshold c now age (last s)) (tagged order s)).
Proof. unfold change. destruct (order_ok order s); [intros [= <-]; auto|discriminate]. Qed.
Lemma change_ok c now age order s : order_ok order s = true ->
  change c now age order s = Ok (option_map fst (pick_sorted (threshold c now age (last s)) (tagged order s))).
Proof. unfold change. intros ->. reflexivity. Qed.

Theorem change_min c now age order s i : change c now age order s = Ok (Some i) ->
  exists e, nth_error (ents s) i = Some e /\ inset e = true /\
    eligible (threshold c now age (last s)) e = true /\
    forall j e', nth_error (ents s) j = Some e' -> inset e' = true ->
      eligible (threshold c now age (last s)) e' = true -> key_le e e'.
Proof.
  intros [Hok E]%change_inv. apply order_ok_tagged in Hok as [Hmem Hall].
  destruct (pick_sorted _ _) as [[i' e]|] eqn:P; [|discriminate E]. injection E as ->.
  destruct (picked_is_eligible _ _ _ P) as [Hin Pe]. destruct (Hmem _ Hin) as [En Hi].
  exists e. repeat split; auto.
  intros j e' En' Hi' Pe'. exact (picked_is_min _ _ _ P (j, e') (Hall j e' En' Hi') Pe').
Qed.

Theorem change_none c now age order s : change c now age order s = Ok None ->
  forall j e', nth_error (ents s) j = Some e' -> inset e' = true ->
    eligible (threshold c now age (last s)) e' = false.
Proof.
  intros [Hok E]%change_inv. apply order_ok_tagged in Hok as [_ Hall].
  destruct (pick_sorted _ _) as [x|] eqn:P; [discriminate E|].
  intros j e' En' Hi'. exact (proj1 (pick_none _ _) P (j, e') (Hall j e' En' Hi')).
Qed.

(* a side is consistent when its truthy stamp is not earlier than the notification it derives from *)
Definition side_ok (s : side) (e : ent) : Prop :=
  truthy (ch s e) = true -> forall t, nt s e = Some t -> t <= orz (ch s e).
Definition ent_ok (e : ent) : Prop := forall s, side_ok s e.
Definition all_ok (s : st) : Prop := Forall ent_ok (ents s).

Definition cfg_ok (c : cfg) : Prop :=
  bump_ok c /\ (forall x p, 0 <= p -> x <= c_rnd c (x + p)) /\ 0 <= c_pL c /\ 0 <= c_pR c.

Lemma cfg_ok_bump c : cfg_ok c -> bump_ok c.
Proof. intros H. apply H. Qed.
Lemma cfg_ok_shift c s x : cfg_ok c -> x <= c_rnd c (x + c_punt c s).
Proof. intros (_ & Hi & HL & HR). apply Hi. destruct s; assumption. Qed.

Lemma set_changed_keeps s v e e' : set_changed s v e = Ok e' ->
  side_ok (other s) e ->
  (truthy v = true -> forall t, nt s e = Some t -> t <= orz v) ->
  ent_ok e'.
Proof.
  intros H Ho Hs s'.
  assert (Hcase : s' = s \/ s' = other s) by (destruct s, s'; auto).
  destruct Hcase as [->| ->]; unfold side_ok; rewrite (set_changed_nt _ _ _ _ _ H).
  - rewrite (set_changed_ch _ _ _ _ H). exact Hs.
  - destruct (set_changed_other _ _ _ _ H) as [->| ->]; [exact Ho|discriminate].
Qed.

Lemma with_nt_ch s s' v e : ch s' (with_nt s v e) = ch s' e.
Proof. destruct s, s'; reflexivity. Qed.
Lemma with_nt_same s v e : nt s (with_nt s v e) = v.
Proof. destruct s; reflexivity. Qed.

(* a stamp written together with its own notification, or without one *)
Lemma notified_keeps s v n e e' : set_changed s v (with_nt s n e) = Ok e' ->
  (forall t, n = Some t -> t <= orz v) -> ent_ok e -> ent_ok e'.
Proof.
  intros H Hn Hok. apply (set_changed_keeps _ _ _ _ H); [destruct s; apply Hok|].
  intros _ t. rewrite with_nt_same. apply Hn.
Qed.

Lemma shift_keeps c s e e' : cfg_ok c -> shift c s e = Ok e' -> ent_ok e -> ent_ok e'.
Proof.
  intros Hc H Hok. unfold shift in H. destruct (truthy (ch s e)) eqn:Tr; [|injection H as <-; exact Hok].
  apply (set_changed_keeps _ _ _ _ H); [apply Hok|]. intros _ t Ht. apply (Hok s Tr) in Ht.
  pose proof (cfg_ok_shift c s (orz (ch s e)) Hc). unfold fadd. simpl. lra.
Qed.

Lemma ent_ok_ext e e' : (forall s, ch s e' = ch s e) -> (forall s, nt s e' = nt s e) -> ent_ok e -> ent_ok e'.
Proof. intros Hc Hn H s. unfold side_ok. rewrite Hc, Hn. apply H. Qed.

Lemma with_pri_keeps p e : ent_ok e -> ent_ok (with_pri p e).
Proof. apply ent_ok_ext; intros []; reflexivity. Qed.
Lemma with_in_keeps b e : ent_ok e -> ent_ok (with_in b e).
Proof. apply ent_ok_ext; intros []; reflexivity. Qed.

Lemma set_priority_keeps c v e e' : cfg_ok c -> set_priority c v e = Ok e' -> ent_ok e -> ent_ok e'.
Proof.
  intros Hc H Hok. unfold set_priority in H.
  destruct (Qeq_bool (pri e) v); [injection H as <-; exact Hok|].
  destruct (qltb (pri e) v && qltb 0 v); [|injection H as <-; apply with_pri_keeps, Hok].
  apply bind_ok in H as (e1 & S1 & H). apply bind_ok in H as (e2 & S2 & [= <-]).
  apply with_pri_keeps. eauto using shift_keeps.
Qed.

Lemma set_oid_keeps s e : ent_ok e -> ent_ok (set_oid s e).
Proof.
  unfold set_oid. destruct (truthy (chL e) || truthy (chR e)), s; apply ent_ok_ext; intros []; reflexivity.
Qed.
Lemma clear_oid_keeps s e : ent_ok e -> ent_ok (clear_oid s e).
Proof.
  unfold clear_oid. destruct (truthy (ch s e) && negb (truthy (ch (other s) e))), s;
    apply ent_ok_ext; intros []; reflexivity.
Qed.
Lemma discard_ok e : ent_ok (discard_ent e).
Proof. intros []; discriminate. Qed.
Lemma new_ent_ok : ent_ok new_ent.
Proof. intros []; discriminate. Qed.

Lemma on_ent_keeps i f s s' : (forall e e', f e = Ok e' -> ent_ok e -> ent_ok e') ->
  on_ent i f s = Ok s' -> all_ok s -> all_ok s'.
Proof.
  intros Hf. unfold on_ent, all_ok. destruct (nth_error (ents s) i) as [e|] eqn:En; [|discriminate].
  intros H Hok. apply bind_ok in H as (e' & Fe & [= <-]).
  apply Forall_upd; [exact Hok|]. eapply Hf; [exact Fe|]. eapply nth_error_forall; eassumption.
Qed.

Lemma mark_changed_keeps c sd clock i s s' : bump_ok c -> mark_changed c sd clock i s = Ok s' -> all_ok s -> all_ok s'.
Proof.
  intros Hc. unfold mark_changed, all_ok. destruct (nth_error (ents s) i) as [e|] eqn:En; [|discriminate].
  intros H Hok. apply bind_ok in H as (e1 & E1 & H). pose proof (nth_error_forall _ _ _ _ Hok En) as He.
  assert (H1 : ent_ok e1).
  { apply (notified_keeps _ _ _ _ _ E1); [|exact He]. intros t [= <-]. apply Qle_refl. }
  destruct (Qle_bool clock (last s)) eqn:Ec.
  - apply bind_ok in H as (e2 & E2 & [= <-]). apply Forall_upd; [exact Hok|].
    apply (set_changed_keeps _ _ _ _ E2); [apply H1|].
    (* the side still carries the notification at [clock] <= last < last + eps *)
    intros _ t Ht. rewrite (set_changed_nt _ _ _ _ _ E1), with_nt_same in Ht.
    injection Ht as <-. apply Qle_bool_iff in Ec. pose proof (Hc (last s)). unfold fadd. simpl. lra.
  - injection H as <-. apply Forall_upd; assumption.
Qed.

Lemma reset_related_keeps c rel l l' : cfg_ok c -> reset_related c rel l = Ok l' -> Forall ent_ok l -> Forall ent_ok l'.
Proof.
  intros Hc H Hok. revert rel l' H. induction Hok as [|e r He Hr IH]; intros rel l' H; simpl in H.
  - injection H as <-. constructor.
  - apply bind_ok in H as (e' & E1 & H). apply bind_ok in H as (r' & E2 & [= <-]).
    constructor; [|exact (IH _ _ E2)].
    destruct (inset e && qltb 0 (pri e) && _); [eauto using set_priority_keeps|injection E1 as <-; exact He].
Qed.

Lemma finished_keeps c sd rel i s s' : cfg_ok c -> finished c sd rel i s = Ok s' -> all_ok s -> all_ok s'.
Proof.
  intros Hc. unfold finished, all_ok. destruct (nth_error (ents s) i) as [e|] eqn:En; [|discriminate].
  intros H Hok. apply bind_ok in H as (e1 & E1 & H). pose proof (nth_error_forall _ _ _ _ Hok En) as He.
  assert (H1 : ent_ok e1) by (apply (set_changed_keeps _ _ _ _ E1); [apply He|discriminate]).
  destruct (truthy (chR e1) || truthy (chL e1)).
  - injection H as <-. apply Forall_upd; assumption.
  - apply bind_ok in H as (l2 & E2 & [= <-]). apply (reset_related_keeps _ _ _ _ Hc E2).
    apply Forall_upd; [exact Hok|]. apply with_in_keeps, H1.
Qed.

Lemma step_keeps c o s s' p : cfg_ok c -> step c o s = Ok (s', p) -> all_ok s -> all_ok s'.
Proof.
  intros Hc H. destruct o; simpl in H; try apply nopick_ok in H; try (revert H; apply on_ent_keeps; intros e e' He).
  - (* ONew *) injection H as <- _. intros Hok. apply Forall_app. split; [exact Hok|]. repeat constructor. apply new_ent_ok.
  - exact (mark_changed_keeps _ _ _ _ _ _ (cfg_ok_bump c Hc) H).
  - (* OPunt *) exact (set_priority_keeps _ _ _ _ Hc He).
  - (* OSetPri *) exact (set_priority_keeps _ _ _ _ Hc He).
  - exact (finished_keeps _ _ _ _ _ _ Hc H).
  - (* OAged *) apply (notified_keeps _ _ _ _ _ He). discriminate.
  - (* OForce *) apply (notified_keeps _ _ _ _ _ He). intros t [= <-]. apply Qle_refl.
  - (* ORaw *) apply (notified_keeps _ _ _ _ _ He). discriminate.
  - injection He as <-. apply set_oid_keeps.
  - injection He as <-. apply clear_oid_keeps.
  - (* OChange *) apply bind_ok in H as (x & _ & [= <- _]). auto.
  - injection He as <-. intros _. apply discard_ok.
Qed.

Lemma steps_keeps c ops s s' : cfg_ok c -> steps c ops s = Ok s' -> all_ok s -> all_ok s'.
Proof.
  intros Hc. apply (steps_inv c (fun a b => all_ok a -> all_ok b)); [auto|auto|].
  intros o s0 s1 p. apply step_keeps, Hc.
Qed.

Lemma aged_notified et s e : side_ok s e -> aged et (ch s e) -> forall t, nt s e = Some t -> t <= et.
Proof.
  intros Hok (q & Eq & Hq & Hle) t Ht. apply Hok in Ht; [|apply truthy_some; eauto].
  rewrite Eq in Ht. simpl in Ht. lra.
Qed.

(* After ANY history from a table that satisfies [all_ok] (the empty one does), an entry picked with a non-negative
   priority has a side whose stamp has aged AND whose originating notification (ghost [nt]) is at least the ageing interval
   old; the only sides without such a notification ([nt] = None) are those last written by set_aged or by a raw assignment. *)
Theorem history_from c s0 ops s now age order i : cfg_ok c -> all_ok s0 ->
  steps c ops s0 = Ok s ->
  change c now age order s = Ok (Some i) ->
  exists e, nth_error (ents s) i = Some e /\ inset e = true /\
    (pri e < 0 \/
     exists sd, aged (threshold c now age (last s)) (ch sd e) /\
                forall t, nt sd e = Some t -> t <= threshold c now age (last s)).
Proof.
  intros Hc H0 Hs Hch. pose proof (steps_keeps c ops s0 s Hc Hs H0) as Hok.
  destruct (change_min _ _ _ _ _ _ Hch) as (e & En & Hi & Pe & _).
  exists e. split; [exact En|]. split; [exact Hi|].
  pose proof (nth_error_forall _ _ _ _ Hok En) as He.
  destruct (eligible_side _ _ Pe) as [Hn|[sd Ha]]; [left; exact Hn|].
  right. exists sd. split; [exact Ha|exact (aged_notified _ sd e (He sd) Ha)].
Qed.

Lemma exact_cfg_exact pL pR : exact (cfg_exact pL pR).
Proof. intros x. reflexivity. Qed.
Lemma bump_ok_exact pL pR : bump_ok (cfg_exact pL pR).
Proof. intros x. simpl. lra. Qed.
Lemma cfg_ok_exact pL pR : 0 <= pL -> 0 <= pR -> cfg_ok (cfg_exact pL pR).
Proof. intros HL HR. repeat split; [apply bump_ok_exact|intros x p Hp; simpl; lra|assumption|assumption]. Qed.

(* the IEEE-double instance does bump strictly at these sampled clock readings (up to 2^43); at 2^44 it does not
   (PropC17.C17_strictly_increasing_float_refuted) *)
Lemma bump_float_small : forallb (fun x => qltb x (fl53 (x + eps_float)))
    [0; 1; 1 # 1024; 1000; 1700000000; 1700000000 + eps_float; inject_Z (2 ^ 43)] = true.
Proof. vm_compute. reflexivity. Qed.

(* the threshold of change(): a positive ageing interval is measured on the clock
   itself, one <= 0 on the larger of clock and last change stamp *)
Lemma threshold_pos c now age lst : 0 < age -> threshold c now age lst = earlier_than c now age.
Proof.
  intros H. unfold threshold, threshold_adj. destruct (Qle_bool age 0) eqn:E; [|reflexivity].
  apply Qle_bool_iff in E. lra.
Qed.
Lemma threshold_nonpos c now age lst : age <= 0 ->
  lst <= threshold c now age lst /\ earlier_than c now age <= threshold c now age lst.
Proof.
  intros H. unfold threshold, threshold_adj. apply Qle_bool_iff in H. rewrite H.
  split; [apply qmax_ge_r|apply qmax_ge_l].
Qed.

Theorem age_zero_eligible c now age s e : age <= 0 ->
  (exists sd q, ch sd e = Some q /\ ~ q == 0 /\ (q <= last s \/ q <= earlier_than c now age)) ->
  eligible (threshold c now age (last s)) e = true.
Proof.
  intros Hage (sd & q & Eq & Hq & Hle). apply (aged_eligible _ sd).
  destruct (threshold_nonpos c now age (last s) Hage) as [T1 T2].
  exists q. split; [exact Eq|]. split; [exact Hq|]. destruct Hle; lra.
Qed.

Lemma age_zero_stamp_eligible c s1 ops s2 sd e now age : bump_ok c -> age <= 0 -> steps c ops s1 = Ok s2 ->
  ch sd e = Some (last s1) -> ~ last s1 == 0 -> eligible (threshold c now age (last s2)) e = true.
Proof.
  intros Hb Hage Hs Ec Hnz. apply age_zero_eligible; [exact Hage|].
  exists sd, (last s1). eauto using steps_last.
Qed.

Definition mk (p : Q) (a b : stamp) : ent :=
  {| pri := p; chL := a; chR := b; oidL := true; oidR := true; inset := true; ntL := None; ntR := None |}.

(* the oldest change an entry holds; the sort key is the NEWEST one *)
Definition oldest (e : ent) : Q :=
  if truthy (chL e) then (if truthy (chR e) then (if qltb (orz (chR e)) (orz (chL e)) then orz (chR e) else orz (chL e)) else orz (chL e))
  else orz (chR e).

(* change() without the age <= 0 adjustment (threshold = now - age always): what
   C17_same_tick_second_change_old_refuted_new_picked compares [change] with *)
Definition change_v0 (c : cfg) (now age : Q) (order : list nat) (s : st) : res (option nat) :=
  if order_ok order s then Ok (option_map fst (pick_sorted (earlier_than c now age) (tagged order s))) else Bad.
(* two entries notified in the same tick (clock 5), the first one then synchronised *)
Definition same_tick_history : list op :=
  [ONew; OSetOid 0 SL; OMark 0 SL 5; ONew; OSetOid 1 SL; OMark 1 SL 5; OFinished 0 SL [false; false]].
(* two notifications in one tick push the last change stamp to 5.001, ahead of the clock *)
Definition ahead_history : list op := [ONew; OSetOid 0 SL; OMark 0 SL 5; ONew; OSetOid 1 SL; OMark 1 SL 5].
(* entry 0 notified at 10 and punted; entry 1 notified at 11 on REMOTE, then set_aged on LOCAL *)
Definition demo_history : list op :=
  [ONew; OSetOid 0 SL; OMark 0 SL 10; ONew; OSetOid 1 SR; OMark 1 SR 11; OPunt 0; OAged 1 SL].
