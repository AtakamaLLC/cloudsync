(* EventCommute.v — events for different ids of an id-stable provider commute (observed through the id index). *)
From Coq Require Import NArith List Bool Arith Lia.
From CS Require Import Sx Str PathModel PathLaws StateModel StateProofs StatePathProofs EventModel EventProofs EventLaws.
Import ListNotations.

(* what can be seen of a state through the id index of a side: the entry filed under the id, and whether it is pending *)
Definition obsc (s : state) (sd : bool) (o : str) : option (entry * bool) :=
  match al_get o (oids s sd) with
  | Some e => match nth_error (ents s) e with Some en => Some (en, set_mem e (cset s)) | None => None end
  | None => None
  end.
Definition orel (a b : option (entry * bool)) : Prop :=
  match a, b with
  | Some (x, m), Some (y, n) => abs_entry x = abs_entry y /\ m = n
  | None, None => True
  | _, _ => False
  end.
(* for every (side, id); serials are not compared: the two orders may create the entries in different order *)
Definition eqv_obs (s s' : state) : Prop := forall sd o, orel (obsc s sd o) (obsc s' sd o).

(* under the index invariant the observation is a function of the entries and the change set *)
Lemma obsc_intro s e sd (o : str) en : IdxJ s -> nth_error (ents s) e = Some en -> s_oid (gs en sd) = Some o ->
  obsc s sd o = Some (en, set_mem e (cset s)).
Proof. intros HJ Hn Ho. unfold obsc. rewrite (IdxJ_holder _ _ _ _ _ HJ Hn Ho), Hn. reflexivity. Qed.
Lemma obsc_elim s sd (o : str) : IdxJ s ->
  match obsc s sd o with
  | Some (en, m) => exists e, nth_error (ents s) e = Some en /\ s_oid (gs en sd) = Some o /\ m = set_mem e (cset s)
  | None => forall e en, nth_error (ents s) e = Some en -> s_oid (gs en sd) <> Some o
  end.
Proof.
  intros HJ. destruct (obsc s sd o) as [[en m]|] eqn:Eo.
  - unfold obsc in Eo. destruct (al_get o (oids s sd)) as [e|] eqn:Ea; [|discriminate].
    destruct (idx_lookup _ _ _ _ HJ Ea) as [en' [En Ho]]. rewrite En in Eo.
    injection Eo as <- <-. exists e. auto.
  - intros e en Hn Ho. rewrite (obsc_intro _ _ _ _ _ HJ Hn Ho) in Eo. discriminate.
Qed.

(* The lookup is by (sd', o'), the test in the else-branch by the EVENT's side sd: the entry found under another key (the
   other side's id of the same entry) may be the very entry the event rewrote. *)
Lemma obsc_update E s t sd ot (o : str) path h ex s1 :
  IdxJ s -> oip E sd = false -> ot <> Dir -> o <> [] ->
  update E (st_tape s t) sd (Some ot) (Some o) path h ex None = Ok s1 ->
  IdxJ s1 /\
  exists c, tchg c = true /\
  let en0 := match obsc s sd o with Some (en, _) => en | None => new_entry ot end in
  let en1 := ev_entry en0 sd ot o (omap (nps (cvs E sd)) path) h ex c in
  forall sd' (o' : str),
    obsc s1 sd' o' =
    if Bool.eqb sd' sd && str_eqb o' o then Some (en1, true)
    else match obsc s sd' o' with
         | Some (en, m) => if ostr_eqb (s_oid (gs en sd)) (Some o) then Some (en1, true) else Some (en, m)
         | None => None
         end.
Proof.
  intros HJ Hoip Hot Hne H. change (obsc s) with (obsc (st_tape s t)). apply (IdxJ_st_tape s t) in HJ.
  set (s0 := st_tape s t) in *. clearbody s0. clear s. rename s0 into s.
  destruct (update_spec _ _ _ _ _ _ _ _ _ HJ Hoip Hot Hne H) as [en [c [Hn [Hc [Hnew [Hold [He [Hm HJ1]]]]]]]].
  split; [exact HJ1|]. exists c. split; [exact Hc|]. cbv zeta.
  (* o is known and held by the target, or unknown: then the target is the fresh serial and en the new entry *)
  assert (Hcase: (nth_error (ents s) (upd_target s sd o) = Some en /\ al_get o (oids s sd) = Some (upd_target s sd o)) \/
                 (nth_error (ents s) (upd_target s sd o) = None /\ al_get o (oids s sd) = None /\ en = new_entry ot)).
  { destruct (al_get o (oids s sd)) as [e0|] eqn:Ea.
    - left. destruct (upd_known s sd o ot e0 Ea) as [Et Eb]. rewrite Et, Eb in Hn. rewrite Et. split; [exact Hn|reflexivity].
    - right. destruct (upd_unknown s sd o ot Ea) as [Et _]. rewrite Et. split; [apply nth_error_None; lia|].
      split; [reflexivity|apply Hnew; reflexivity]. }
  set (tgt := upd_target s sd o) in *. set (np := omap (nps (cvs E sd)) path) in *.
  assert (Hen0: match obsc s sd o with Some (en', _) => en' | None => new_entry ot end = en).
  { unfold obsc. destruct Hcase as [[Hx Ha]|[_ [Ha ->]]]; rewrite Ha; [rewrite Hx|]; reflexivity. }
  rewrite Hen0. set (en1 := ev_entry en sd ot o np h ex c) in *.
  assert (Hn1: nth_error (ents s1) tgt = Some en1) by (rewrite He; apply (nth_upd_at_same _ _ _ _ Hn)).
  assert (Hoth: forall e', e' <> tgt -> nth_error (ents s1) e' = nth_error (ents s) e').
  { intros e' Hne'. rewrite He, nth_upd_at_other by congruence. apply nth_base_other; assumption. }
  assert (Htgt_s: forall en', nth_error (ents s) tgt = Some en' -> en' = en /\ s_oid (gs en sd) = Some o).
  { intros en' Hx. destruct Hcase as [[Hy Ha]|[Hy _]]; [|congruence]. rewrite Hy in Hx. injection Hx as <-.
    split; [reflexivity|apply Hold; rewrite Ha; discriminate]. }
  assert (Hreal: forall sd' (o' : str), s_oid (gs en sd') = Some o' -> nth_error (ents s) tgt = Some en).
  { intros sd' o' Hy. destruct Hcase as [[Hx _]|[_ [_ ->]]]; [exact Hx|destruct sd'; discriminate]. }
  assert (Hown: forall e' en', nth_error (ents s) e' = Some en' -> s_oid (gs en' sd) = Some o -> e' = tgt).
  { intros e' en' Hx Hy. symmetry. exact (proj1 (upd_known s sd o ot e' (IdxJ_holder s e' sd o en' HJ Hx Hy))). }
  (* under an id (sd', o') other than (sd, o), entry tgt is found after the event iff it was found before *)
  assert (Htgt: forall sd' (o' : str), Bool.eqb sd' sd && str_eqb o' o = false ->
            s_oid (gs en1 sd') = Some o' <-> s_oid (gs en sd') = Some o').
  { intros sd' o' Ek. destruct (Bool.eqb_spec sd' sd) as [->|Hns]; cbn [andb] in Ek.
    - unfold en1. rewrite ev_entry_oid. split; intros Hy; exfalso.
      + injection Hy as <-. rewrite str_eqb_refl in Ek. discriminate.
      + destruct (Htgt_s _ (Hreal _ _ Hy)) as [_ Hoo]. rewrite Hoo in Hy. injection Hy as <-. rewrite str_eqb_refl in Ek. discriminate.
    - replace sd' with (negb sd) by (destruct sd, sd'; try reflexivity; exfalso; apply Hns; reflexivity).
      unfold en1. rewrite gs_ev_entry_other. reflexivity. }
  intros sd' o'. destruct (Bool.eqb sd' sd && str_eqb o' o)%bool eqn:Ek.
  - apply andb_prop in Ek as [Es Eo]. apply Bool.eqb_prop in Es. apply str_eqb_eq in Eo. subst sd' o'.
    rewrite (obsc_intro _ _ _ _ _ HJ1 Hn1 (ev_entry_oid _ _ _ _ _ _ _ _)), Hm, Nat.eqb_refl. reflexivity.
  - pose proof (obsc_elim s sd' o' HJ) as P. destruct (obsc s sd' o') as [[en' m]|].
    + destruct P as [e' [Hx [Hy ->]]]. destruct (Nat.eq_dec e' tgt) as [->|Hne'].
      * destruct (Htgt_s _ Hx) as [-> Hoo]. rewrite Hoo, ostr_eqb_refl.
        rewrite (obsc_intro _ _ _ _ _ HJ1 Hn1 (proj2 (Htgt _ _ Ek) Hy)), Hm, Nat.eqb_refl. reflexivity.
      * destruct (ostr_eqb (s_oid (gs en' sd)) (Some o)) eqn:Eo; [apply ostr_eqb_eq in Eo; exfalso; exact (Hne' (Hown _ _ Hx Eo))|].
        rewrite <- (Hoth _ Hne') in Hx. rewrite (obsc_intro _ _ _ _ _ HJ1 Hx Hy), Hm.
        destruct (Nat.eqb_spec e' tgt); [contradiction|reflexivity].
    + pose proof (obsc_elim s1 sd' o' HJ1) as Q. destruct (obsc s1 sd' o') as [[en'' m'']|]; [exfalso|reflexivity].
      destruct Q as [e'' [Hx [Hy _]]]. destruct (Nat.eq_dec e'' tgt) as [->|Hne''].
      * rewrite Hn1 in Hx. injection Hx as <-. apply (Htgt _ _ Ek) in Hy. exact (P _ _ (Hreal _ _ Hy) Hy).
      * rewrite (Hoth _ Hne'') in Hx. exact (P _ _ Hx Hy).
Qed.

Lemma obsc_oid s sd (o : str) en m : IdxJ s -> obsc s sd o = Some (en, m) -> s_oid (gs en sd) = Some o.
Proof. intros HJ H. pose proof (obsc_elim s sd o HJ) as P. rewrite H in P. destruct P as [_ [_ [Ho _]]]. exact Ho. Qed.
Lemma abs_ev_entry_c en sd ot (o : str) np h ex c c' : tchg c = tchg c' ->
  abs_entry (ev_entry en sd ot o np h ex c) = abs_entry (ev_entry en sd ot o np h ex c').
Proof.
  intros H. apply abs_entry_side. unfold abs_side, ev_side. cbn. rewrite H. reflexivity.
Qed.
Lemma str_eqb_sym a b : str_eqb a b = str_eqb b a.
Proof. exact (StrLemmas.str_eqb_sym a b). Qed.

Lemma obsc_update_other E s t sd ot (o : str) path h ex s1 (o' : str) :
  IdxJ s -> oip E sd = false -> ot <> Dir -> o <> [] ->
  update E (st_tape s t) sd (Some ot) (Some o) path h ex None = Ok s1 -> o' <> o -> obsc s1 sd o' = obsc s sd o'.
Proof.
  intros HJ Hoip Hot Hne H Hd.
  destruct (obsc_update _ _ _ _ _ _ _ _ _ _ HJ Hoip Hot Hne H) as [_ [c [_ F]]]. cbv zeta in F.
  rewrite F, bool_eqb_refl, (str_eqb_neq _ _ Hd). cbn [andb].
  destruct (obsc s sd o') as [[en m]|] eqn:Eo; [|reflexivity].
  rewrite (obsc_oid _ _ _ _ _ HJ Eo). cbn [ostr_eqb]. rewrite (str_eqb_neq _ _ Hd). reflexivity.
Qed.

Lemma events_commute_distinct_oids E s sd otA (oA : str) pA hA exA otB (oB : str) pB hB exB tA tB tA' tB' sA sAB sB sBA :
  IdxJ s -> oip E sd = false -> otA <> Dir -> otB <> Dir -> oA <> [] -> oB <> [] -> oA <> oB ->
  update E (st_tape s tA) sd (Some otA) (Some oA) pA hA exA None = Ok sA ->
  update E (st_tape sA tB) sd (Some otB) (Some oB) pB hB exB None = Ok sAB ->
  update E (st_tape s tB') sd (Some otB) (Some oB) pB hB exB None = Ok sB ->
  update E (st_tape sB tA') sd (Some otA) (Some oA) pA hA exA None = Ok sBA ->
  IdxJ sAB /\ IdxJ sBA /\ eqv_obs sAB sBA.
Proof.
  intros HJ Hoip HotA HotB HnA HnB Hab UA UAB UB UBA.
  destruct (obsc_update _ _ _ _ _ _ _ _ _ _ HJ Hoip HotA HnA UA) as [HJA [cA [HcA FA]]].
  destruct (obsc_update _ _ _ _ _ _ _ _ _ _ HJA Hoip HotB HnB UAB) as [HJAB [cB [HcB FAB]]].
  destruct (obsc_update _ _ _ _ _ _ _ _ _ _ HJ Hoip HotB HnB UB) as [HJB [cB' [HcB' FB]]].
  destruct (obsc_update _ _ _ _ _ _ _ _ _ _ HJB Hoip HotA HnA UBA) as [HJBA [cA' [HcA' FBA]]].
  cbv zeta in FA, FAB, FB, FBA.
  split; [exact HJAB|]. split; [exact HJBA|].
  assert (Hne_ab: str_eqb oB oA = false) by (apply str_eqb_neq; congruence).
  assert (Hne_ba: str_eqb oA oB = false) by (apply str_eqb_neq; congruence).
  (* the entry each event starts from is the same in both orders *)
  rewrite (obsc_update_other _ _ _ _ _ _ _ _ _ _ oB HJ Hoip HotA HnA UA) in FAB by congruence.
  rewrite (obsc_update_other _ _ _ _ _ _ _ _ _ _ oA HJ Hoip HotB HnB UB) in FBA by congruence.
  intros sd' o'. rewrite FAB, FBA, FA, FB.
  destruct (Bool.eqb sd' sd && str_eqb o' oA)%bool eqn:KA, (Bool.eqb sd' sd && str_eqb o' oB)%bool eqn:KB.
  - apply andb_prop in KA as [_ EA], KB as [_ EB]. apply str_eqb_eq in EA, EB. congruence.
  - rewrite ev_entry_oid. cbn [ostr_eqb]. rewrite Hne_ba. cbn [orel]. split; [apply abs_ev_entry_c; congruence|reflexivity].
  - rewrite ev_entry_oid. cbn [ostr_eqb]. rewrite Hne_ab. cbn [orel]. split; [apply abs_ev_entry_c; congruence|reflexivity].
  - destruct (obsc s sd' o') as [[en m]|] eqn:Eo; [|exact I].
    destruct (ostr_eqb (s_oid (gs en sd)) (Some oA)) eqn:EA, (ostr_eqb (s_oid (gs en sd)) (Some oB)) eqn:EB.
    + apply ostr_eqb_eq in EA, EB. congruence.
    + rewrite ev_entry_oid, EA. cbn [ostr_eqb]. rewrite Hne_ba. split; [apply abs_ev_entry_c; congruence|reflexivity].
    + rewrite ev_entry_oid. cbn [ostr_eqb]. rewrite Hne_ab. split; [apply abs_ev_entry_c; congruence|reflexivity].
    + rewrite EA. split; reflexivity.
Qed.
