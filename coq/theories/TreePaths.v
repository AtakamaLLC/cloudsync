(* TreePaths.v — component paths: the booleans path_eqb / is_prefix / strict_prefix / comparable reflect
   p = q,  [pre p q] (exists s, q = p ++ s),  a proper extension,  and  pre p q \/ pre q p;  [parent]. *)
From Coq Require Import NArith List Bool.
From CS Require Export ListFacts.
From CS Require Import Sx TreeModel.
Import ListNotations.

Lemma path_eqb_eq p q : path_eqb p q = true <-> p = q.
Proof. exact (list_eqb_eq N.eqb N.eqb_eq p q). Qed.

Lemma path_eqb_refl p : path_eqb p p = true.
Proof. exact (beq_refl path_eqb path_eqb_eq p). Qed.

Lemma path_eqb_neq p q : path_eqb p q = false <-> p <> q.
Proof. exact (beq_false path_eqb path_eqb_eq p q). Qed.

Lemma path_eqb_false p q : p <> q -> path_eqb p q = false.
Proof. apply path_eqb_neq. Qed.

Lemma path_eqb_sym p q : path_eqb p q = path_eqb q p.
Proof. exact (beq_sym path_eqb path_eqb_eq p q). Qed.

Lemma path_eqb_app_cancel a p q : path_eqb (a ++ p) (a ++ q) = path_eqb p q.
Proof.
  apply eq_true_iff_eq. rewrite !path_eqb_eq. split; intros H; [|congruence].
  apply app_inv_head in H. exact H.
Qed.

Definition pre (p q : path) : Prop := exists s, q = p ++ s.

Lemma is_prefix_iff p q : is_prefix p q = true <-> pre p q.
Proof. exact (prefix_by_iff N.eqb N.eqb_eq p q). Qed.

Lemma is_prefix_false_iff p q : is_prefix p q = false <-> ~ pre p q.
Proof.
  rewrite <- is_prefix_iff. symmetry. apply not_true_iff_false.
Qed.

Lemma pre_refl p : pre p p.
Proof. exists []. rewrite app_nil_r. reflexivity. Qed.

Lemma pre_nil q : pre [] q.
Proof. exists q. reflexivity. Qed.

Lemma pre_app p s : pre p (p ++ s).
Proof. exists s. reflexivity. Qed.

Lemma pre_app2 p s u : pre p ((p ++ s) ++ u).
Proof. exists (s ++ u). rewrite app_assoc. reflexivity. Qed.

Lemma pre_trans p q r : pre p q -> pre q r -> pre p r.
Proof. intros [s Hs] [u Hu]. subst. exists (s ++ u). rewrite app_assoc. reflexivity. Qed.

Lemma pre_nil_r p : pre p [] -> p = [].
Proof. intros [s Hs]. symmetry in Hs. apply app_eq_nil in Hs. tauto. Qed.

Lemma pre_app_cancel a p q : pre (a ++ p) (a ++ q) <-> pre p q.
Proof.
  split; intros [s Hs].
  - rewrite <- app_assoc in Hs. apply app_inv_head in Hs. exists s. exact Hs.
  - subst. exists s. rewrite app_assoc. reflexivity.
Qed.

Lemma is_prefix_app_cancel a p q : is_prefix (a ++ p) (a ++ q) = is_prefix p q.
Proof. exact (prefix_by_app_cancel N.eqb N.eqb_eq a p q). Qed.

Lemma is_prefix_refl p : is_prefix p p = true.
Proof. apply is_prefix_iff, pre_refl. Qed.

Lemma prefix_false_eqb p r : is_prefix p r = false -> path_eqb p r = false.
Proof. intros H. apply path_eqb_false. intros ->. rewrite is_prefix_refl in H. discriminate. Qed.

Lemma is_prefix_app p s : is_prefix p (p ++ s) = true.
Proof. apply is_prefix_iff, pre_app. Qed.

Lemma pre_antisym p q : pre p q -> pre q p -> p = q.
Proof.
  intros [s ->] [u Hu]. destruct s; [symmetry; apply app_nil_r|].
  rewrite <- app_assoc in Hu. destruct (app_neq_self p ((n :: s) ++ u)); [discriminate|exact Hu].
Qed.

Lemma pre_comparable a b c : pre a c -> pre b c -> pre a b \/ pre b a.
Proof.
  revert b c; induction a as [|x a IH]; intros b c Ha Hb.
  - left. apply pre_nil.
  - destruct b as [|y b]; [right; apply pre_nil|].
    destruct Ha as [s Hs], Hb as [u Hu]. subst c. simpl in Hu. inversion Hu; subst.
    destruct (IH b (a ++ s)) as [H|H].
    + apply pre_app.
    + exists u. assumption.
    + left. destruct H as [w Hw]. exists w. simpl. congruence.
    + right. destruct H as [w Hw]. exists w. simpl. congruence.
Qed.

Lemma pre_skipn p q : pre p q -> q = p ++ skipn (length p) q.
Proof. intros [s Hs]. subst. rewrite skipn_len_app. reflexivity. Qed.

Lemma strict_prefix_iff p q : strict_prefix p q = true <-> exists s, s <> [] /\ q = p ++ s.
Proof.
  unfold strict_prefix. rewrite andb_true_iff, negb_true_iff, is_prefix_iff, path_eqb_neq. split.
  - intros [[s Hs] Hne]. exists s. split; [|exact Hs]. intros Hnil. subst. rewrite app_nil_r in Hne. congruence.
  - intros [s [Hne ->]]. split; [apply pre_app|exact (app_neq_self p s Hne)].
Qed.

Lemma strict_prefix_app p s : s <> [] -> strict_prefix p (p ++ s) = true.
Proof. intros H. apply strict_prefix_iff. exists s. split; [exact H|reflexivity]. Qed.

Lemma strict_prefix_false_app p s : strict_prefix p (p ++ s) = false -> s = [].
Proof.
  intros H. destruct s as [|x s]; [reflexivity|].
  rewrite strict_prefix_app in H; discriminate.
Qed.

Lemma parent_last p x : parent (p ++ [x]) = p.
Proof. unfold parent. apply removelast_last. Qed.

Lemma parent_split p : p <> [] -> exists x, p = parent p ++ [x].
Proof. intros H. exists (last p 0%N). unfold parent. apply app_removelast_last. exact H. Qed.

Lemma parent_app a p : p <> [] -> parent (a ++ p) = a ++ parent p.
Proof. intros H. unfold parent. apply removelast_app. exact H. Qed.

Lemma pre_parent p : pre (parent p) p.
Proof.
  destruct p as [|x p]; [apply pre_refl|].
  destruct (parent_split (x :: p)) as [y Hy]; [discriminate|].
  exists [y]. exact Hy.
Qed.

Lemma parent_neq p : p <> [] -> parent p <> p.
Proof.
  intros H Heq. destruct (parent_split p H) as [x Hx]. rewrite Heq in Hx. destruct (app_neq_self p [x]); [discriminate|exact Hx].
Qed.

Lemma pre_parent_of_strict p s : s <> [] -> pre p (parent (p ++ s)).
Proof. intros H. rewrite parent_app by exact H. apply pre_app. Qed.

Lemma app_nonnil_l (a b : path) : a <> [] -> a ++ b <> [].
Proof. intros H Hn. apply app_eq_nil in Hn. tauto. Qed.

Lemma app_nonnil_r (a b : path) : b <> [] -> a ++ b <> [].
Proof. intros H Hn. apply app_eq_nil in Hn. tauto. Qed.

Lemma comparable_false_iff p q : comparable p q = false <-> ~ pre p q /\ ~ pre q p.
Proof. unfold comparable. rewrite orb_false_iff, !is_prefix_false_iff. tauto. Qed.

Lemma comparable_sym p q : comparable p q = comparable q p.
Proof. unfold comparable. apply orb_comm. Qed.
