(* ListFacts.v — each executable model is extracted alone and writes out its own copy of the few list functions it needs.
   The definitions below are those copies written once, with the SAME recursion and argument order, hence convertible with the
   models' functions named beside them: a lemma proved here applies to a model's function as it stands.  For that a model
   function without type parameter is matched by a definition inside a Section, a `Fixpoint f {T}` by a top-level Fixpoint.
   Trap: `rewrite (L a b c)` with every argument given looks for the canonical name and does not find the model's; leave one open. *)
From Coq Require Import List Bool Arith Lia.
Import ListNotations.

Section Eqb.
  Context {T} (eqb : T -> T -> bool) (eqb_eq : forall a b, eqb a b = true <-> a = b).

  Lemma beq_refl a : eqb a a = true.
  Proof. now apply eqb_eq. Qed.

  Lemma beq_false a b : eqb a b = false <-> a <> b.
  Proof. rewrite <- eqb_eq. now destruct (eqb a b). Qed.

  Lemma beq_spec a b : reflect (a = b) (eqb a b).
  Proof. apply iff_reflect. symmetry. apply eqb_eq. Qed.

  Lemma beq_sym a b : eqb a b = eqb b a.
  Proof. destruct (beq_spec a b) as [->|n]; [now rewrite beq_refl|]. symmetry. apply beq_false. congruence. Qed.

  Lemma beq_dec (a b : T) : {a = b} + {a <> b}.
  Proof. destruct (beq_spec a b); auto. Qed.

  (* Str.str_eqb, TreeModel.path_eqb, EntryPredModel.bytes_eqb (N.eqb); ProvModel.path_eqb,
     StateGuardModel.strs_eqb (str_eqb); StateModel.eids_eqb (Nat.eqb) *)
  Fixpoint list_eqb (a b : list T) : bool :=
    match a, b with
    | [], [] => true
    | x :: a', y :: b' => eqb x y && list_eqb a' b'
    | _, _ => false
    end.

  Lemma list_eqb_eq a b : list_eqb a b = true <-> a = b.
  Proof.
    revert b. induction a as [|x a IH]; intros [|y b]; simpl; try (split; [discriminate|congruence]); [tauto|].
    rewrite andb_true_iff, eqb_eq, IH. split; [intros [-> ->]; reflexivity|intros [= -> ->]; auto].
  Qed.

  (* CacheProofs.prefixb, TreeModel.is_prefix (N.eqb): q lies at or below p *)
  Fixpoint prefix_by (p q : list T) : bool :=
    match p, q with
    | [], _ => true
    | a :: p', b :: q' => eqb a b && prefix_by p' q'
    | _ :: _, [] => false
    end.

  Lemma prefix_by_iff p q : prefix_by p q = true <-> exists s, q = p ++ s.
  Proof.
    revert q. induction p as [|a p IH]; intros q; simpl; [split; eauto|].
    destruct q as [|b q]; [split; [discriminate|intros [s Hs]; discriminate]|].
    rewrite andb_true_iff, eqb_eq, IH. split.
    - intros [-> [s ->]]. exists s. reflexivity.
    - intros [s [= -> ->]]. eauto.
  Qed.

  Lemma prefix_by_app p s : prefix_by p (p ++ s) = true.
  Proof. apply prefix_by_iff. eauto. Qed.

  Lemma prefix_by_refl p : prefix_by p p = true.
  Proof. apply prefix_by_iff. exists []. symmetry. apply app_nil_r. Qed.

  Lemma prefix_by_app_cancel a p q : prefix_by (a ++ p) (a ++ q) = prefix_by p q.
  Proof. induction a as [|x a IH]; simpl; [reflexivity|]. rewrite beq_refl. exact IH. Qed.

  (* StateModel.ostr_eqb / oN_eqb, CrashModel.opt_eqb, SmartModel.opt_path_eqb / opt_n_eqb,
     EntryPredModel.oex_eqb / hash_eqb, CodecModel.omp_eqb *)
  Definition option_eqb (a b : option T) : bool :=
    match a, b with Some x, Some y => eqb x y | None, None => true | _, _ => false end.

  Lemma option_eqb_eq a b : option_eqb a b = true <-> a = b.
  Proof.
    destruct a as [x|], b as [y|]; simpl; try (split; [discriminate|congruence]); [|tauto].
    rewrite eqb_eq. split; congruence.
  Qed.
End Eqb.

(* CrashModel.set_nth, CodecModel.set_nth, SchedModel.upd *)
Fixpoint upd_nth {T} (n : nat) (x : T) (l : list T) : list T :=
  match l, n with
  | [], _ => []
  | _ :: r, O => x :: r
  | y :: r, S m => y :: upd_nth m x r
  end.

(* StateModel.list_upd: the same with the list first (ProvModel.hset is the monomorphic copy at obj: not convertible) *)
Fixpoint upd_at {T} (l : list T) (n : nat) (x : T) : list T :=
  match l, n with
  | [], _ => []
  | _ :: r, O => x :: r
  | y :: r, S m => y :: upd_at r m x
  end.

Lemma upd_at_nth {T} (l : list T) n x : upd_at l n x = upd_nth n x l.
Proof. revert n. induction l; intros [|n]; simpl; congruence. Qed.

Section Upd.
  Context {T : Type}.
  Implicit Types (l : list T) (x y : T) (n m : nat).

  Lemma nth_upd l n x m :
    nth_error (upd_nth n x l) m
    = if Nat.eqb m n then match nth_error l n with Some _ => Some x | None => None end else nth_error l m.
  Proof. revert n m. induction l as [|a l IH]; intros [|n] [|m]; simpl; auto. now destruct (Nat.eqb m n). Qed.

  Lemma nth_upd_in {l n} m x {y} :
    nth_error l n = Some y -> nth_error (upd_nth n x l) m = if Nat.eqb m n then Some x else nth_error l m.
  Proof. intros H. now rewrite nth_upd, H. Qed.

  Lemma nth_upd_same l n x y : nth_error l n = Some y -> nth_error (upd_nth n x l) n = Some x.
  Proof. intros H. now rewrite nth_upd, Nat.eqb_refl, H. Qed.

  Lemma nth_upd_other l n m x : n <> m -> nth_error (upd_nth n x l) m = nth_error l m.
  Proof. intros H. rewrite nth_upd. now destruct (Nat.eqb_spec m n); [congruence|]. Qed.

  Lemma upd_length l n x : length (upd_nth n x l) = length l.
  Proof. revert n. induction l; intros [|n]; simpl; auto. Qed.

  Lemma upd_same l n x : nth_error l n = Some x -> upd_nth n x l = l.
  Proof. revert n. induction l as [|a l IH]; intros [|n] E; simpl in *; try discriminate; [now injection E as ->|f_equal; auto]. Qed.

  Lemma upd_twice l n x y : upd_nth n x (upd_nth n y l) = upd_nth n x l.
  Proof. revert n. induction l; intros [|n]; simpl; congruence. Qed.

  Lemma upd_app l1 a l2 x : upd_nth (length l1) x (l1 ++ a :: l2) = l1 ++ x :: l2.
  Proof. induction l1; simpl; congruence. Qed.

  Lemma in_upd l n x z : In z (upd_nth n x l) -> z = x \/ In z l.
  Proof. revert n. induction l as [|a l IH]; intros [|n]; simpl; try tauto; [intuition congruence|]. intros [H|H]; [tauto|]. destruct (IH _ H); tauto. Qed.

  Lemma Forall_upd (P : T -> Prop) l n x : Forall P l -> P x -> Forall P (upd_nth n x l).
  Proof. rewrite !Forall_forall. intros Hl Hx z Hz. destruct (in_upd _ _ _ _ Hz) as [->|]; auto. Qed.
End Upd.

Lemma nth_error_forall {T} (P : T -> Prop) i x l : Forall P l -> nth_error l i = Some x -> P x.
Proof. intros Hl H. rewrite Forall_forall in Hl. apply Hl. eapply nth_error_In. exact H. Qed.

Lemma map_upd {T U} (f : T -> U) l n x : map f (upd_nth n x l) = upd_nth n (f x) (map f l).
Proof. revert n. induction l; intros [|n]; simpl; congruence. Qed.

Lemma map_upd_same {T U} (f : T -> U) l n x y : nth_error l n = Some y -> f x = f y -> map f (upd_nth n x l) = map f l.
Proof. intros H E. rewrite map_upd, E. apply upd_same. now rewrite nth_error_map, H. Qed.

Section UpdAt.
  Context {T : Type}.
  Implicit Types (l : list T) (x y : T) (n m : nat).

  Lemma nth_upd_at l n x m :
    nth_error (upd_at l n x) m
    = if Nat.eqb m n then match nth_error l n with Some _ => Some x | None => None end else nth_error l m.
  Proof. rewrite upd_at_nth. apply nth_upd. Qed.

  Lemma nth_upd_at_same l n x y : nth_error l n = Some y -> nth_error (upd_at l n x) n = Some x.
  Proof. rewrite upd_at_nth. apply nth_upd_same. Qed.

  Lemma nth_upd_at_other l n m x : n <> m -> nth_error (upd_at l n x) m = nth_error l m.
  Proof. rewrite upd_at_nth. apply nth_upd_other. Qed.

  Lemma upd_at_length l n x : length (upd_at l n x) = length l.
  Proof. rewrite upd_at_nth. apply upd_length. Qed.

  Lemma upd_at_same l n x : nth_error l n = Some x -> upd_at l n x = l.
  Proof. rewrite upd_at_nth. apply upd_same. Qed.

  Lemma upd_at_twice l n x y : upd_at (upd_at l n x) n y = upd_at l n y.
  Proof. rewrite !upd_at_nth. apply upd_twice. Qed.

  Lemma upd_at_app l1 a l2 x : upd_at (l1 ++ a :: l2) (length l1) x = l1 ++ x :: l2.
  Proof. rewrite upd_at_nth. apply upd_app. Qed.
End UpdAt.

Lemma map_upd_at {T U} (f : T -> U) l n x : map f (upd_at l n x) = upd_at (map f l) n (f x).
Proof. rewrite !upd_at_nth. apply map_upd. Qed.

Lemma map_upd_at_same {T U} (f : T -> U) l n x y : nth_error l n = Some y -> f x = f y -> map f (upd_at l n x) = map f l.
Proof. rewrite upd_at_nth. apply map_upd_same. Qed.

Lemma nth_error_mid {T} (l1 : list T) a l2 : nth_error (l1 ++ a :: l2) (length l1) = Some a.
Proof. induction l1; simpl; auto. Qed.

Lemma skipn_len_app {T} (a b : list T) : skipn (length a) (a ++ b) = b.
Proof. induction a; simpl; auto. Qed.

Lemma app_neq_self {T} (a b : list T) : b <> [] -> a <> a ++ b.
Proof. intros Hb E. rewrite <- (app_nil_r a) in E at 1. apply app_inv_head in E. symmetry in E. contradiction. Qed.

Lemma nodup_snoc {T} (l : list T) (x : T) : NoDup l -> ~ In x l -> NoDup (l ++ [x]).
Proof. intros Hn Hx. apply (NoDup_Add (Add_app x l [])). rewrite app_nil_r. auto. Qed.

Lemma filter_nil {T} (p : T -> bool) l : (forall x, In x l -> p x = false) -> filter p l = [].
Proof.
  induction l as [|x l IH]; simpl; intros H; [reflexivity|].
  rewrite (H x) by auto. apply IH. auto.
Qed.

Lemma NoDup_map_filter {X Y} (f : X -> Y) p l : NoDup (map f l) -> NoDup (map f (filter p l)).
Proof.
  induction l as [|x l IH]; simpl; intros ND; [constructor|].
  inversion ND as [|? ? Hni ND']; subst. destruct (p x); simpl; [|auto].
  constructor; [|auto]. intros H. apply Hni, (incl_map f (incl_filter p l)), H.
Qed.

Section Mem.
  Context {T} (eqb : T -> T -> bool) (eqb_eq : forall a b, eqb a b = true <-> a = b).

  (* CacheModel.mem, Monitor.mem, SmartModel.kmem, AlgoModel.n_mem unfold to existsb (N.eqb k) l *)
  Lemma existsb_eqb_In k l : existsb (eqb k) l = true <-> In k l.
  Proof.
    rewrite existsb_exists. split; [intros [y [Hy He]]; apply eqb_eq in He; now subst|].
    intros H. exists k. split; [exact H|now apply eqb_eq].
  Qed.

  (* the nodupb of CacheProofs, CodecModel (N.eqb), ProvModel, SchedModel (Nat.eqb), TreeProofs (path_eqb) *)
  Fixpoint nodupb_by (l : list T) : bool :=
    match l with [] => true | x :: r => negb (existsb (eqb x) r) && nodupb_by r end.

  Lemma nodupb_NoDup l : nodupb_by l = true <-> NoDup l.
  Proof.
    induction l as [|x r IH]; simpl; [split; [constructor|reflexivity]|].
    now rewrite andb_true_iff, negb_true_iff, IH, NoDup_cons_iff, <- existsb_eqb_In, not_true_iff_false.
  Qed.
End Mem.

Lemma nth_error_snoc {T} (l : list T) x e :
  nth_error (l ++ [x]) e = if Nat.eqb e (length l) then Some x else nth_error l e.
Proof. revert e. induction l as [|a l IH]; intros [|e]; simpl; auto. now destruct e. Qed.

Lemma nth_error_snoc_inv {T} (l : list T) x e y :
  nth_error (l ++ [x]) e = Some y -> nth_error l e = Some y \/ (e = length l /\ y = x).
Proof. rewrite nth_error_snoc. destruct (Nat.eqb_spec e (length l)); [intros [= ->]|]; auto. Qed.

Lemma fold_left_invariant {A B} (f : A -> B -> A) (P : A -> Prop) l :
  (forall a b, In b l -> P a -> P (f a b)) -> forall a, P a -> P (fold_left f l a).
Proof.
  induction l as [|x l IH]; simpl; intros Hf a Ha; [exact Ha|].
  apply IH; [intros a' b Hb; apply Hf; right; exact Hb|apply Hf; [left; reflexivity|exact Ha]].
Qed.
