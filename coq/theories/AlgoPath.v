(* AlgoPath.v — the path strings of the fragment: a provider path [a; n] (root folder, file name) as the string
   "/a/n"; normal form, components, translation between the two roots.  Built on PathLaws. *)
From Coq Require Import NArith List Bool Arith Lia.
From CS Require Import Sx Str StrLemmas PathModel PathLaws StateModel ProvModel AlgoModel.
Import ListNotations.

Lemma mk_conv_std cs : mk_conv cs = cv_std cs false. Proof. reflexivity. Qed.

Lemma name_ok_gcomp cs n : name_ok n = true -> gcomp (mk_conv cs) n.
Proof.
  unfold name_ok. intros H. apply andb_prop in H as [Hne Hall]. rewrite forallb_forall in Hall.
  split; [split|].
  - destruct n; discriminate.
  - intros Hin. specialize (Hall _ Hin). simpl in Hall. discriminate.
  - intros a Ha _ Hin. simpl in Ha. injection Ha as <-. specialize (Hall _ Hin).
    apply andb_prop in Hall as [_ H2]. simpl in H2. discriminate.
Qed.

Lemma Forall_gcomp cs p : Forall (fun n => name_ok n = true) p -> Forall (gcomp (mk_conv cs)) p.
Proof. induction 1; constructor; auto. apply name_ok_gcomp. assumption. Qed.

Lemma pstr_render cs (p : ProvModel.path) : Forall (fun n => name_ok n = true) p -> pstr p = render (mk_conv cs) p.
Proof. intros H. symmetry. apply (render_crel (mk_conv cs) eq_refl), Forall_gcomp, H. Qed.

Lemma nps_pstr cs p : Forall (fun n => name_ok n = true) p -> nps (mk_conv cs) (pstr p) = pstr p.
Proof. intros H. rewrite (pstr_render cs p H). apply nps_render. apply Forall_gcomp. exact H. Qed.

Lemma spath_pstr p : Forall (fun n => name_ok n = true) p -> spath (pstr p) = p.
Proof.
  intros H. unfold spath. rewrite split_runs_comps, (pstr_render true p H).
  rewrite <- (pc_noalt (mk_conv true)) by (apply noalt_render, gcomp_noalt, Forall_gcomp, H).
  apply pc_render, Forall_gcomp, H.
Qed.

Lemma tstr_pstr p : tstr (Some (pstr p)) = true.
Proof. destruct p; reflexivity. Qed.

Lemma root_name_ok sd : name_ok (root_name sd) = true. Proof. destruct sd; reflexivity. Qed.

(* CloudSync.translate of "/root_from/n" is "/root_to/n" *)
Lemma translate_file (synced : bool) n : name_ok n = true ->
  AlgoModel.translate (cfg_std 1) synced (Some (pstr [root_name (negb synced); n])) = Some (pstr [root_name synced; n]).
Proof.
  (* an instance of PathLaws.translate_render, with [render] read back as [pstr] *)
  intros Hn. set (cv := mk_conv true).
  assert (Hr : forall s, Forall (fun n => name_ok n = true) [root_name s]) by (intros s; repeat constructor; apply root_name_ok).
  assert (Hp : forall s, Forall (fun n => name_ok n = true) [root_name s; n]) by (intros s; repeat constructor; auto using root_name_ok).
  assert (Hm : Forall (gcomp cv) [n]) by (apply (Forall_gcomp true); repeat constructor; exact Hn).
  pose proof (translate_render cv eq_refl (cv_std_ok true false) [root_name false] [root_name true] synced [n]
                (Forall_gcomp true _ (Hr false)) (Forall_gcomp true _ (Hr true)) Hm) as T.
  destruct synced; cbn [app] in T; rewrite <- !(pstr_render true) in T by auto.
  - apply T. discriminate.
  - apply T. discriminate.
Qed.

Lemma paths_match_refl cv a : paths_match cv a a true = true.
Proof. apply match_refl. Qed.
