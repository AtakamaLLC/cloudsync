(* StateUpdateProofs.v — event application keeps the index invariant: SyncState.update_entry, SyncState.update (all
   branches: prior_oid / rename detection, reuse of a discarded entry, merge through SyncEntry.__setitem__, stale path
   lookups, new entry), SyncEntry.__setitem__, SyncState.split, and every run of the modelled alphabet under the guards of
   StateGuardModel from any state satisfying IdxJ; the refutations without the guards (forget_refuted, setitem_refuted). *)
From Coq Require Import NArith List Bool Arith Lia.
From CS Require Import Sx Str PathModel PathLaws StateModel StateProofs StatePathProofs StateGuardModel StateFolderProofs.
Import ListNotations.

(* what the invariant can see of a state: `obs_eq s s'` is `oeq (obs_of s') (obs_of s)` of StateProofs (mind the swap) by
   conversion, which is why IdxJ_obs is Idx_ext and why lemmas about oeq apply to it *)
Definition obs_eq (s s' : state) : Prop :=
  (forall e sd, oid_of s' e sd = oid_of s e sd) /\ (forall e sd, path_of s' e sd = path_of s e sd) /\
  (forall sd k, al_get k (oids s' sd) = al_get k (oids s sd)) /\
  (forall sd p o, slot_get s' sd p o = slot_get s sd p o).

Lemma IdxJ_obs s s' : obs_eq s s' -> IdxJ s -> IdxJ s'.
Proof. exact (Idx_ext (obs_of s') (obs_of s)). Qed.
Lemma obs_eq_refl s : obs_eq s s.
Proof. repeat split. Qed.
Lemma obs_eq_trans a b c : obs_eq a b -> obs_eq b c -> obs_eq a c.
Proof. intros H1 H2. exact (oeq_trans (obs_of c) (obs_of b) (obs_of a) H2 H1). Qed.
Lemma iview_obs s s' : iview s' = iview s -> obs_eq s s'.
Proof.
  intros H. exact (iview_ext _ _ H).
Qed.

Lemma add_entry_fresh s t sd : path_of (fst (add_entry s t)) (snd (add_entry s t)) sd = None.
Proof.
  unfold add_entry, path_of. simpl. rewrite nth_error_snoc, Nat.eqb_refl. destruct sd; reflexivity.
Qed.
Lemma add_entry_old s t e sd : e <> length (ents s) ->
  path_of (fst (add_entry s t)) e sd = path_of s e sd /\ otype_of (fst (add_entry s t)) e sd = otype_of s e sd.
Proof.
  intros Hn. unfold add_entry, path_of, otype_of. simpl. rewrite nth_error_snoc.
  destruct (Nat.eqb_spec e (length (ents s))); [contradiction|split; reflexivity].
Qed.

Lemma set_plain_otype s e sd t s' : set_plain s e sd (fun y => w_otype y t) = Ok s' -> otype_of s' e sd = Some t.
Proof.
  intros H. unfold set_plain in H. bind_inv H en E. injection H as <-. apply get_ent_ok in E.
  unfold otype_of, raw_side. simpl. rewrite E. simpl. rewrite nth_upd_at, Nat.eqb_refl, E, gs_ss, bool_eqb_refl. reflexivity.
Qed.

Lemma set_oid_pview E s e sd v s' : set_oid E s e sd v = Ok s' -> pview s' = pview s.
Proof. unfold set_oid, run_cmd. apply exec_oid_pview. Qed.

(* update_entry under ue_guardb: C1 the id step (the same entry, or a fresh one that has no path yet), C2 the type step,
   then the path by set_path_pres; hash, exists and mark_changed do not touch the indexes *)
Lemma update_entry_pres E s e sd oid path h ex changed ot s' :
  env_ok E -> IdxJ s -> ue_guardb E s e sd oid path ot = true ->
  update_entry E s e sd oid path h ex changed ot = Ok s' -> IdxJ s'.
Proof.
  intros HE HJ Hg H. unfold update_entry in H.
  bind_inv H en0 E0. pose proof (get_ent_ok _ _ _ E0) as Hen0.
  bind_inv H y E1. destruct y as [s1 e1]. cbv beta iota in H.
  (* the id: either on the entry itself, or on a fresh one that replaces it *)
  assert (C1: IdxJ s1 /\
              let rep := (match oid, ot with Some _, Some _ => is_discarded (e_ign en0) && oip E sd && tstr path | _, _ => false end)%bool in
              (e1 = e /\ pview s1 = pview s /\ rep = false) \/ path_of s1 e1 sd = None).
  { destruct oid as [o|]; [|injection E1 as <- <-; split; [exact HJ|left; repeat split; reflexivity]].
    cbv zeta. destruct (is_discarded (e_ign en0) && oip E sd && tstr path)%bool eqn:Ec; [destruct ot as [t|]|].
    - unfold add_entry in E1. bind_inv E1 so E2. injection E1 as <- <-.
      split; [exact (set_oid_pres _ _ _ _ _ _ (add_entry_pres s t HJ) E2)|]. right.
      apply set_oid_pview in E2. rewrite (proj1 (pview_eq _ _ E2)). exact (add_entry_fresh s t sd).
    - bind_inv E1 so E2. injection E1 as <- <-. split; [exact (set_oid_pres _ _ _ _ _ _ HJ E2)|left].
      split; [reflexivity|split; [exact (set_oid_pview _ _ _ _ _ _ E2)|reflexivity]].
    - bind_inv E1 so E2. injection E1 as <- <-. split; [exact (set_oid_pres _ _ _ _ _ _ HJ E2)|left].
      split; [reflexivity|split; [exact (set_oid_pview _ _ _ _ _ _ E2)|destruct ot; reflexivity]]. }
  destruct C1 as [HJ1 C1].
  bind_inv H en1 E2. bind_inv H s2 E3.
  assert (C2: IdxJ s2 /\ (forall x sd', path_of s2 x sd' = path_of s1 x sd') /\
              otype_of s2 e1 sd = match ot with Some t => Some t | None => otype_of s1 e1 sd end).
  { apply get_ent_ok in E2.
    pose proof (otype_of_ent _ _ _ sd E2) as Hcur.
    destruct ot as [t|]; [|injection E3 as <-; split; [exact HJ1|split; reflexivity]].
    destruct (otype_eqb t (s_otype (gs en1 sd))) eqn:Et.
    - injection E3 as <-. split; [exact HJ1|]. split; [reflexivity|]. rewrite Hcur.
      destruct t, (s_otype (gs en1 sd)); try discriminate Et; reflexivity.
    - assert (Hv: iview s2 = iview s1) by (eapply set_plain_view; [apply keeps_w_otype|exact E3]).
      split; [exact (IdxJ_view s1 s2 Hv HJ1)|]. split.
      + intros x sd'. apply iview_eq in Hv as [He _]. apply (proj2 (He x sd')).
      + eapply set_plain_otype; exact E3. }
  destruct C2 as [HJ2 [Hp2 Ho2]].
  destruct (match ot with Some NotKnown => match ex with Some true => true | _ => false end | _ => false end); [discriminate|].
  bind_inv H s3 E4.
  assert (HJ3: IdxJ s3).
  { destruct path as [p|]; [|injection E4 as <-; exact HJ2].
    bind_inv E4 en2 E5.
    destruct (ostr_eqb (Some (nps (cvs E sd) p)) (s_path (gs en2 sd))); [injection E4 as <-; exact HJ2|].
    eapply set_path_pres; [exact HE|exact HJ2| |exact E4].
    rewrite path_guardb_eq, Ho2, Hp2.
    cbv zeta in C1. destruct C1 as [[-> [Hpv Hrep]]|Hnew].
    - destruct (pview_eq _ _ Hpv) as [Hq1 Hq2].
      unfold ue_guardb in Hg. rewrite Hen0, Hrep in Hg.
      rewrite Hq1, Hq2, (otype_of_ent _ _ _ sd Hen0), (path_of_ent _ _ _ sd Hen0). destruct ot; exact Hg.
    - rewrite Hnew. destruct (match ot with Some t => Some t | None => otype_of s1 e1 sd end) as [[| |]|]; reflexivity. }
  bind_inv H en3 E5. bind_inv H s4 E6. bind_inv H s5 E7.
  assert (HJ4: IdxJ s4).
  { destruct h as [hv|]; [|injection E6 as <-; exact HJ3].
    destruct (oN_eqb (Some hv) (s_hash (gs en3 sd))); [injection E6 as <-; exact HJ3|].
    eapply set_plain_pres; [apply keeps_w_hash|exact HJ3|exact E6]. }
  assert (HJ5: IdxJ s5).
  { rewrite set_ex_plain in E7. exact (set_plain_pres _ _ _ _ _ (keeps_w_ex _) HJ4 E7). }
  destruct changed; [|injection H as <-; exact HJ5].
  bind_inv H en5 E8. destruct (tstr (s_path (gs en5 sd)) || tstr (s_oid (gs en5 sd)))%bool; [|discriminate].
  eapply mark_changed_pres; eassumption.
Qed.

Lemma exec_oid_fin E f e sd v s :
  exec E f (COid true e sd v) s = (s' <- exec E f (COid false e sd v) s ;; Ok (raw_side s' e sd (fun y => w_oid y v))).
Proof.
  destruct f as [|f]; [reflexivity|]. rewrite !exec_oid_eq.
  destruct (get_ent s e) as [en|]; [|reflexivity]. cbn [bind].
  destruct (oid_loop (exec E f) e sd (s_oid (gs en sd)) v s) as [s1|]; [|reflexivity]. cbn [bind].
  unfold oid_finish. destruct (get_ent s1 e); reflexivity.
Qed.

(* updated(side, "oid", o) for an id: the field is written by _change_oid itself *)
Lemma exec_oid_false_some E f e sd o s s' :
  exec E f (COid false e sd (Some o)) s = Ok s' -> oid_of s' e sd = Some o.
Proof.
  intros H. destruct f as [|f]; [discriminate|]. rewrite exec_oid_eq in H. bind_inv H en E0. bind_inv H s1 E1.
  apply oid_finish_some in H as [Ho _]. cbn [obs_of rekey o_oid] in Ho. rewrite Ho, at2_refl. reflexivity.
Qed.

Lemma exec_path_falsy_frame E f k sd v s s' :
  IdxJ s -> tstr v = false -> exec E f (CPath true k sd v) s = Ok s' ->
  (forall x sd', path_of s' x sd' = if at2 x k sd' sd then v else path_of s x sd') /\
  (forall x sd', otype_of s' x sd' = otype_of s x sd').
Proof.
  intros HJ Hv H. destruct f as [|f]; [discriminate|].
  destruct (get_ent s k) as [en|] eqn:E0; [|rewrite exec_path_eq, E0 in H; discriminate].
  destruct (exec_path_inv _ _ _ _ _ _ _ _ _ H E0) as [Eas [s1 [E1 ->]]]. apply get_ent_ok in E0.
  assert (He: ents s1 = ents s).
  { destruct (path_main_cases _ _ _ _ _ _ _ _ HJ E0 Eas E1) as [[_ ->]|[[_ [He _]]|(p & sc & -> & Hp & _)]];
      [reflexivity|exact He|]. destruct p; [contradiction|discriminate]. }
  split; intros x1 sd'.
  - exact (proj2 (raw_path_ents s s1 k sd v en He E0) x1 sd').
  - change (otype_of (raw_side s1 k sd (fun y => w_path y v)) x1 sd' = otype_of s x1 sd').
    unfold otype_of. rewrite (side_raw_keep (fun y => Some (s_otype y))) by reflexivity. rewrite He. reflexivity.
Qed.

(* the last line of __setitem__: the whole side is replaced; s0 is any state with the index view of s *)
Lemma put_side_obs s0 s e sd en val :
  iview s = iview s0 -> nth_error (ents s) e = Some en ->
  oeq (obs_of (put_ent s e (ss en sd val)))
      (mkObs (fun x sd' => if at2 x e sd' sd then s_oid val else oid_of s0 x sd')
             (fun x sd' => if at2 x e sd' sd then s_path val else path_of s0 x sd')
             (fun sd' k => al_get k (oids s0 sd')) (slot_get s0)).
Proof.
  intros Hv Hn. destruct (iview_ext _ _ Hv) as [Ho [Hp [HO HP]]].
  assert (Ht: put_ent s e (ss en sd val) = raw_side s e sd (fun _ => val)) by (unfold raw_side; rewrite Hn; reflexivity).
  rewrite Ht. split; [|split; [|split]]; cbn [obs_of o_oid o_path o_at o_slot]; intros.
  - rewrite oid_of_raw_side, Hn, Ho. reflexivity.
  - rewrite path_of_raw_side, Hn, Hp. reflexivity.
  - rewrite oids_raw_side. apply HO.
  - rewrite slot_get_raw_side. apply HP.
Qed.

(* when the entry carries the incoming id already, all that the replacement adds is the pending write of the path *)
Lemma put_side_path s0 s e sd en val :
  iview s = iview s0 -> nth_error (ents s) e = Some en -> nth_error (ents s0) e <> None -> oid_of s0 e sd = s_oid val ->
  obs_eq (raw_side s0 e sd (fun y => w_path y (s_path val))) (put_ent s e (ss en sd val)).
Proof.
  intros Hv Hn Hn0 Hid. destruct (put_side_obs s0 s e sd en val Hv Hn) as [Ot [Pt [OOt PPt]]].
  cbn [obs_of o_oid o_path o_at o_slot] in Ot, Pt, OOt, PPt. split; [|split; [|split]].
  - intros x sd'. rewrite Ot, oid_of_raw_keep by reflexivity. destruct (at2 x e sd' sd) eqn:Hx; [|reflexivity].
    apply at2_true in Hx as [-> ->]. symmetry. exact Hid.
  - intros x sd'. rewrite Pt, path_of_raw_side. destruct (nth_error (ents s0) e); [reflexivity|contradiction].
  - intros sd' k. rewrite OOt, oids_raw_side. reflexivity.
  - intros sd' p o. rewrite PPt, slot_get_raw_side. reflexivity.
Qed.

(* updated(side, "oid", None) on an entry without an id: nothing to remove *)
Lemma exec_oid_none_noid E f e sd s s' :
  oid_of s e sd = None -> exec E f (COid false e sd None) s = Ok s' -> iview s' = iview s.
Proof.
  intros Ho H. destruct f as [|f]; [discriminate|]. rewrite exec_oid_eq in H. bind_inv H x E0. bind_inv H x0 E1.
  apply get_ent_ok in E0.
  rewrite (oid_of_ent _ _ _ sd E0) in Ho. rewrite Ho in E1. unfold oid_loop in E1. cbn [ostr_eqb] in E1. rewrite oid_step_none in E1. injection E1 as <-.
  unfold oid_finish in H. rewrite (get_ent_nth _ _ _ E0) in H. cbn [bind] in H. cbv zeta in H. injection H as <-.
  destruct (_ && _)%bool; reflexivity.
Qed.

(* updated(side, "oid", None) on an entry that is found under its id o: the id and the entry's slot go *)
Lemma exec_oid_none_self E f fin e sd s s' o :
  oid_of s e sd = Some o -> al_get o (oids s sd) = Some e ->
  exec E f (COid fin e sd None) s = Ok s' ->
  (forall x sd', oid_of s' x sd' = if fin && Nat.eqb x e && Bool.eqb sd' sd then None else oid_of s x sd') /\
  (forall x sd', path_of s' x sd' = path_of s x sd') /\
  (forall sd' k, al_get k (oids s' sd') = if Bool.eqb sd' sd && str_eqb k o then None else al_get k (oids s sd')) /\
  (forall sd' p k, slot_get s' sd' p k = slot_get s sd' p k \/ (sd' = sd /\ k = o /\ slot_get s' sd' p k = None)) /\
  (forall p, path_of s e sd = Some p -> p <> [] -> slot_get s' sd p o = None).
Proof.
  intros Ho Hidx H. destruct f as [|f]; [discriminate|]. rewrite exec_oid_eq in H.
  destruct (side_some_ent s_oid _ _ _ _ Ho) as [en [Hen Hoe]]. rewrite Hen in H. cbn [bind] in H. rewrite Hoe in H.
  bind_inv H s1 E0. apply oid_loop_none in E0 as [r Hst].
  assert (Ho0: oid_of (st_tape s r) e sd = Some o) by exact Ho.
  apply (oid_step_holder _ _ _ _ _ e) in Hst as [[F1 [F2 [F3 F4]]] Ff]; [|exact Hidx|exact Ho].
  rewrite Nat.eqb_refl in Ff. cbn [obs_of oview rekey o_oid o_path o_at o_slot andb] in F1, F2, F3, F4. rewrite Ho0 in F3, F4.
  apply oid_finish_none in H as [G3 [G4 [G1 G2]]]. cbn [obs_of oview o_oid o_path o_at o_slot] in G1, G2, G3, G4.
  split; [|split; [|split; [|split]]].
  - intros x sd'. rewrite G3, <- andb_assoc. specialize (F1 x sd'). unfold at2 in *.
    destruct (Nat.eqb x e && Bool.eqb sd' sd)%bool eqn:Ex; [|rewrite andb_false_r; exact F1].
    apply at2_true in Ex as [-> ->]. rewrite Ff, Ho. destruct fin; reflexivity.
  - intros x sd'. rewrite G4, F2. destruct (at2 x e sd' sd) eqn:Ex; [apply at2_true in Ex as [-> ->]|]; reflexivity.
  - intros sd' k. rewrite G1, F3. change (ostr_eqb (Some k) None) with false. rewrite andb_false_r. reflexivity.
  - intros sd' p k. rewrite G2, F4. change (tstr None) with false. rewrite andb_false_r. cbn [andb].
    destruct (Bool.eqb sd' sd && tstr (path_of (st_tape s r) e sd) && ostr_eqb (Some p) (path_of (st_tape s r) e sd) &&
              ostr_eqb (Some k) (Some o))%bool eqn:Ec; [right|left; reflexivity].
    apply andb_prop in Ec as [Ec Ek]. apply and3_true in Ec as [Es _]. apply Bool.eqb_prop in Es. apply ostr_eqb_eq in Ek.
    injection Ek as ->. repeat split; assumption.
  - intros p Hp Hpn. assert (Hp0: path_of (st_tape s r) e sd = Some p) by exact Hp.
    rewrite G2, F4, Hp0, bool_eqb_refl, !ostr_eqb_refl. change (tstr None) with false. destruct p; [contradiction|reflexivity].
Qed.

(* abstractly: entry d gives up its id o *)
Lemma idx_unindex u t d sd o :
  IdxJ u -> oid_of u d sd = Some o ->
  (forall x sd', oid_of t x sd' = if Nat.eqb x d && Bool.eqb sd' sd then None else oid_of u x sd') ->
  (forall x sd', path_of t x sd' = path_of u x sd') ->
  (forall sd' k, al_get k (oids t sd') = if Bool.eqb sd' sd && str_eqb k o then None else al_get k (oids u sd')) ->
  (forall sd' p k, slot_get t sd' p k = slot_get u sd' p k \/ (sd' = sd /\ k = o /\ slot_get t sd' p k = None)) ->
  (forall p, path_of u d sd = Some p -> p <> [] -> slot_get t sd p o = None) ->
  IdxJ t.
Proof.
  intros HJ Hod Hoid Hpath HO HP HPd.
  apply (Idx_ext (obs_of t) (rekey (obs_of u) d sd None (path_of u d sd))); [|apply Idx_rekey; [exact HJ|discriminate]].
  destruct HJ as [Hf [_ Hsp]].
  split; [|split; [|split]]; cbn [obs_of rekey o_oid o_path o_at o_slot].
  - exact Hoid.
  - intros x sd'. rewrite Hpath. destruct (at2 x d sd' sd) eqn:Hx; [apply at2_true in Hx as [-> ->]|]; reflexivity.
  - intros sd' k. rewrite HO, Hod. change (ostr_eqb (Some k) None) with false. rewrite andb_false_r. reflexivity.
  - (* a slot that the hypotheses leave undetermined would be one of d under its own key, which is the one that goes *)
    intros sd' p k. rewrite Hod. change (ostr_eqb (Some k) None) with false. rewrite andb_false_r.
    destruct (Bool.eqb sd' sd && tstr (path_of u d sd) && ostr_eqb (Some p) (path_of u d sd) && ostr_eqb (Some k) (Some o))%bool eqn:Ec.
    + apply andb_prop in Ec as [Ec Ek]. apply and3_true in Ec as [Es [Et Ep]]. apply Bool.eqb_prop in Es. apply ostr_eqb_eq in Ep, Ek.
      injection Ek as ->. subst sd'. rewrite <- Ep in Et. apply HPd; [symmetry; exact Ep|]. destruct p; discriminate.
    + destruct (HP sd' p k) as [He|[-> [-> He]]]; [exact He|]. rewrite He.
      destruct (slot_get u sd p o) as [z|] eqn:Ez; [|reflexivity]. exfalso.
      destruct (Hsp _ _ _ _ Ez) as [Ha [Hb Hc]]. assert (z = d) by (destruct (Hf _ _ _ Ha), (Hf _ _ _ Hod); congruence). subst z.
      rewrite Hb, bool_eqb_refl, !ostr_eqb_refl in Ec. destruct p; [contradiction|discriminate].
Qed.

Lemma path_guardb_none E s e sd : path_guardb E s e sd None = true.
Proof. unfold path_guardb. destruct (nth_error (ents s) e); reflexivity. Qed.

(* SyncEntry.__setitem__ (dst[side] = src[side]) keeps IdxJ under mv_guardb and leaves every path of the OTHER side alone
   (the frame upd_phase1_spec needs) *)
Lemma move_side_spec E s dst src sd s' :
  env_ok E -> IdxJ s -> mv_guardb E s dst src sd = true -> move_side E s dst src sd = Ok s' ->
  IdxJ s' /\ forall x, path_of s' x (negb sd) = path_of s x (negb sd).
Proof.
  intros HE HJ Hg H. pose proof HE as [Hl Hok]. unfold move_side in H.
  bind_inv H sn E0. bind_inv H s1 E1. bind_inv H s2 E2. bind_inv H sn2 E3. bind_inv H s3 E4. bind_inv H s4 E5.
  bind_inv H dn E6. injection H as <-.
  apply get_ent_ok in E0.
  pose proof (path_of_ent _ _ _ sd E0) as Hsp. pose proof (oid_of_ent _ _ _ sd E0) as Hso.
  set (np := s_path (gs sn sd)) in *. set (no := s_oid (gs sn sd)) in *.
  set (val := w_oid (w_path (gs sn2 sd) np) no) in *.
  assert (HJ1: IdxJ s1).
  { eapply set_path_pres; [exact HE|exact HJ|apply path_guardb_none|exact E1]. }
  destruct (exec_path_falsy_frame E _ src sd None s s1 HJ eq_refl E1) as [P1 T1].
  assert (HJ2: IdxJ s2) by (eapply set_oid_pres; eassumption).
  destruct (pview_eq _ _ (set_oid_pview _ _ _ _ _ _ E2)) as [Pv2 Tv2].
  assert (P2: forall x sd', path_of s2 x sd' = if at2 x src sd' sd then None else path_of s x sd').
  { intros. rewrite Pv2. apply P1. }
  assert (T2: forall x sd', otype_of s2 x sd' = otype_of s x sd').
  { intros. rewrite Tv2. apply T1. }
  (* the guard, for dst in any later state with the same paths and types *)
  assert (HG: forall t en, (forall x sd', path_of t x sd' = path_of s2 x sd') ->
              (forall x sd', otype_of t x sd' = otype_of s2 x sd') -> get_ent t dst = Ok en ->
              gd E sd (s_otype (gs en sd)) (s_path (gs en sd)) np /\
              (no <> None -> oip E sd = false \/ s_otype (gs en sd) <> Dir \/ s_path (gs en sd) = None)).
  { intros t en Hp Ht Hen. apply get_ent_ok in Hen.
    pose proof (path_of_ent _ _ _ sd Hen) as Hpa. rewrite Hp, P2 in Hpa. unfold at2 in Hpa.
    pose proof (otype_of_ent _ _ _ sd Hen) as Hta. rewrite Ht, T2 in Hta.
    destruct (Nat.eqb_spec dst src) as [Heq|Hneq].
    - rewrite bool_eqb_refl in Hpa. cbn in Hpa. split; [intros _ qq p Hq; rewrite <- Hpa in Hq; discriminate|intros _; right; right; symmetry; exact Hpa].
    - cbn [andb] in Hpa. unfold mv_guardb in Hg. destruct (Nat.eqb_spec dst src); [contradiction|]. cbn [orb] in Hg.
      rewrite Hta, Hpa in Hg.
      destruct (s_otype (gs en sd)); try (split; [intros Hd; discriminate|intros _; right; left; discriminate]).
      destruct (s_path (gs en sd)) as [pp|]; [|split; [intros _ qq p Hq; discriminate|intros _; right; right; reflexivity]].
      apply andb_prop in Hg as [Hg1 Hg2]. split.
      + intros _ qq p Hq Hp' Hb. injection Hq as <-. rewrite Hsp, Hp' in Hg1. apply belowb_spec in Hb. rewrite Hb in Hg1. discriminate.
      + intros Hno. left. rewrite Hso in Hg2. destruct no; [|contradiction]. apply negb_true_iff in Hg2. exact Hg2. }
  (* the last two steps: the flag, and the replacement of the whole side *)
  unfold run_cmd in E5. apply exec_flag_view in E5 as Hv4; [|reflexivity].
  apply get_ent_ok in E6.
  pose proof (put_side_obs s3 s4 dst sd dn val Hv4 E6) as [Ot [Pt [OOt PPt]]]. cbn [obs_of o_oid o_path o_at o_slot] in Ot, Pt, OOt, PPt.
  change (s_oid val) with no in Ot. change (s_path val) with np in Pt.
  destruct no as [o|] eqn:Eno.
  - (* an id comes along: id first, then path *)
    bind_inv E4 sa E7. unfold run_cmd in E7, E4.
    pose proof (exec_oid_pres _ _ _ _ _ (Some o) _ _ ltac:(discriminate) HJ2 E7) as HJa.
    pose proof (exec_oid_false_some _ _ _ _ _ _ _ E7) as Hoa.
    pose proof (exec_oid_pview _ _ _ _ _ _ _ _ E7) as Hpva.
    destruct (side_some_ent s_oid _ _ _ _ Hoa) as [ena [Hena _]].
    destruct (HG sa ena (proj1 (pview_eq _ _ Hpva)) (proj2 (pview_eq _ _ Hpva)) Hena) as [Hgd Hkeep].
    destruct (exec_path_false_pres E Hl Hok _ _ _ _ _ _ _ HJa Hena Hgd E4) as [A [B [_ D]]].
    specialize (D (Hkeep ltac:(discriminate))).
    assert (Ho3: oid_of s3 dst sd = Some o) by (rewrite <- Hoa, <- D; symmetry; apply oid_of_raw_keep; reflexivity).
    split.
    2:{ intros x. rewrite Pt, at2_negb.
        destruct (B x (negb sd)) as [B1|[Hc _]]; [|destruct sd; discriminate].
        rewrite path_of_raw_side, at2_negb in B1.
        rewrite B1, (proj1 (pview_eq _ _ Hpva)), P2, at2_negb. reflexivity. }
    apply (IdxJ_obs (raw_side s3 dst sd (fun y => w_path y np))); [|exact A].
    apply (put_side_path s3 s4 dst sd dn val Hv4 E6); [|exact Ho3].
    destruct (side_some_ent s_oid _ _ _ _ Ho3) as [en3 [Hen3 _]]. apply get_ent_ok in Hen3. rewrite Hen3. discriminate.
  - (* no id: path first, then the removal of dst's own id *)
    bind_inv E4 sa E7. unfold run_cmd in E7, E4.
    destruct (get_ent s2 dst) as [en2|] eqn:Hen2.
    2:{ destruct (fuel_of s2); [discriminate|]. simpl in E7. rewrite Hen2 in E7. discriminate. }
    destruct (HG s2 en2 (fun _ _ => eq_refl) (fun _ _ => eq_refl) Hen2) as [Hgd _].
    destruct (exec_path_false_pres E Hl Hok _ _ _ _ _ _ _ HJ2 Hen2 Hgd E7) as [A [B [C _]]].
    set (u := raw_side sa dst sd (fun y => w_path y np)) in *.
    assert (Hfr: forall x, path_of (put_ent s4 dst (ss dn sd val)) x (negb sd) = path_of s x (negb sd)).
    { intros x. rewrite Pt, at2_negb, (proj1 (pview_eq _ _ (exec_oid_pview _ _ _ _ _ _ _ _ E4))).
      destruct (B x (negb sd)) as [B1|[Hc _]]; [|destruct sd; discriminate].
      unfold u in B1. rewrite path_of_raw_side, at2_negb in B1. rewrite B1, P2, at2_negb. reflexivity. }
    assert (Hna: nth_error (ents sa) dst <> None).
    { intros Hc. destruct (fuel_of sa); [discriminate|]. simpl in E4. unfold get_ent in E4. rewrite Hc in E4. discriminate. }
    destruct (oid_of sa dst sd) as [o|] eqn:Eod.
    + (* dst owned an id *)
      assert (Uo: forall x sd', oid_of u x sd' = oid_of sa x sd') by (intros; unfold u; apply oid_of_raw_keep; reflexivity).
      assert (Up: forall x sd', path_of u x sd' = if at2 x dst sd' sd then np else path_of sa x sd').
      { intros. unfold u. rewrite path_of_raw_side. destruct (nth_error (ents sa) dst); [reflexivity|contradiction]. }
      assert (UO: forall sd' k, al_get k (oids u sd') = al_get k (oids sa sd')) by (intros; unfold u; rewrite oids_raw_side; reflexivity).
      assert (UP: forall sd' p k, slot_get u sd' p k = slot_get sa sd' p k) by (intros; unfold u; apply slot_get_raw_side).
      assert (Hidx: al_get o (oids sa sd) = Some dst).
      { rewrite <- UO. apply (proj1 A dst sd o). rewrite Uo. exact Eod. }
      destruct (exec_oid_none_self _ _ _ _ _ _ _ _ Eod Hidx E4) as [F1 [F2 [F3 [F4 F5]]]]. cbn [andb] in F1.
      split; [|exact Hfr].
      apply (idx_unindex u _ dst sd o A); [rewrite Uo; exact Eod| | | | |].
      * intros x sd'. rewrite Ot. unfold at2. destruct (Nat.eqb x dst && Bool.eqb sd' sd)%bool; [reflexivity|].
        rewrite F1, Uo. reflexivity.
      * intros x sd'. rewrite Pt, Up. destruct (at2 x dst sd' sd); [reflexivity|apply F2].
      * intros sd' k. rewrite OOt, F3, UO. reflexivity.
      * intros sd' p k. rewrite PPt, UP. apply F4.
      * intros p Hp Hpn. rewrite PPt. apply F5; [|exact Hpn].
        rewrite Up, at2_refl in Hp.
        rewrite <- Hp. apply C. rewrite Hp. destruct p; [contradiction|reflexivity].
    + (* dst had no id *)
      pose proof (exec_oid_none_noid _ _ _ _ _ _ Eod E4) as Hv3.
      split; [|exact Hfr].
      apply (IdxJ_obs u); [|exact A].
      exact (put_side_path sa s4 dst sd dn val (eq_trans Hv4 Hv3) E6 Hna Eod).
Qed.

Lemma move_side_pres E s dst src sd s' :
  env_ok E -> IdxJ s -> mv_guardb E s dst src sd = true -> move_side E s dst src sd = Ok s' -> IdxJ s'.
Proof. intros HE HJ Hg H. apply (move_side_spec _ _ _ _ _ _ HE HJ Hg H). Qed.

Lemma clear_side_pres E s e sd s' : env_ok E -> IdxJ s -> clear_side E s e sd = Ok s' -> IdxJ s'.
Proof.
  intros HE HJ H. unfold clear_side in H.
  bind_inv H s1 E1. bind_inv H s2 E2. bind_inv H s3 E3. bind_inv H s4 E4. bind_inv H s5 E5.
  bind_inv H s6 E6. bind_inv H s7 E7. injection H as <-.
  assert (H1: IdxJ s1) by (eapply set_plain_pres; [|exact HJ|exact E1]; auto with keeps).
  assert (H2: IdxJ s2) by (eapply set_changed_pres; eassumption).
  assert (H3: IdxJ s3) by (eapply set_plain_pres; [|exact H2|exact E3]; auto with keeps).
  assert (H4: IdxJ s4) by (eapply set_plain_pres; [|exact H3|exact E4]; auto with keeps).
  assert (H5: IdxJ s5) by (eapply set_plain_pres; [|exact H4|exact E5]; auto with keeps).
  assert (H6: IdxJ s6) by (eapply set_path_pres; [exact HE|exact H5|apply path_guardb_none|exact E6]).
  assert (H7: IdxJ s7) by (eapply set_oid_pres; eassumption).
  exact H7.
Qed.

Lemma split_pres E s e s' : env_ok E -> IdxJ s -> split E s e = Ok s' -> IdxJ s'.
Proof.
  intros HE HJ H. unfold split in H. bind_inv H en E0.
  pose proof (add_entry_pres s (s_otype (e_l en)) HJ) as H0. pose proof (add_entry_fresh s (s_otype (e_l en)) false) as Hfresh.
  destruct (add_entry s (s_otype (e_l en))) as [s0 re]. cbn [fst snd] in H0, Hfresh.
  destruct (negb (tstr (s_oid (e_l en)))); [discriminate|].
  bind_inv H s1 E1. bind_inv H rn E2.
  destruct (negb (tstr (s_oid (e_l rn)))); [discriminate|].
  bind_inv H en1 E3. bind_inv H s1a E4.
  match type of H with (if ?c then _ else _) = _ => destruct c; [discriminate|] end.
  bind_inv H s2 E5. bind_inv H y E6. destruct y as [l2 s2b].
  destruct (negb (set_mem re (get_all s2))); [discriminate|].
  bind_inv H s3 E7. bind_inv H s4 E8. bind_inv H s5 E9.
  assert (H1: IdxJ s1).
  { eapply move_side_pres; [exact HE|exact H0| |exact E1]. unfold mv_guardb. rewrite Hfresh.
    destruct (Nat.eqb re e); [reflexivity|]. destruct (otype_of s0 re false) as [[| |]|]; reflexivity. }
  assert (H1a: IdxJ s1a).
  { destruct (s_oid (e_l en1)); [|injection E4 as <-; exact H1].
    bind_inv E4 y E10. destruct y as [l1 sx]. destruct (set_mem re (get_all s1)); [|discriminate]. injection E4 as <-.
    exact (IdxJ_view s1 sx (get_all_ordered_view _ _ _ E10) H1). }
  assert (H2: IdxJ s2) by (eapply clear_side_pres; eassumption).
  assert (H2b: IdxJ s2b) by exact (IdxJ_view s2 s2b (get_all_ordered_view _ _ _ E6) H2).
  assert (H3: IdxJ s3) by (eapply mark_changed_pres; eassumption).
  assert (H4: IdxJ s4) by (eapply mark_changed_pres; eassumption).
  assert (H5: IdxJ s5) by (eapply set_plain_pres; [|exact H4|exact E9]; auto with keeps).
  eapply set_plain_pres; [|exact H5|exact H]; auto with keeps.
Qed.

Lemma set_ignored_pview s e v s' : set_ignored s e v = Ok s' -> pview s' = pview s.
Proof.
  unfold set_ignored. intros H. bind_inv H en E0. destruct (ign_eqb (e_ign en) v); [injection H as <-; reflexivity|].
  cbv zeta in H.
  match type of H with match nth_error (ents (dirty_add ?S1 e)) e with _ => _ end = _ => set (s1 := S1) in *; assert (H1: pview s1 = pview s) end.
  { unfold s1. destruct v; try reflexivity.
    transitivity (pview (raw_side (raw_side s e false (fun y => w_chg y CFalse)) e true (fun y => w_chg y CFalse))); [reflexivity|].
    rewrite !pview_raw_side; [reflexivity| |]; intros y; split; reflexivity. }
  destruct (nth_error (ents (dirty_add s1 e)) e) as [en2|] eqn:E2; [|discriminate]. injection H as <-.
  rewrite <- H1. unfold pview, put_ent. simpl. apply (map_upd_at_same pkey _ _ _ _ E2). reflexivity.
Qed.

(* the lookup_path(stale=True) loop of update, by name *)
Definition stale_loop : list eid -> state -> option eid -> res (state * option eid) :=
  fix loop (l : list eid) (s : state) (cur : option eid) {struct l} : res (state * option eid) :=
    match l with
    | [] => Ok (s, cur)
    | pe' :: r =>
      match ign_of s pe' with
      | IDiscarded | INone => (s' <- set_ignored s pe' INone ;; loop r s' (Some pe'))
      | _ => Err EAssert
      end
    end.

Lemma stale_loop_spec : forall l s cur s' cur', stale_loop l s cur = Ok (s', cur') ->
  iview s' = iview s /\ (cur' = cur \/ exists x, cur' = Some x /\ In x l).
Proof.
  induction l as [|a l IH]; intros s cur s' cur' H; simpl in H.
  - injection H as <- <-. split; [reflexivity|left; reflexivity].
  - assert (Hgo: (s2 <- set_ignored s a INone ;; stale_loop l s2 (Some a)) = Ok (s', cur')).
    { destruct (ign_of s a); try discriminate; exact H. }
    clear H. bind_inv Hgo s2 E2. apply IH in Hgo as [A C].
    split; [rewrite A; eapply set_ignored_view; exact E2|].
    right. destruct C as [->|[x [-> Hx]]]; [exists a; split; [reflexivity|left; reflexivity]|exists x; split; [reflexivity|right; exact Hx]].
Qed.

(* first half of update: which entry does the event land on *)
Definition upd_phase1 (E : env) (s : state) (sd : bool) (oid path prior : option str) : res (state * option eid) :=
  let ent0 := lookup_oid s sd oid in
  if tstr prior && negb (ostr_eqb prior oid) then
    let pr := lookup_oid s sd prior in
    y1 <- (match ent0, pr with
           | None, Some pe =>
             pn <- get_ent s pe ;;
             if is_discarded (e_ign pn) &&
                (match s_ex (gs pn sd) with ExTrashed | ExMissing => true | _ => false end)
             then (s' <- set_ignored s pe INone ;; Ok (s', Some pe))
             else Ok (s, ent0)
           | _, _ => Ok (s, ent0)
           end) ;;
    let '(s1, ent1) := y1 in
    match pr with
    | Some pe =>
      pn <- get_ent s1 pe ;;
      if negb (is_discarded (e_ign pn)) then
        match ent1 with
        | None => Ok (s1, Some pe)
        | Some e1 =>
          n1 <- get_ent s1 e1 ;;
          if negb (is_conflicted (e_ign n1)) &&
             (thash (s_shash (gs pn sd)) || negb (thash (s_shash (gs n1 sd)))) then
            if tstr (s_oid (gs n1 (negb sd))) && negb (tstr (s_oid (gs pn (negb sd)))) then
              (s' <- move_side E s1 pe e1 (negb sd) ;; Ok (s', Some pe))
            else Ok (s1, Some pe)
          else Ok (s1, ent1)
        end
      else
        match ent1 with
        | Some _ => Ok (s1, ent1)
        | None => stale_loop (lookup_path_stale s1 sd path) s1 None
        end
    | None =>
      match ent1 with
      | Some _ => Ok (s1, ent1)
      | None => stale_loop (lookup_path_stale s1 sd path) s1 None
      end
    end
  else Ok (s, ent0).

Definition upd_rest (E : env) (sd : bool) (ot : option otype) (oid path : option str) (h : option N) (ex : option bool)
           (y : state * option eid) : res state :=
  let '(s1, ent) := y in
  y2 <- (match ent with
         | Some e => Ok (s1, e)
         | None => match ot with Some t => Ok (add_entry s1 t) | None => Err EAssert end
         end) ;;
  let '(s2, e) := y2 in
  let s3 := st_now s2 (now s2 + 1000)%N in
  update_entry E s3 e sd oid path h ex true ot.

Lemma update_eq E s sd ot oid path h ex prior :
  update E s sd ot oid path h ex prior = (y <- upd_phase1 E s sd oid path prior ;; upd_rest E sd ot oid path h ex y).
Proof. reflexivity. Qed.

(* candb as a Prop *)
Definition cand_ok (E : env) (s : state) (sd : bool) (ot : option otype) (path : option str) (e : eid) : Prop :=
  forall pp p, path_of s e sd = Some pp -> path = Some p ->
    (match ot with Some t => otype_eqb t Dir | None => true end) = true ->
    belowb (cvs E sd) pp (nps (cvs E sd) p) = false.
Lemma candb_ok E s sd ot path e : candb E s sd ot path e = true -> cand_ok E s sd ot path e.
Proof.
  unfold candb. intros H pp p Hpp Hp Hc. rewrite Hpp, Hp, Hc in H. cbn [andb] in H. apply negb_true_iff in H. exact H.
Qed.

Lemma mv_guardb_ext E s s1 d sr sd :
  (forall x sd', otype_of s1 x sd' = otype_of s x sd') -> (forall x sd', path_of s1 x sd' = path_of s x sd') ->
  (forall x sd', oid_of s1 x sd' = oid_of s x sd') -> mv_guardb E s1 d sr sd = mv_guardb E s d sr sd.
Proof. intros Ht Hp Ho. unfold mv_guardb. rewrite !Ht, !Hp, !Ho. reflexivity. Qed.

Lemma upd_phase1_spec E s sd ot oid path prior s1 ent :
  env_ok E -> IdxJ s -> upd_guardb E s sd ot oid path prior = true ->
  upd_phase1 E s sd oid path prior = Ok (s1, ent) ->
  IdxJ s1 /\ (forall x, path_of s1 x sd = path_of s x sd) /\ (forall e, ent = Some e -> cand_ok E s sd ot path e).
Proof.
  intros HE HJ Hg H. unfold upd_guardb in Hg.
  apply andb_prop in Hg as [Hg Hgm]. apply andb_prop in Hg as [Hg Hgs]. apply andb_prop in Hg as [Hgo Hgp].
  assert (Cent0: forall e, lookup_oid s sd oid = Some e -> cand_ok E s sd ot path e).
  { intros e He. rewrite He in Hgo. apply candb_ok. exact Hgo. }
  assert (Cpr: forall e, lookup_oid s sd prior = Some e -> cand_ok E s sd ot path e).
  { intros e He. rewrite He in Hgp. apply candb_ok. exact Hgp. }
  assert (Cst: forall e, In e (lookup_path_stale s sd path) -> cand_ok E s sd ot path e).
  { intros e He. apply candb_ok. rewrite forallb_forall in Hgs. apply Hgs. exact He. }
  pose (Post := fun (t : state) (c : option eid) =>
    IdxJ t /\ (forall x, path_of t x sd = path_of s x sd) /\ (forall e, c = Some e -> cand_ok E s sd ot path e)).
  change (Post s1 ent). unfold upd_phase1 in H. cbv zeta in H.
  destruct (tstr prior && negb (ostr_eqb prior oid))%bool.
  2:{ injection H as <- <-. split; [exact HJ|]. split; [reflexivity|exact Cent0]. }
  bind_inv H y1 E1. destruct y1 as [s1' ent1].
  (* the re-use of a discarded entry *)
  assert (Y1: iview s1' = iview s /\ pview s1' = pview s /\
              (ent1 = lookup_oid s sd oid \/ (lookup_oid s sd oid = None /\ ent1 = lookup_oid s sd prior))).
  { destruct (lookup_oid s sd oid) as [e0|] eqn:El0; [injection E1 as <- <-; split; [reflexivity|split; [reflexivity|left; reflexivity]]|].
    destruct (lookup_oid s sd prior) as [pe|] eqn:Elp; [|injection E1 as <- <-; split; [reflexivity|split; [reflexivity|left; reflexivity]]].
    bind_inv E1 pn E2.
    destruct (is_discarded (e_ign pn) && match s_ex (gs pn sd) with ExTrashed | ExMissing => true | _ => false end)%bool;
      [|injection E1 as <- <-; split; [reflexivity|split; [reflexivity|left; reflexivity]]].
    bind_inv E1 sg E3. injection E1 as <- <-.
    split; [eapply set_ignored_view; exact E3|]. split; [eapply set_ignored_pview; exact E3|right; split; reflexivity]. }
  destruct Y1 as [Hv1 [Hpv1 Hent1]].
  assert (HJ1: IdxJ s1') by exact (IdxJ_view s s1' Hv1 HJ).
  destruct (iview_eq _ _ Hv1) as [He1 [Ho1 Hp1]].
  assert (Hpa1: forall x sd', path_of s1' x sd' = path_of s x sd') by (intros; apply (proj2 (He1 x sd'))).
  assert (Cent1: forall e, ent1 = Some e -> cand_ok E s sd ot path e).
  { intros e He. destruct Hent1 as [Hx|[_ Hx]]; rewrite Hx in He; [apply Cent0|apply Cpr]; exact He. }
  assert (Hstale: lookup_path_stale s1' sd path = lookup_path_stale s sd path) by (unfold lookup_path_stale; rewrite Hp1; reflexivity).
  assert (Hloop: forall sg cur, stale_loop (lookup_path_stale s1' sd path) s1' None = Ok (sg, cur) -> Post sg cur).
  { intros sg cur Hl. apply stale_loop_spec in Hl as [A C].
    split; [exact (IdxJ_view s1' sg A HJ1)|]. split.
    - intros x. destruct (iview_eq _ _ A) as [Hex _]. rewrite (proj2 (Hex x sd)). apply Hpa1.
    - intros e He. destruct C as [->|[x [-> Hx]]]; [discriminate|]. injection He as <-. apply Cst. rewrite <- Hstale. exact Hx. }
  (* every exit but the merge returns s1' with a candidate of the guard *)
  assert (Hret: forall c, (forall e, c = Some e -> cand_ok E s sd ot path e) -> Ok (s1', c) = Ok (s1, ent) -> Post s1 ent).
  { intros c Hc Heq. injection Heq as <- <-. split; [exact HJ1|split; [intros; apply Hpa1|exact Hc]]. }
  assert (Hdef: match ent1 with Some _ => Ok (s1', ent1) | None => stale_loop (lookup_path_stale s1' sd path) s1' None end = Ok (s1, ent) ->
            Post s1 ent).
  { destruct ent1 as [e1|]; [apply Hret, Cent1|apply Hloop]. }
  destruct (lookup_oid s sd prior) as [pe|] eqn:Elp; [|exact (Hdef H)].
  bind_inv H pn E2.
  destruct (negb (is_discarded (e_ign pn))); [|exact (Hdef H)].
  assert (Cpe: forall e, Some pe = Some e -> cand_ok E s sd ot path e) by (intros e He; injection He as <-; apply Cpr; reflexivity).
  destruct ent1 as [e1|]; [|exact (Hret _ Cpe H)].
  bind_inv H n1 E3.
  destruct (negb (is_conflicted (e_ign n1)) && (thash (s_shash (gs pn sd)) || negb (thash (s_shash (gs n1 sd)))))%bool;
    [|exact (Hret _ Cent1 H)].
  destruct (tstr (s_oid (gs n1 (negb sd))) && negb (tstr (s_oid (gs pn (negb sd)))))%bool; [|exact (Hret _ Cpe H)].
  (* the merge: the other side of e1 moves to pe *)
  bind_inv H sm E4. injection H as <- <-.
  assert (Hmg: mv_guardb E s1' pe e1 (negb sd) = true).
  { rewrite (mv_guardb_ext E s s1').
    - destruct Hent1 as [Hx|[_ Hx]].
      + rewrite <- Hx in Hgm. exact Hgm.
      + injection Hx as ->. unfold mv_guardb. rewrite Nat.eqb_refl. reflexivity.
    - exact (proj2 (pview_eq _ _ Hpv1)).
    - intros x sd'. apply Hpa1.
    - intros x sd'. apply (proj1 (He1 x sd')). }
  destruct (move_side_spec _ _ _ _ _ _ HE HJ1 Hmg E4) as [HJm Hfr].
  split; [exact HJm|]. split; [|exact Cpe].
  intros x. specialize (Hfr x). rewrite negb_involutive in Hfr. rewrite Hfr. apply Hpa1.
Qed.

Lemma ue_guardb_of_cand E s e sd oid path ot : cand_ok E s sd ot path e -> ue_guardb E s e sd oid path ot = true.
Proof.
  intros H. unfold ue_guardb. destruct path as [p|]; [|reflexivity].
  destruct (nth_error (ents s) e) as [en|] eqn:En; [|reflexivity].
  match goal with |- (if ?c then _ else _) = _ => destruct c; [reflexivity|] end.
  destruct (match ot with Some t => t | None => s_otype (gs en sd) end) eqn:Et; try reflexivity.
  destruct (s_path (gs en sd)) as [pp|] eqn:Ep; [|reflexivity].
  apply negb_true_iff. apply (H pp p); [unfold path_of; rewrite En; exact Ep|reflexivity|].
  destruct ot as [t|]; [subst t|]; reflexivity.
Qed.

Lemma update_pres E s sd ot oid path h ex prior s' :
  env_ok E -> IdxJ s -> upd_guardb E s sd ot oid path prior = true ->
  update E s sd ot oid path h ex prior = Ok s' -> IdxJ s'.
Proof.
  intros HE HJ Hg H. rewrite update_eq in H. bind_inv H y E1. destruct y as [s1 ent].
  destruct (upd_phase1_spec _ _ _ _ _ _ _ _ _ HE HJ Hg E1) as [HJ1 [Hp1 Hc]].
  unfold upd_rest in H. bind_inv H y2 E2. destruct y2 as [s2 e]. cbv zeta in H.
  set (s3 := st_now s2 (now s2 + 1000)%N) in *.
  assert (H3: IdxJ s3 /\ cand_ok E s3 sd ot path e).
  { destruct ent as [e0|].
    - injection E2 as <- <-. split; [exact HJ1|].
      intros pp p Hpp. change (path_of s3 e0 sd) with (path_of s1 e0 sd) in Hpp. rewrite Hp1 in Hpp.
      apply (Hc e0 eq_refl). exact Hpp.
    - destruct ot as [t|]; [|discriminate]. unfold add_entry in E2. injection E2 as <- <-.
      split; [exact (add_entry_pres s1 t HJ1)|].
      intros pp p Hpp. pose proof (add_entry_fresh s1 t sd : path_of s3 (length (ents s1)) sd = None) as Hf. congruence. }
  destruct H3 as [HJ3 Hc3].
  eapply update_entry_pres; [exact HE|exact HJ3| |exact H]. apply ue_guardb_of_cand. exact Hc3.
Qed.

Lemma apply_op_guarded_pres E s o s' :
  env_ok E -> IdxJ s -> op_guardb E s o = true -> apply_op E s o = Ok s' -> IdxJ s'.
Proof.
  intros HE HJ Hg H.
  (* the operations that need neither env_ok nor a guard *)
  destruct (op_covered o) eqn:Hc; [exact (apply_op_pres E s o s' Hc HJ H)|].
  destruct o as [| ? ? []| | | | | | | | |]; try discriminate Hc; simpl in H, Hg.
  - eapply update_pres; eassumption.
  - eapply set_path_pres; eassumption.
  - eapply split_pres; eassumption.
  - discriminate.
  - eapply move_side_pres; eassumption.
  - eapply update_entry_pres; eassumption.
Qed.

Lemma step_guarded_pres E s ot s' :
  env_ok E -> IdxJ s -> op_guardb E s (fst ot) = true -> step E s ot = Ok s' -> IdxJ s'.
Proof.
  intros HE HJ Hg H. unfold step in H. bind_inv H s1 E1. destruct (tape s1); [|discriminate]. injection H as <-.
  exact (apply_op_guarded_pres E (st_tape s (snd ot)) (fst ot) s1 HE HJ Hg E1).
Qed.

Lemma idx_trace E : forall ops s, env_ok E -> IdxJ s -> guardedb E s ops = true ->
  forall s', In (Ok s') (trace_ops E s ops) -> IdxJ s'.
Proof.
  induction ops as [|o ops IH]; intros s HE HJ Hg s' Hin; simpl in Hin; [contradiction|].
  simpl in Hg. apply andb_prop in Hg as [Hg1 Hg2].
  destruct (step E s o) as [s1|er] eqn:Es.
  - pose proof (step_guarded_pres _ _ _ _ HE HJ Hg1 Es) as HJ1.
    destruct Hin as [Hin|Hin]; [injection Hin as <-; exact HJ1|]. eapply IH; eassumption.
  - destruct Hin as [Hin|[]]. discriminate.
Qed.

Lemma idx_run E : forall ops s s', env_ok E -> IdxJ s -> guardedb E s ops = true -> run_ops E s ops = Ok s' -> IdxJ s'.
Proof.
  induction ops as [|o ops IH]; intros s s' HE HJ Hg H; simpl in H.
  - injection H as <-. exact HJ.
  - simpl in Hg. apply andb_prop in Hg as [Hg1 Hg2]. bind_inv H s1 Es.
    apply (IH s1 s' HE); [|exact Hg2|exact H]. exact (step_guarded_pres _ _ _ _ HE HJ Hg1 Es).
Qed.

(* environments of the shape un_env builds satisfy env_ok whenever they describe the code as it is (legacy = false) *)
Lemma env_ok_wire oipf csf pf inf :
  env_ok (mkEnv oipf (fun sd => mk_conv (csf sd)) pf inf false).
Proof. split; [reflexivity|]. intros sd. simpl. apply (cv_std_ok (csf sd) false). Qed.

Definition forget_preserves_full : Prop :=
  forall s sd o s', IdxJ s -> forget_oid s sd o = Ok s' -> IdxJ s'.
Definition w_forget : list (op * list titem) :=
  [ (OUpdate false (Some File) (Some w_o1) (Some w_pbx) None (Some true) None, [TSwap false]) ].
Lemma forget_refuted : ~ forget_preserves_full.
Proof.
  intros H.
  destruct (run_ops E_id init_state w_forget) as [s|] eqn:R; [|vm_compute in R; discriminate].
  assert (HJ: IdxJ s).
  { eapply (idx_run E_id w_forget init_state); [apply env_ok_wire|exact (proj1 idx_init)|vm_compute; reflexivity|exact R]. }
  destruct (forget_oid s false w_o1) as [s'|] eqn:F.
  2:{ vm_compute in R. injection R as <-. vm_compute in F. discriminate. }
  specialize (H _ _ _ _ HJ F). vm_compute in R. injection R as <-. vm_compute in F. injection F as <-.
  destruct H as [Hf _]. destruct (Hf 0 false w_o1 eq_refl) as [Ha _]. vm_compute in Ha. discriminate.
Qed.

(* SyncEntry.__setitem__ without the guard: on a side that takes its ids from the provider, _update_kids (run
   by the "path" announcement) re-keys a child of the destination folder with the id the provider reports for
   the child's new path; when that is the id being moved, the child takes it over (the destination is ousted),
   and the last line of __setitem__ writes the id back into the destination: two entries carry the id, the
   destination is not found under it.  Replayed on the real SyncState: corpus/C11/w5_setitem_rekeyed_child.json *)
Definition setitem_preserves_full : Prop :=
  forall E s dst src sd s', env_ok E -> IdxJ s -> move_side E s dst src sd = Ok s' -> IdxJ s'.
Definition w_sq : str := [47;113]%N.
Definition w_sqk : str := [47;113;47;107]%N.
Definition w_sn : str := [47;110]%N.
Definition w_snk : str := [47;110;47;107]%N.
Definition w_rD : str := [114;68]%N.
(* LOCAL: oid_is_path with info_path(p).oid = p; REMOTE: opaque ids *)
Definition E_pathids : env :=
  mkEnv (fun sd => negb sd) (fun _ => mk_conv true) (fun _ => 1000%N) (fun sd => mk_info (negb sd) []) false.
(* folder /q (also known remotely), its child /q/k, and an entry whose local id '/n/k' and path '/n' are out of step *)
Definition w_setitem_pre : list (op * list titem) :=
  [ (OUpdate false (Some Dir) (Some w_sq) (Some w_sq) None (Some true) None, [TSwap false]);
    (OSet 0 true (FOid (Some w_rD)), [TSwap false]);
    (OUpdate false (Some File) (Some w_sqk) (Some w_sqk) None (Some true) None, [TSwap false]);
    (OUpdate false (Some Dir) (Some w_snk) (Some w_sn) None (Some true) None, [TSwap false]) ].
Definition w_setitem_tape : list titem := [TSwap true; TSwap true; TOrder [0;1]; TSwap true; TSwap true].
Lemma E_pathids_ok : env_ok E_pathids.
Proof. apply env_ok_wire. Qed.
Lemma setitem_refuted : ~ setitem_preserves_full.
Proof.
  intros H.
  destruct (run_ops E_pathids init_state w_setitem_pre) as [s|] eqn:R; [|vm_compute in R; discriminate].
  assert (HJ: IdxJ s).
  { eapply (idx_run E_pathids w_setitem_pre init_state); [exact E_pathids_ok|exact (proj1 idx_init)|vm_compute; reflexivity|exact R]. }
  destruct (move_side E_pathids (st_tape s w_setitem_tape) 0 2 false) as [s'|] eqn:M.
  2:{ vm_compute in R. injection R as <-. vm_compute in M. discriminate. }
  specialize (H _ (st_tape s w_setitem_tape) _ _ _ _ E_pathids_ok HJ M). vm_compute in R. injection R as <-. vm_compute in M. injection M as <-.
  destruct H as [Hf _]. destruct (Hf 0 false w_snk eq_refl) as [Ha _]. vm_compute in Ha. discriminate.
Qed.
