(* PropC08.v — property theorems for C08 (persisted sync state = in-memory state; codec round trip).
   Each is followed by Print Assumptions; Examples show that the hypotheses are satisfiable.
   Model: CodecModel.v (tied to cloudsync/sync/state.py by harness/checks/c08.py); lemmas: CodecProofs.v (the codec),
   CodecCommitProofs.v (dirty set and commit), CodecReloadProofs.v (restart). *)
From Coq Require Import NArith ZArith List Bool Permutation.
From CS Require Import Sx Str CodecModel CodecProofs CodecCommitProofs CodecReloadProofs.
Import ListNotations.
Local Open Scope N_scope.

(* serialize -> msgpack.dumps -> msgpack.loads -> deserialize, completely characterised: the entry
   survives iff its integers fit 64 bits, every dict key (after list->tuple) is str/bytes and mtime
   is None or a number; what comes back is [norm_entry]: every value field with its Python lists
   turned into tuples, priority 0, force_sync False, _last_gotten 0, storage_id = the row id. *)
Theorem C08_codec_roundtrip_partial : forall sid e,
  roundtrip sid e = if survives e then Some (norm_entry sid e) else None.
Proof. exact roundtrip_char. Qed.
Print Assumptions C08_codec_roundtrip_partial.

(* for well-formed field shapes (no Python list anywhere) every field the property lists is preserved *)
Theorem C08_codec_roundtrip : forall sid e, wf_entry e = true ->
  exists e', roundtrip sid e = Some e' /\ same_synced e e' /\ e_sid e' = Some sid.
Proof.
  intros sid e H. destruct (wf_entry_survives sid e H) as [Hs Hsame].
  exists (norm_entry sid e). rewrite roundtrip_char, Hs. auto.
Qed.
Print Assumptions C08_codec_roundtrip.

(* full strength ("every value shape a provider may use") is false: a list-valued hash returns as a tuple *)
Theorem C08_codec_roundtrip_refuted : ~ codec_roundtrip_full.
Proof.
  intros H.
  assert (R : roundtrip 1 list_hash_entry = Some (norm_entry 1 list_hash_entry)) by (rewrite roundtrip_char; reflexivity).
  destruct (H _ _ _ R) as [[_ [_ [Hh _]]] _]. discriminate Hh.
Qed.
Print Assumptions C08_codec_roundtrip_refuted.

(* a dict-valued hash with a non-str/bytes key is written but can never be loaded again
   (strict_map_key): SyncState.__init__ then deletes the row *)
Theorem C08_written_rows_load_refuted : ~ written_rows_load.
Proof. intros H. apply (H 1 intkey_entry _ eq_refl eq_refl eq_refl). reflexivity. Qed.
Print Assumptions C08_written_rows_load_refuted.

(* priority, force_sync and _last_gotten are never restored *)
Theorem C08_volatile_fields_reset : forall sid e e', roundtrip sid e = Some e' ->
  e_priority e' = MInt 0%Z /\
  s_force_sync (e_s0 e') = false /\ s_force_sync (e_s1 e') = false /\
  s_last_gotten (e_s0 e') = MFloat 0 /\ s_last_gotten (e_s1 e') = MFloat 0.
Proof. intros sid e e' H. apply roundtrip_norm in H. subst e'. repeat split. Qed.
Print Assumptions C08_volatile_fields_reset.

(* existence (the corrupt marker included), the saved existence and the ignore reason always survive *)
Theorem C08_corrupt_marker_roundtrip : forall sid e e', roundtrip sid e = Some e' ->
  s_exists (e_s0 e') = s_exists (e_s0 e) /\ s_saved (e_s0 e') = s_saved (e_s0 e) /\
  s_exists (e_s1 e') = s_exists (e_s1 e) /\ s_saved (e_s1 e') = s_saved (e_s1 e) /\
  e_ignored e' = e_ignored e.
Proof. intros sid e e' H. apply roundtrip_norm in H. subst e'. repeat split. Qed.
Print Assumptions C08_corrupt_marker_roundtrip.

(* trash-ness and membership of the pending set survive *)
Theorem C08_roundtrip_trash_pending : forall sid e e', roundtrip sid e = Some e' ->
  is_trash e' = is_trash e /\ pending e' = pending e.
Proof. intros sid e e' H. apply roundtrip_norm in H. subst e'. apply norm_trash_pending. Qed.
Print Assumptions C08_roundtrip_trash_pending.

(* rows of older releases: boolean / None existence, no size / mtime / _saved_exists / priority,
   'discarded' / 'conflicted' keys, ignore reason 'trashed' or unknown *)
Theorem C08_legacy_loads : forall sid s0 s1 lex0 lex1 x0 x1 t,
  keys_ok (legacy_row s0 s1 lex0 lex1 t) = true ->
  parse_exists lex0 = Some x0 -> parse_exists lex1 = Some x1 ->
  load_row sid (legacy_row s0 s1 lex0 lex1 t) =
  Some (mkEntry (legacy_side_loaded s0 x0) (legacy_side_loaded s1 x1) (legacy_tail_ign t) (MInt 0%Z) (Some sid)).
Proof.
  intros sid s0 s1 lex0 lex1 x0 x1 t Hk H0 H1. unfold load_row, unpack. rewrite Hk.
  generalize (deser_legacy_side s0 lex0 x0 H0) (deser_legacy_side s1 lex1 x1 H1).
  unfold legacy_row. generalize (MMap (legacy_side_kvs s0 lex0)) (MMap (legacy_side_kvs s1 lex1)).
  (* the tail only decides the ignore reason *)
  intros a b D0 D1. destruct t as [| | | |[]|]; cbn; rewrite D0, D1; reflexivity.
Qed.
Print Assumptions C08_legacy_loads.

(* the existence values such rows carry, and what they load as *)
Theorem C08_legacy_exists_values :
  parse_exists (MBool true) = Some XExists /\ parse_exists (MBool false) = Some XTrashed /\
  parse_exists MNil = Some XUnknown /\ forall x, parse_exists (MStr (exi_val x)) = Some x.
Proof. repeat split. apply exists_parse. Qed.
Print Assumptions C08_legacy_exists_values.

(* [clr] = true, the code since commit 39c80a7 (storage_id is cleared when the row of a trash entry is
   deleted): from any state satisfying the invariant G (every entry outside the dirty set has
   exactly its serialisation stored under its id, or is trash without id), for every history of entry creations, field
   assignments through __setattr__ and commits that iterate over the whole dirty set (any order), no
   commit raises and after each commit the rows are exactly the serialisations of the live entries *)
Theorem C08_commit_exact_from : forall hs ps0 ord,
  G ps0 -> hist_okb true hs ps0 = true ->
  incl (dirty (fst (exec true hs ps0))) ord ->
  snd (commit true ord (fst (exec true hs ps0))) = ENone /\
  exact (fst (commit true ord (fst (exec true hs ps0)))).
Proof. intros hs ps0 ord HG Hok Hinc. apply commit_exact; [|exact Hinc]. apply exec_good; assumption. Qed.
Print Assumptions C08_commit_exact_from.

(* ... in particular from the empty state *)
Theorem C08_commit_exact_partial : commit_exact_full true.
Proof. intros pl hs ord. apply C08_commit_exact_from, G_init. Qed.
Print Assumptions C08_commit_exact_partial.

(* [clr] = false, the code before 39c80a7 (storage_id kept): a live entry loses its row *)
Theorem C08_commit_exact_refuted : ~ commit_exact_full false.
Proof.
  intros H. destruct (w_hist_ok w_bad eq_refl) as [Hok Hinc].
  destruct (H PSqlite w_hist w_bad Hok Hinc) as [_ [_ [Hrows _]]].
  (* entry 2 (x) is live with storage_id 2, so a row 2 would have to exist *)
  assert (Hex : exists p, In (2, p) (rows (sto (fst (commit false w_bad (fst (exec false w_hist (init PSqlite)))))))).
  { eexists. apply Hrows. exists 2%nat. eexists. split; [vm_compute; reflexivity|].
    split; [vm_compute; reflexivity|]. split; vm_compute; reflexivity. }
  destruct Hex as [p Hp]. vm_compute in Hp. destruct Hp as [Hp|[]]. discriminate Hp.
Qed.
Print Assumptions C08_commit_exact_refuted.

(* [clr] = true: what storage shows after a commit does not depend on the iteration order of the dirty set *)
Theorem C08_commit_order_independent_partial : commit_order_independent_full true.
Proof.
  intros pl hs ord1 ord2 Hok Hperm Hinc. pose proof (proj1 (exec_good hs _ (G_init pl) Hok)) as HG.
  rewrite !commit_snapshot; try assumption; [reflexivity|].
  intros x Hx. apply (Permutation_in _ Hperm), Hinc, Hx.
Qed.
Print Assumptions C08_commit_order_independent_partial.

Theorem C08_commit_order_independent_refuted : ~ commit_order_independent_full false.
Proof.
  intros H. destruct (w_hist_ok w_good eq_refl) as [Hok Hinc].
  specialize (H PSqlite w_hist w_good w_bad Hok (perm_swap _ _ _) Hinc). vm_compute in H. discriminate H.
Qed.
Print Assumptions C08_commit_order_independent_refuted.

(* the hypothesis "every mutation marks the entry dirty" is needed *)
Theorem C08_commit_exact_unconditional_refuted :
  ~ (forall clr pl hs ord, incl (dirty (fst (exec clr hs (init pl)))) ord ->
       exact (fst (commit clr ord (fst (exec clr hs (init pl)))))).
Proof.
  intros H. destruct (H true PSqlite silent_hist []) as [_ [Hrows _]]; [apply inclb_incl; reflexivity|].
  (* the stored row is the serialisation of the old fields; no live entry serialises to it *)
  destruct (proj1 (Hrows 1 (tuplify (ser_entry (w_ent w_a MNil))))) as [n [e [En [_ [_ Hp]]]]];
    [vm_compute; left; reflexivity|].
  destruct n as [|n]; [|destruct n; discriminate En].
  vm_compute in En. injection En as <-. vm_compute in Hp. discriminate Hp.
Qed.
Print Assumptions C08_commit_exact_unconditional_refuted.

(* on an exact state the computable snapshot shows what memory wants and no stale row; not conversely:
   the snapshot does not see a trash entry that kept the storage id a live entry now has *)
Theorem C08_exact_view : forall ps, Ser (ents ps) -> exact ps -> live_view ps = want ps /\ stale ps = [].
Proof. exact exact_view. Qed.
Print Assumptions C08_exact_view.

(* a restart over a store that is exact for a state whose live entries have well-formed field
   shapes loads exactly the live entries (normalised: priority 0, force_sync False, _last_gotten 0)
   and deletes no row *)
Theorem C08_reload_entries : forall ps, Ser (ents ps) -> exact ps -> live_wf ps ->
  (forall e', In e' (fst (load (sto ps))) <->
     exists e i, In e (ents ps) /\ is_trash e = false /\ e_sid e = Some i /\ e' = norm_entry i e) /\
  snd (load (sto ps)) = sto ps.
Proof. intros ps _. apply reload_entries. Qed.
Print Assumptions C08_reload_entries.

(* ... hence the same entries (by storage id) under every oid, under every path, and the same pending set *)
Theorem C08_reload_same_lookups : forall ps, Ser (ents ps) -> exact ps -> live_wf ps ->
  forall x,
    (forall sd oid, In x (lookup_oid sd oid (fst (load (sto ps)))) <-> In x (lookup_oid sd oid (live (ents ps)))) /\
    (forall sd p, In x (lookup_path sd p (fst (load (sto ps)))) <-> In x (lookup_path sd p (live (ents ps)))) /\
    (In x (pending_set (fst (load (sto ps)))) <-> In x (pending_set (live (ents ps)))).
Proof.
  intros ps _ Hex Hwf x. pose proof (fun f => reload_filter ps f Hex Hwf) as K.
  split; [|split]; intros; apply K; intros i e Hw; destruct (norm_keeps_oid_path_pending i e Hw) as [Ko [Kp Kpd]];
    now rewrite ?Ko, ?Kp.
Qed.
Print Assumptions C08_reload_same_lookups.

Example wf_nonvacuous :
  wf_entry (mkEntry (mkSide ODir (MInt 0%Z) (MTup [MBin [1; 255]; MMap [(MStr [107], MInt (-5)%Z)]]) (MFloat 7)
                            (MBin [9]) (MStr [47; 233]) (MStr [47; 20013]) (MInt 42%Z) XCorrupt MNil (MInt 3%Z) (MFloat 2)
                            (Some XTrashed) true (MFloat 7))
                    (w_side MNil) ITemp (MInt 3%Z) None) = true.
Proof. reflexivity. Qed.

Example hist_nonvacuous : hist_okb true w_hist (init PSqlite) = true /\ hist_okb false w_hist (init PSqlite) = true.
Proof. split; vm_compute; reflexivity. Qed.

(* the P-9 witness: with the id kept, order w_bad loses row 2 of the live entry; order w_good and [clr] = true keep it *)
Example witness_rows :
  ids (rows (sto (fst (commit false w_good (fst (exec false w_hist (init PSqlite))))))) = [1; 2] /\
  ids (rows (sto (fst (commit false w_bad (fst (exec false w_hist (init PSqlite))))))) = [1] /\
  ids (rows (sto (fst (commit true w_bad (fst (exec true w_hist (init PSqlite))))))) = [1; 2].
Proof. repeat split; vm_compute; reflexivity. Qed.

Example legacy_nonvacuous :
  keys_ok (legacy_row (w_side w_a) (w_side MNil) (MBool true) MNil LtTrashedReason) = true.
Proof. reflexivity. Qed.

Example reload_nonvacuous :
  let ps := fst (commit true w_bad (fst (exec true w_hist (init PSqlite)))) in
  live_wf ps /\ length (fst (load (sto ps))) = 2%nat.
Proof.
  split; [|vm_compute; reflexivity].
  intros e H. vm_compute in H. destruct H as [<-|[<-|[<-|[]]]]; intros Ht; try reflexivity; vm_compute in Ht; discriminate Ht.
Qed.
