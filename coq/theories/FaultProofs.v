(* FaultProofs.v — proofs about FaultModel.v, parts (a) notification map and (b) handler machines + loops.
   The class table is finite (15 classes): statements about it are closed by case analysis on the known base of
   the class; [Sub] makes them hold for every class derived, by single inheritance, from a known one.
   The two full-strength statements that PropC10.v refutes ([emgr_all_kinds_notified_full],
   [smgr_backoff_resets_when_idle_full]) are defined here. *)
From Coq Require Import QArith List Bool NArith.
From CS Require Import Sx LoopModel SchedModel FaultModel.
Import ListNotations.
Open Scope Q_scope.

(* the class codes are injective: the decoder of the wire protocol inverts them *)
Lemma un_known_kcode k : un_known (A (kcode k)) = Some k.
Proof. destruct k; reflexivity. Qed.
Lemma keqb_eq a b : keqb a b = true <-> a = b.
Proof.
  unfold keqb. rewrite N.eqb_eq. split; [|congruence].
  intros H. pose proof (un_known_kcode a) as Ha. rewrite H, un_known_kcode in Ha. congruence.
Qed.

(* isinstance and the notification depend on the known base only: by definition, [Sub] is transparent *)
Lemma isinst_base c k : isinst c k = isinst (K (kbase c)) k.
Proof. reflexivity. Qed.
Lemma notify_base c : notify c = notify (K (kbase c)).
Proof. reflexivity. Qed.

Lemma isinst_exception c : isinst c KException = true.
Proof. rewrite isinst_base. destruct (kbase c); reflexivity. Qed.
Lemma isany_exception c : isany c [KException] = true.
Proof. unfold isany. cbn [existsb]. rewrite isinst_exception. reflexivity. Qed.
Lemma isinst_in_mro c k : isinst c k = true <-> In k (kmro (kbase c)).
Proof.
  unfold isinst. rewrite existsb_exists. split.
  - intros (x & Hin & He). apply keqb_eq in He. subst. exact Hin.
  - intros Hin. exists k. split; [exact Hin|]. apply keqb_eq. reflexivity.
Qed.
(* an ancestor's ancestors are ancestors (by the table: every listed ancestor's list is a suffix): what makes
   isinstance transitive *)
Lemma kmro_closed k a : In a (kmro k) -> incl (kmro a) (kmro k).
Proof.
  destruct k; simpl; intros H x Hx; repeat (destruct H as [<-|H]; [simpl in Hx |- *; tauto|]); destruct H.
Qed.
Lemma subs_base n c : kbase (subs n c) = kbase c.
Proof. induction n; simpl; auto. Qed.

(* out-of-space is reported as such because of the ORDER of the chain in notify_from_exception: with the temporary
   test first it would be shadowed *)
Definition chain_temporary_first : list (known * nkind) := (KTemporary, NTemporary) :: chain.
Lemma temporary_first_shadows : notify_chain chain_temporary_first (K KOutOfSpace) = Some NTemporary.
Proof. reflexivity. Qed.

(* a notification is only ever produced for a CloudException: the guarded call notifies like the plain one *)
Lemma notify_if_cloud c : (if isinst c KCloud then notify c else None) = notify c.
Proof. rewrite notify_base, (isinst_base c). destruct (kbase c); reflexivity. Qed.

Definition transient : list known := [KTemporary; KDisconnected; KOutOfSpace; KToken; KNamespace].

(* every exception class is caught by one of the two clauses of _sync_one_entry *)
Theorem smgr_dispatch_total c :
  dispatch smgr_handlers c = Some (if isany c transient then [ANotify; APunt; ABackoff]
                                   else [ANotifyIfCloud; APunt; ACommit; ABackoff]).
Proof.
  unfold dispatch, smgr_handlers. cbn [find h_classes]. fold transient.
  destruct (isany c transient); [reflexivity|]. rewrite isany_exception. reflexivity.
Qed.

Theorem smgr_raise_effect c :
  let s := smgr_step (SRaise c) in
  s_out s = OBackoff /\ f_punt (s_eff s) = true /\ f_note (s_eff s) = notify c /\
  f_commit (s_eff s) = negb (isany c transient) /\ f_auth (s_eff s) = false /\ f_cursor (s_eff s) = false.
Proof.
  unfold smgr_step. rewrite smgr_dispatch_total.
  destruct (isany c transient); cbn; repeat split; apply notify_if_cloud.
Qed.

Theorem smgr_roots_effect c :
  let s := smgr_step (SRoots c) in
  s_out s = OBackoff /\ f_punt (s_eff s) = false /\ f_note (s_eff s) = notify c /\ f_commit (s_eff s) = false.
Proof.
  unfold smgr_step, dispatch, roots_handlers. cbn [find h_classes]. rewrite isany_exception. cbn.
  repeat split. apply notify_if_cloud.
Qed.

(* state.change() raised: a CloudException is reported and answered with a backoff request; anything else leaves do() *)
Theorem smgr_change_effect c :
  let s := smgr_step (SChange c) in
  s_out s = (if isinst c KCloud then OBackoff else OExc) /\ f_punt (s_eff s) = false /\ f_commit (s_eff s) = false /\
  f_note (s_eff s) = notify c.
Proof.
  unfold smgr_step, dispatch, change_handlers, isany. cbn [find h_classes existsb]. rewrite orb_false_r.
  destruct (isinst c KCloud) eqn:C; cbn; repeat split. rewrite <- (notify_if_cloud c), C. reflexivity.
Qed.

Theorem smgr_outcome_classes r :
  match r with
  | SIdle | SDone false => s_out (smgr_step r) = ONoop
  | SDone true => s_out (smgr_step r) = ODid
  | SRaise _ | SRoots _ => s_out (smgr_step r) = OBackoff
  | SChange c => s_out (smgr_step r) = if isinst c KCloud then OBackoff else OExc
  end.
Proof.
  destruct r as [|[|]|c|c|c]; try reflexivity.
  - apply (smgr_raise_effect c).
  - apply (smgr_roots_effect c).
  - apply (smgr_change_effect c).
Qed.

Lemma smgr_never_base r : s_out (smgr_step r) <> OBaseExc.
Proof.
  pose proof (smgr_outcome_classes r) as H. destruct r as [|[|]|c|c|c]; rewrite H; try discriminate.
  destruct (isinst c KCloud); discriminate.
Qed.

(* class c was raised somewhere in step r: by pre_sync/sync, by the root validation or by state.change() *)
Definition raised (r : sres) (c : cls) : Prop := r = SRaise c \/ r = SRoots c \/ r = SChange c.
Lemma smgr_raised_notified r c : raised r c -> f_note (s_eff (smgr_step r)) = notify c.
Proof.
  intros [-> | [-> | ->]]; [apply (smgr_raise_effect c)|apply (smgr_roots_effect c)|apply (smgr_change_effect c)].
Qed.

(* the exception that reaches the except clauses of do(), if any ([reconnect_phase] yields (result, need_auth,
   reconnect called, reauthenticate called): the first component decides) *)
Definition emgr_exc (auth : bool) (i : einput) : rres :=
  match fst (fst (fst (reconnect_phase auth i))) with ROk => i_body i | RRaise c => RRaise c end.

Lemma emgr_step_ok auth i : emgr_exc auth i = ROk -> x_out (emgr_step auth i) = ODid.
Proof.
  unfold emgr_exc, emgr_step. destruct (reconnect_phase auth i) as [[[r a] rc] ra]. cbn [fst].
  intros ->. reflexivity.
Qed.
Lemma emgr_step_raise auth i c : emgr_exc auth i = RRaise c ->
  match dispatch emgr_handlers c with
  | Some l => x_eff (emgr_step auth i) = acts c l eff0 /\
              x_out (emgr_step auth i) = (if f_raised (acts c l eff0) then OBackoff else ODid) /\
              (f_auth (acts c l eff0) = true -> x_auth (emgr_step auth i) = true)
  | None => x_eff (emgr_step auth i) = eff0 /\ x_out (emgr_step auth i) = OExc
  end.
Proof.
  unfold emgr_exc, emgr_step. destruct (reconnect_phase auth i) as [[[r a] rc] ra]. cbn [fst].
  intros ->. destruct (dispatch emgr_handlers c); cbn; repeat split. intros ->. reflexivity.
Qed.

(* whether reconnect() and reauthenticate() were called is decided by _reconnect_if_needed alone *)
Lemma emgr_step_calls auth i :
  x_reconnect (emgr_step auth i) = snd (fst (reconnect_phase auth i)) /\
  x_reauth (emgr_step auth i) = snd (reconnect_phase auth i).
Proof.
  unfold emgr_step. destruct (reconnect_phase auth i) as [[[r a] rc] ra].
  destruct (match r with ROk => i_body i | RRaise c => RRaise c end) as [|c];
    [|destruct (dispatch emgr_handlers c)]; split; reflexivity.
Qed.

Definition emgr_reported : list known := [KTemporary; KDisconnected; KNamespace].

Theorem emgr_dispatch_table c :
  dispatch emgr_handlers c =
  match kbase c with
  | KTemporary | KOutOfSpace | KResourceModified | KDisconnected | KNamespace => Some [ANotify; ABackoff]
  | KCursor => Some [ACursorReset; ABackoff]
  | KToken => Some [ANeedAuth; ABackoff]
  | _ => None
  end.
Proof.
  unfold dispatch, emgr_handlers, isany. simpl find. rewrite !(isinst_base c).
  destruct (kbase c); reflexivity.
Qed.

(* the twin of smgr_raise_effect for the event loop, by known base; eff_of n cur au = what a clause that ends in
   backoff() leaves *)
Definition eff_of (n : option nkind) (cur au : bool) : eff :=
  {| f_note := n; f_punt := false; f_commit := false; f_cursor := cur; f_auth := au; f_raised := true |}.
Theorem emgr_raise_table auth i c : emgr_exc auth i = RRaise c ->
  let x := emgr_step auth i in
  match kbase c with
  | KTemporary | KOutOfSpace | KResourceModified | KDisconnected | KNamespace =>
      x_out x = OBackoff /\ x_eff x = eff_of (notify c) false false
  | KCursor => x_out x = OBackoff /\ x_eff x = eff_of None true false
  | KToken => x_out x = OBackoff /\ x_eff x = eff_of None false true /\ x_auth x = true
  | _ => x_out x = OExc /\ x_eff x = eff0
  end.
Proof.
  intros He. cbv zeta. pose proof (emgr_step_raise auth i c He) as H. rewrite emgr_dispatch_table in H.
  (* a clause that catches leaves three facts (the third is the need_auth flag, used for KToken), no clause two *)
  destruct (kbase c); cbn in H; (destruct H as (-> & -> & H) || destruct H as (-> & ->)); repeat split; auto.
Qed.

Theorem emgr_outcome_classes auth i :
  match emgr_exc auth i with
  | ROk => x_out (emgr_step auth i) = ODid
  | RRaise c => x_out (emgr_step auth i) = match dispatch emgr_handlers c with Some _ => OBackoff | None => OExc end
  end.
Proof.
  destruct (emgr_exc auth i) as [|c] eqn:He; [apply (emgr_step_ok _ _ He)|].
  pose proof (emgr_step_raise _ _ _ He) as H. rewrite emgr_dispatch_table in *.
  destruct (kbase c); cbn in H; apply H.
Qed.
Lemma emgr_never_base auth i : x_out (emgr_step auth i) <> OBaseExc /\ x_out (emgr_step auth i) <> ONoop.
Proof.
  pose proof (emgr_outcome_classes auth i) as H. destruct (emgr_exc auth i) as [|c]; rewrite H;
    [|destruct (dispatch emgr_handlers c)]; split; discriminate.
Qed.

(* full strength "all six reportable kinds are reported by the event loop": false — the except clause names
   CloudTemporaryError, CloudDisconnectedError, CloudNamespaceError only; CloudRootMissingError (which the comment in
   the source calls a temporary error, but exceptions.py derives from CloudException) and CloudFileNameError escape
   (refuted: PropC10.C10_emgr_all_kinds_notified_refuted) *)
Definition emgr_all_kinds_notified_full : Prop :=
  forall auth i c, emgr_exc auth i = RRaise c -> notify c <> None ->
    f_note (x_eff (emgr_step auth i)) = notify c.

Lemma smgr_fault_is_failure r c : raised r c -> is_failure (s_out (smgr_step r)) = true.
Proof.
  intros H. pose proof (smgr_outcome_classes r) as Ho. destruct H as [-> | [-> | ->]]; rewrite Ho; [reflexivity|reflexivity|].
  destruct (isinst c KCloud); reflexivity.
Qed.
Lemma emgr_fault_is_failure auth i c : emgr_exc auth i = RRaise c -> is_failure (x_out (emgr_step auth i)) = true.
Proof.
  intros He. pose proof (emgr_outcome_classes auth i) as H. rewrite He in H. rewrite H.
  destruct (dispatch emgr_handlers c); reflexivity.
Qed.

Lemma smgr_outs_length rs : length (smgr_outs rs) = length rs.
Proof. apply map_length. Qed.
Lemma emgr_outs_length is : forall auth, length (emgr_outs auth is) = length is.
Proof. induction is as [|i r IH]; intros auth; simpl; [reflexivity|]. rewrite IH. reflexivity. Qed.

Definition all_faulty (rs : list sres) : Prop := forall r, In r rs -> exists c, raised r c.
Lemma all_faulty_failures rs : all_faulty rs -> forallb is_failure (smgr_outs rs) = true.
Proof.
  intros H. unfold smgr_outs. rewrite forallb_forall. intros o Hin. apply in_map_iff in Hin as (r & <- & Hr).
  destruct (H r Hr) as [c Hc]. exact (smgr_fault_is_failure r c Hc).
Qed.

(* full strength "the backoff resets as soon as the faults stop": false for the sync loop — a step with nothing to do
   (or that only punted) calls nothing_happened() and keeps the backoff
   (refuted: PropC10.C10_backoff_resets_when_idle_refuted) *)
Definition smgr_backoff_resets_when_idle_full : Prop :=
  forall p b, 0 < b -> after_do p b (s_out (smgr_step SIdle)) == 0.
