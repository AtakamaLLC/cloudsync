(* AlgoUser.v — user operations of fragment F1 keep the coupling invariant (with the ghost extended): a user's call is an
   AlgoProv.cell_put on one side with the sync state untouched.  [inv_cell] is the invariant after such a call, [user_cell_pres]
   adds the link [Dom] between the world and the bookkeeping of the domain predicate in_F_from; create / write / delete are its
   instances.  Then the run-level theorems: every world reachable by an in-domain history under any schedule satisfies the
   invariant. *)
From Coq Require Import NArith List Bool Arith Lia.
From CS Require ProvWf.
From CS Require Import Sx Str PathModel PathLaws StateModel StateProofs ProvModel ProvProofs
     AlgoModel AlgoCheck AlgoState AlgoProv AlgoPath AlgoInv AlgoInit AlgoQuiet AlgoIntake AlgoSync AlgoLatest AlgoFinish AlgoSyncEntry AlgoStep.
Import ListNotations.
Local Open Scope N_scope.

Lemma cell_dec (sd : bool) (k : nat) sd0 k0 : (sd0 = sd /\ k0 = k) \/ ~ (sd0 = sd /\ k0 = k).
Proof. destruct (Bool.bool_dec sd0 sd); destruct (Nat.eq_dec k0 k); tauto. Qed.

Lemma hopt_mono h cs cs' : (forall x, In x cs -> In x cs') -> hopt h cs -> hopt h cs'.
Proof. intros H [A|(d & A & B)]; [left; exact A|right; exists d; auto]. Qed.

(* From w to w' only cell kt of side t changes (same path, possibly new data, possibly dead now) and an event for it is logged;
   from g to g' only its record changes, to cs' = cs or data :: cs.  An entry that holds the cell stays fine. *)
Section Touch.
Variables (evl evl' : evlist) (g g' : ghost) (w w' : world) (t : bool) (kt : nat) (ob ob' : ProvModel.obj) (cs cs' : list N).
Hypothesis Hob : obj_at w t kt = Some ob.
Hypothesis Hob' : obj_at w' t kt = Some ob'.
Hypothesis Hobjo : forall k, obj_at w' (negb t) k = obj_at w (negb t) k.
Hypothesis Hpd : forall sd k, pd evl sd k = true -> pd evl' sd k = true.
Hypothesis Hpdk : pd evl' t kt = true.
Hypothesis Hg : g_get kt (g_of g t) = Some cs.
Hypothesis Hg' : g_get kt (g_of g' t) = Some cs'.
Hypothesis Hgo : forall k, g_get k (g_of g' (negb t)) = g_get k (g_of g (negb t)).
Hypothesis Hpath : ProvModel.o_path ob' = ProvModel.o_path ob.
Hypothesis Hdead : ProvModel.o_exists ob = false -> ProvModel.o_exists ob' = false.
Hypothesis Hhead : exists r, cs' = ProvModel.o_data ob' :: r.
Hypothesis Hcs : (ProvModel.o_data ob' = ProvModel.o_data ob /\ cs' = cs) \/ (~ In (ProvModel.o_data ob') cs /\ cs' = ProvModel.o_data ob' :: cs).
Hypothesis Hlgx : forall e sd, x_lg (getx w' e sd) = x_lg (getx w e sd).

Lemma cs_sub x : In x cs -> In x cs'.
Proof. destruct Hcs as [(_ & ->)|(_ & ->)]; [auto|intros; right; assumption]. Qed.

Lemma EntOk_touch e en : s_oid (gs en t) = Some (ostr_k kt) -> EntOk evl g w e en -> EntOk evl' g' w' e en.
Proof.
  intros Ho [A B C]. constructor; [exact A|exact B|]. intros sd. destruct (C sd) as [c1 c2 c3 c5 c4].
  constructor; [exact c1|exact c2|exact c3|exact c5|].
  intros o Hoo. destruct (c4 o Hoo) as (k & ob0 & Hk & Hob0 & Hk2 & F). subst o.
  destruct (side_cases t sd) as [->| ->].
  - assert (k = kt) by (apply ostr_k_inj; congruence). subst k. assert (ob0 = ob) by congruence. subst ob0.
    exists kt, ob'. split; [reflexivity|]. split; [exact Hob'|]. split; [exact Hk2|].
    destruct F as [f1 f2 f3 f4 f5 f6 f7 f8 f10 f9].
    assert (Hfl: flagP evl' en t kt) by (right; exact Hpdk).
    (* but for the owner's and the mirror's, the clauses are as they were or hold by the new event *)
    constructor; rewrite ?Hpath; auto.
    + (* fo_owner *) intros Hd cs1 Hcs1. assert (cs1 = cs') by congruence. subst cs1.
      destruct (f8 Hd cs Hg) as (P1 & P2 & P3 & P4 & P5).
      split; [apply (hopt_mono _ cs cs' cs_sub P1)|]. split; [apply (hopt_mono _ cs cs' cs_sub P2)|]. split; [exact Hhead|]. split; [exact P4|].
      intros Hop. destruct (P5 Hop) as (Q1 & Q2 & Q3 & Q4). split; [exact Q1|]. split; [exact Q2|]. split.
      * destruct Hcs as [(Hd1 & _)|(Hnin & _)].
        -- rewrite Hd1. destruct Q3 as [Q3|(Q3 & Q5)]; [left; exact Q3|right; split; [exact Q3|exact Hfl]].
        -- right. split; [|exact Hfl]. intros X. destruct P2 as [P2|(d0 & P2 & Hin)]; [contradiction|].
           rewrite P2 in X. injection X as X. subst d0. contradiction.
      * intros k' Hk'. rewrite Hgo. apply Q4. exact Hk'.
    + (* fo_owner2 *) intros Hd cs1 Hcs1. apply (f10 Hd cs Hg).
    + (* fo_mirror *) intros Hd X. rewrite Hg' in X. discriminate.
  - exists k, ob0. split; [reflexivity|]. split; [rewrite Hobjo; exact Hob0|]. split; [exact Hk2|].
    (* the other side is framed; its peer is the rewritten cell, still a user's under the same name *)
    apply (FullOk_frame evl evl' g g' w w' e en en (negb t) k ob0 F); rewrite ?negb_involutive; auto.
    + intros Hd. apply (dueP_mono evl evl' w w' e en en (negb t) k ob0 (fo_due F Hd)); auto. apply N.le_refl.
    + intros k' Hk' Hn. assert (k' = kt) by (apply ostr_k_inj; congruence). subst k'. congruence.
    + intros k' ob1 Hk' Hob1 _. assert (k' = kt) by (apply ostr_k_inj; congruence). subst k'.
      assert (ob1 = ob) by congruence. subst ob1.
      exists ob'. split; [exact Hob'|]. split; [rewrite Hpath; reflexivity|rewrite Hg'; discriminate].
Qed.
End Touch.

Lemma cell_frame g g' w w' t kt :
  (forall k, obj_at w' (negb t) k = obj_at w (negb t) k) -> (forall k, k <> kt -> obj_at w' t k = obj_at w t k) ->
  (forall k, g_get k (g_of g' (negb t)) = g_get k (g_of g (negb t))) -> (forall k, k <> kt -> g_get k (g_of g' t) = g_get k (g_of g t)) ->
  forall sd k, ~ (sd = t /\ k = kt) -> g_get k (g_of g' sd) = g_get k (g_of g sd) /\ obj_at w' sd k = obj_at w sd k.
Proof.
  intros Hoo Hok Hgo Hgk sd k Hne. destruct (side_cases t sd) as [->| ->]; [|auto].
  assert (k <> kt) by (intros ->; apply Hne; auto). auto.
Qed.

(* the invariant after a user's call on cell kt of side t, from what AlgoInv.cell_put_world and [cell_frame] say of the new
   world, once the caller has re-established every entry *)
Lemma inv_cell g g' w w' t kt ob' :
  Inv g w ->
  w_cfg w' = w_cfg w -> w_st w' = w_st w -> w_x w' = w_x w ->
  (forall sd, PWF (prov_of w' sd) /\ ShapeOk w' sd /\ LogOk (real_evl w') w' sd) ->
  (forall sd k, pd (real_evl w) sd k = true -> pd (real_evl w') sd k = true) -> pd (real_evl w') t kt = true ->
  obj_at w' t kt = Some ob' -> (2 <= kt)%nat ->
  (forall sd k, ~ (sd = t /\ k = kt) -> g_get k (g_of g' sd) = g_get k (g_of g sd) /\ obj_at w' sd k = obj_at w sd k) ->
  (exists cs', g_get kt (g_of g' t) = Some cs' /\ exists r, cs' = ProvModel.o_data ob' :: r) ->
  (forall x xn, (2 <= x)%nat -> nth_error (ents (w_st w)) x = Some xn -> EntOk (real_evl w') g' w' x xn) ->
  Inv g' w'.
Proof.
  intros I Hcfg Hst Hx Hprov Hpdm Hpdk Hob' Hkt2 Hfr Hgk HE.
  (* every cell but kt of side t was there before *)
  assert (Hlt: forall sd k, ~ (sd = t /\ k = kt) ->
            (k < length (ProvModel.p_heap (prov_of w' sd)))%nat -> (k < length (ProvModel.p_heap (prov_of w sd)))%nat).
  { intros sd k Hne Hl. destruct (Hfr sd k Hne) as (_ & Eo). unfold obj_at in Eo. apply nth_error_Some. rewrite <- Eo. apply nth_error_Some, Hl. }
  unfold Inv. constructor; try rewrite Hst; unfold Seen, getx; rewrite ?Hx; try apply I; try (intros sd; apply Hprov).
  - rewrite Hcfg. apply (i_cfg I).
  - intros sd k Hk Hl. destruct (cell_dec t kt sd k) as [(-> & ->)|Hne]; [right; exact Hpdk|].
    destruct (i_cov I sd k Hk (Hlt sd k Hne Hl)) as [X|X]; [left; exact X|right; apply Hpdm; exact X].
  - exact HE.
  - intros sd k Hk Hl Hg0. destruct (cell_dec t kt sd k) as [(-> & ->)|Hne]; [destruct Hgk as (cs' & X & _); congruence|].
    destruct (Hfr sd k Hne) as (Eg & _). rewrite Eg in Hg0. apply (i_cove I sd k Hk (Hlt sd k Hne Hl) Hg0).
  - intros sd k cs0 Hg0. destruct (cell_dec t kt sd k) as [(-> & ->)|Hne].
    + destruct Hgk as (cs' & X & (r & Y)). split; [exact Hkt2|]. exists ob', r. split; [exact Hob'|congruence].
    + destruct (Hfr sd k Hne) as (Eg & Eo). rewrite Eg in Hg0. rewrite Eo. apply (i_ghost I sd k cs0 Hg0).
Qed.

Lemma inv_user g g' w w' t kt ob' ev :
  Inv g w ->
  w_cfg w' = w_cfg w -> w_st w' = w_st w -> w_x w' = w_x w ->
  prov_of w' (negb t) = prov_of w (negb t) ->
  PWF (prov_of w' t) ->
  ProvModel.p_cursor (prov_of w' t) = ProvModel.p_cursor (prov_of w t) ->
  ProvModel.p_log (prov_of w' t) = ProvModel.p_log (prov_of w t) ++ [ev] ->
  ProvModel.e_oid ev = kid_of kt -> (2 <= kt)%nat -> (kt <= length (ProvModel.p_heap (prov_of w t)))%nat ->
  obj_at w' t kt = Some ob' -> ProvModel.e_otype ev = ProvModel.o_kind ob' ->
  (ProvModel.e_exists ev = false -> ProvModel.o_exists ob' = false) ->
  ProvModel.o_kind ob' = ProvModel.KFile -> (exists n, ProvModel.o_path ob' = [root_name t; n] /\ name_ok n = true) ->
  (forall k, k <> kt -> obj_at w' t k = obj_at w t k) ->
  (forall ob, obj_at w t kt = Some ob -> ProvModel.o_exists ob = false -> ProvModel.o_exists ob' = false) ->
  (length (ProvModel.p_heap (prov_of w' t)) <= Nat.max (length (ProvModel.p_heap (prov_of w t))) (S kt))%nat ->
  (forall k, g_get k (g_of g' (negb t)) = g_get k (g_of g (negb t))) ->
  (forall k, k <> kt -> g_get k (g_of g' t) = g_get k (g_of g t)) ->
  (exists cs', g_get kt (g_of g' t) = Some cs' /\ exists r, cs' = ProvModel.o_data ob' :: r) ->
  (forall x xn, (2 <= x)%nat -> nth_error (ents (w_st w)) x = Some xn -> EntOk (real_evl w') g' w' x xn) ->
  Inv g' w' /\ (forall sd k, pd (real_evl w) sd k = true -> pd (real_evl w') sd k = true) /\ pd (real_evl w') t kt = true.
Proof.
  intros I Hcfg Hst Hx Hpo HW Hcur Hlog Hevo Hkt2 _ Hob' Hevk Hevx Hkf Hpath Hobj Hdead _ Hgo Hgt Hgk HE.
  assert (CP: cell_put (prov_of w t) (prov_of w' t) kt ob' ev).
  { split; auto. intros j. destruct (Nat.eqb_spec j kt) as [->|Hne]; [exact Hob'|apply (Hobj j Hne)]. }
  destruct (cell_put_world g w w' t kt ob' ev I Hpo CP Hkt2 Hkf Hpath Hdead) as [Hprov Hpdm Hpdk _ _ Hobjo].
  split; [|split; [exact Hpdm|exact Hpdk]].
  apply (inv_cell g g' w w' t kt ob' I Hcfg Hst Hx Hprov Hpdm Hpdk Hob' Hkt2 (cell_frame g g' w w' t kt Hobjo Hobj Hgo Hgt) Hgk HE).
Qed.

Lemma g_of_with_same g sd l : g_of (g_with g sd l) sd = l.
Proof. destruct sd; reflexivity. Qed.
Lemma g_of_with_other g sd l : g_of (g_with g sd l) (negb sd) = g_of g (negb sd).
Proof. destruct sd; reflexivity. Qed.
Lemma g_get_cons_same k v l : g_get k ((k, v) :: l) = Some v.
Proof. simpl. rewrite Nat.eqb_refl. reflexivity. Qed.
Lemma g_get_cons_other k k' v l : k' <> k -> g_get k' ((k, v) :: l) = g_get k' l.
Proof. intros H. simpl. destruct (Nat.eqb_spec k' k); [contradiction|reflexivity]. Qed.

(* the ghost after a user's call on cell k of side sd: the contents written to it are now cs *)
Definition g_set (g : ghost) (sd : bool) (k : nat) (cs : list N) : ghost := g_with g sd ((k, cs) :: g_of g sd).
Lemma g_set_same g sd k cs : g_get k (g_of (g_set g sd k cs) sd) = Some cs.
Proof. unfold g_set. rewrite g_of_with_same. apply g_get_cons_same. Qed.
Lemma g_set_other_key g sd k cs k0 : k0 <> k -> g_get k0 (g_of (g_set g sd k cs) sd) = g_get k0 (g_of g sd).
Proof. unfold g_set. rewrite g_of_with_same. apply g_get_cons_other. Qed.
Lemma g_set_other_side g sd k cs k0 : g_get k0 (g_of (g_set g sd k cs) (negb sd)) = g_get k0 (g_of g (negb sd)).
Proof. unfold g_set. rewrite g_of_with_other. reflexivity. Qed.

Lemma live_get_del p q l : live_get q (live_del p l) = if ProvModel.path_eqb q p then None else live_get q l.
Proof.
  induction l as [|[q' cs] r IH]; simpl; [destruct (ProvModel.path_eqb q p); reflexivity|].
  destruct (ProvModel.path_eqb p q') eqn:E; simpl; rewrite IH; destruct (ProvModel.path_eqb q q') eqn:E', (ProvModel.path_eqb q p) eqn:E2; try reflexivity.
  - apply path_eqb_eq in E, E'. subst. rewrite ProvWf.path_eqb_refl in E2. discriminate.
  - apply path_eqb_eq in E', E2. subst. rewrite ProvWf.path_eqb_refl in E. discriminate.
Qed.
Lemma live_get_set p cs q l : live_get q ((p, cs) :: live_del p l) = if ProvModel.path_eqb q p then Some cs else live_get q l.
Proof. cbn [live_get]. rewrite live_get_del. destruct (ProvModel.path_eqb q p); reflexivity. Qed.

Lemma n_mem_false d l : n_mem d l = false -> ~ In d l.
Proof. unfold n_mem. intros H Hin. apply (existsb_eqb_In N.eqb N.eqb_eq) in Hin. congruence. Qed.
Lemma name_mem_cons n m l : name_mem n l = true -> name_mem n (m :: l) = true.
Proof. unfold name_mem. simpl. intros ->. apply orb_true_r. Qed.
Lemma name_mem_head n l : name_mem n (n :: l) = true.
Proof. unfold name_mem. simpl. rewrite StrLemmas.str_eqb_refl. reflexivity. Qed.
Lemma name_mem_neq n m l : name_mem n l = false -> name_mem m l = true -> m <> n.
Proof. intros A B X. subst. congruence. Qed.

(* user-made objects have pairwise different leaf names, across both sides (names are never reused) *)
Definition Uniq (g : ghost) (w : world) : Prop :=
  forall sd k cs sd' k' cs' ob ob', g_get k (g_of g sd) = Some cs -> g_get k' (g_of g sd') = Some cs' ->
    obj_at w sd k = Some ob -> obj_at w sd' k' = Some ob' ->
    leaf (ProvModel.o_path ob) = leaf (ProvModel.o_path ob') -> sd = sd' /\ k = k'.

Lemma Uniq_frame g w w' : OwnFrame g w w' -> Uniq g w -> Uniq g w'.
Proof.
  intros O U sd k cs sd' k' cs' ob ob' Hg Hg' Ho Ho' Hl. rewrite (O sd k cs Hg) in Ho. rewrite (O sd' k' cs' Hg') in Ho'.
  apply (U sd k cs sd' k' cs' ob ob' Hg Hg' Ho Ho' Hl).
Qed.

(* The bookkeeping of AlgoModel.in_F_from (names used so far, live files per side with the contents written) against the world:
   d_live: a listed file is a live user-made object with that record; d_used: the name of every user-made object is in [used]. *)
Record Dom (used : list ProvModel.name) (lvL lvR : list (ProvModel.path * list N)) (g : ghost) (w : world) : Prop := {
  d_live : forall (sd : bool) rel cs, live_get rel (if sd then lvR else lvL) = Some cs ->
     exists n k ob, rel = [n] /\ obj_at w sd k = Some ob /\ ProvModel.o_exists ob = true /\
                    ProvModel.o_path ob = [root_name sd; n] /\ g_get k (g_of g sd) = Some cs;
  d_used : forall sd k cs, g_get k (g_of g sd) = Some cs ->
     exists ob n, obj_at w sd k = Some ob /\ ProvModel.o_path ob = [root_name sd; n] /\ name_mem n used = true;
  d_uniq : Uniq g w;
  (* conversely: a live user-made object is one of the files the bookkeeping lists, with the contents recorded *)
  d_conv : forall (sd : bool) k cs ob, g_get k (g_of g sd) = Some cs -> obj_at w sd k = Some ob -> ProvModel.o_exists ob = true ->
     exists n, ProvModel.o_path ob = [root_name sd; n] /\ live_get [n] (if sd then lvR else lvL) = Some cs
}.

Lemma Dom_frame used lvL lvR g w w' : OwnFrame g w w' -> Dom used lvL lvR g w -> Dom used lvL lvR g w'.
Proof.
  intros O [A B C D0]. constructor.
  - intros sd rel cs H. destruct (A sd rel cs H) as (n & k & ob & X1 & X2 & X3 & X4 & X5).
    exists n, k, ob. rewrite (O sd k cs X5). auto.
  - intros sd k cs H. destruct (B sd k cs H) as (ob & n & X1 & X2 & X3). exists ob, n. rewrite (O sd k cs H). auto.
  - apply (Uniq_frame g w w' O C).
  - intros sd k cs ob Hg Hob Hl. rewrite (O sd k cs Hg) in Hob. apply (D0 sd k cs ob Hg Hob Hl).
Qed.

(* The bookkeeping after a user's call on cell k of side sd: the cell now holds ob', a file named n that no other
   user-made object is named, with contents cs'; every other cell and its ghost record are as before; [f] is what
   the call does to the side's list of live files. *)
Lemma Dom_set used used' lvL lvR f g g' w w' (sd : bool) k n ob' cs' :
  Dom used lvL lvR g w ->
  (forall sd0 k0, ~ (sd0 = sd /\ k0 = k) ->
     g_get k0 (g_of g' sd0) = g_get k0 (g_of g sd0) /\ obj_at w' sd0 k0 = obj_at w sd0 k0) ->
  obj_at w' sd k = Some ob' -> g_get k (g_of g' sd) = Some cs' ->
  ProvModel.o_path ob' = [root_name sd; n] ->
  (forall m, name_mem m used = true -> name_mem m used' = true) -> name_mem n used' = true ->
  (forall sd0 k0 cs0 ob0, g_get k0 (g_of g sd0) = Some cs0 -> obj_at w sd0 k0 = Some ob0 ->
     (leaf (ProvModel.o_path ob0) = n <-> sd0 = sd /\ k0 = k)) ->
  (forall l rel, live_get rel (f l) = if ProvModel.path_eqb rel [n] then (if ProvModel.o_exists ob' then Some cs' else None)
                                      else live_get rel l) ->
  Dom used' (if sd then lvL else f lvL) (if sd then f lvR else lvR) g' w'.
Proof.
  intros [A B C D0] Hfr Hob' Hg' Hp Hum Hun Hn Hf.
  assert (Hlv: forall (sd0 : bool) rel, live_get rel (if sd0 then (if sd then f lvR else lvR) else (if sd then lvL else f lvL)) =
            if Bool.eqb sd0 sd && ProvModel.path_eqb rel [n] then (if ProvModel.o_exists ob' then Some cs' else None)
            else live_get rel (if sd0 then lvR else lvL)).
  { intros [] rel; destruct sd; cbn [Bool.eqb andb]; try reflexivity; apply Hf. }
  (* cell k is the only one named n, in the new world too *)
  assert (Hn': forall sd0 k0 cs0 ob0, g_get k0 (g_of g' sd0) = Some cs0 -> obj_at w' sd0 k0 = Some ob0 ->
            leaf (ProvModel.o_path ob0) = n -> sd0 = sd /\ k0 = k).
  { intros sd0 k0 cs0 ob0 Hg0 Ho0 Hl. destruct (cell_dec sd k sd0 k0) as [X|Hne]; [exact X|].
    destruct (Hfr _ _ Hne) as (Eg & Eo). rewrite Eg in Hg0. rewrite Eo in Ho0. apply (Hn sd0 k0 cs0 ob0 Hg0 Ho0). exact Hl. }
  assert (Hln: leaf (ProvModel.o_path ob') = n) by (rewrite Hp; reflexivity).
  constructor.
  - intros sd0 rel cs Hl. rewrite Hlv in Hl.
    destruct (Bool.eqb sd0 sd && ProvModel.path_eqb rel [n])%bool eqn:Ec.
    + apply andb_prop in Ec as [Es Ep]. apply Bool.eqb_prop in Es. apply path_eqb_eq in Ep. subst sd0 rel.
      destruct (ProvModel.o_exists ob') eqn:El; [|discriminate]. injection Hl as <-. exists n, k, ob'. auto 10.
    + destruct (A sd0 rel cs Hl) as (n0 & k0 & ob0 & -> & X2 & X3 & X4 & X5).
      destruct (Hfr sd0 k0) as (Eg & Eo).
      { intros (-> & ->). destruct (Hn sd k cs ob0 X5 X2) as (_ & Y). rewrite X4 in Y. cbn in Y. rewrite <- Y in Ec by auto.
        rewrite Bool.eqb_reflx, ProvWf.path_eqb_refl in Ec. discriminate. }
      exists n0, k0, ob0. rewrite Eg, Eo. auto 10.
  - intros sd0 k0 cs0 Hg0. destruct (cell_dec sd k sd0 k0) as [(-> & ->)|Hne]; [exists ob', n; auto|].
    destruct (Hfr _ _ Hne) as (Eg & Eo). rewrite Eg in Hg0. destruct (B sd0 k0 cs0 Hg0) as (ob0 & n0 & X1 & X2 & X3).
    exists ob0, n0. rewrite Eo. auto.
  - intros sd0 k0 cs0 sd1 k1 cs1 ob0 ob1 Hg0 Hg1 Ho0 Ho1 Hleaf.
    destruct (cell_dec sd k sd0 k0) as [(-> & ->)|Hne0].
    { assert (ob0 = ob') by congruence. subst ob0. rewrite Hln in Hleaf.
      destruct (Hn' sd1 k1 cs1 ob1 Hg1 Ho1 (eq_sym Hleaf)) as (-> & ->). auto. }
    destruct (cell_dec sd k sd1 k1) as [(-> & ->)|Hne1].
    { assert (ob1 = ob') by congruence. subst ob1. rewrite Hln in Hleaf. apply (Hn' sd0 k0 cs0 ob0 Hg0 Ho0 Hleaf). }
    destruct (Hfr _ _ Hne0) as (Eg0 & Eo0). destruct (Hfr _ _ Hne1) as (Eg1 & Eo1).
    rewrite Eg0 in Hg0. rewrite Eg1 in Hg1. rewrite Eo0 in Ho0. rewrite Eo1 in Ho1.
    apply (C sd0 k0 cs0 sd1 k1 cs1 ob0 ob1 Hg0 Hg1 Ho0 Ho1 Hleaf).
  - intros sd0 k0 cs0 ob0 Hg0 Ho0 Hl0. destruct (cell_dec sd k sd0 k0) as [(-> & ->)|Hne].
    + assert (ob0 = ob') by congruence. assert (cs0 = cs') by congruence. subst ob0 cs0.
      exists n. rewrite Hlv, Bool.eqb_reflx, ProvWf.path_eqb_refl, Hl0. auto.
    + destruct (Hfr _ _ Hne) as (Eg & Eo). rewrite Eg in Hg0. rewrite Eo in Ho0.
      destruct (D0 sd0 k0 cs0 ob0 Hg0 Ho0 Hl0) as (n0 & X1 & X2). exists n0. split; [exact X1|]. rewrite Hlv.
      destruct (Bool.eqb sd0 sd && ProvModel.path_eqb [n0] [n])%bool eqn:Ec; [exfalso|exact X2].
      apply andb_prop in Ec as [_ Ep]. apply path_eqb_eq in Ep. injection Ep as ->.
      apply Hne. apply (Hn sd0 k0 cs0 ob0 Hg0 Ho0). rewrite X1. reflexivity.
Qed.

Lemma live_name_used used lvL lvR g w sd k ob n :
  Inv g w -> Dom used lvL lvR g w -> (2 <= k)%nat -> obj_at w sd k = Some ob -> ProvModel.o_exists ob = true ->
  ProvModel.o_path ob = [root_name sd; n] -> name_mem n used = true.
Proof.
  intros I D Hk Hob Hl Hp.
  destruct (opt_dec (g_get k (g_of g sd))) as [(cs & Eg)|Eg].
  - destruct (d_used _ _ _ _ _ D sd k cs Eg) as (ob0 & n0 & X1 & X2 & X3). assert (ob0 = ob) by congruence. subst ob0.
    assert (n0 = n) by congruence. subst n0. exact X3.
  - destruct (mirror_entry g w sd k ob I Hk Hob Hl Eg) as (_ & _ & k' & ob' & cs' & _ & _ & _ & G2 & Eg' & G3).
    destruct (d_used _ _ _ _ _ D (negb sd) k' cs' Eg') as (ob0 & n0 & X1 & X2 & X3). assert (ob0 = ob') by congruence. subst ob0.
    rewrite Hp, X2 in G3. unfold leaf in G3. simpl in G3. subst n0. exact X3.
Qed.

(* The call on side sd leaves provider p': it appended a cell with a new name, or overwrote a live cell the side's user
   owns, keeping its path; it logged the cell's event.  The ghost records cs' for the cell. *)
Lemma user_cell_pres used used' lvL lvR f g w (sd : bool) k n ob' cs' p' ev :
  Inv g w -> NoTmp w -> Dom used lvL lvR g w ->
  cell_put (prov_of w sd) p' k ob' ev -> ProvModel.o_kind ob' = ProvModel.KFile ->
  ProvModel.o_path ob' = [root_name sd; n] -> name_ok n = true ->
  (exists r, cs' = ProvModel.o_data ob' :: r) ->
  (k = length (ProvModel.p_heap (prov_of w sd)) /\ name_mem n used = false) \/
  (exists ob cs, obj_at w sd k = Some ob /\ ProvModel.o_exists ob = true /\ ProvModel.o_path ob = [root_name sd; n] /\
     g_get k (g_of g sd) = Some cs /\
     ((ProvModel.o_data ob' = ProvModel.o_data ob /\ cs' = cs) \/ (~ In (ProvModel.o_data ob') cs /\ cs' = ProvModel.o_data ob' :: cs))) ->
  (forall m, name_mem m used = true -> name_mem m used' = true) -> name_mem n used' = true ->
  (forall l rel, live_get rel (f l) = if ProvModel.path_eqb rel [n] then (if ProvModel.o_exists ob' then Some cs' else None)
                                      else live_get rel l) ->
  Inv (g_set g sd k cs') (with_prov w sd p') /\ NoTmp (with_prov w sd p') /\
  (forall k0, g_get k0 (g_of (g_set g sd k cs') (negb sd)) = g_get k0 (g_of g (negb sd))) /\
  Dom used' (if sd then lvL else f lvL) (if sd then f lvR else lvR) (g_set g sd k cs') (with_prov w sd p').
Proof.
  intros I T D CP Hkf Hp Hnok Hhead Hcell Hum Hun Hf.
  set (w' := with_prov w sd p'). set (g' := g_set g sd k cs').
  assert (Hk2: (2 <= k)%nat).
  { destruct Hcell as [(-> & _)|(ob & cs & _ & _ & _ & Hg & _)]; [apply (heap_ge2 g w sd I)|apply (i_ghost I sd k cs Hg)]. }
  assert (Hold: forall ob, obj_at w sd k = Some ob ->
            ProvModel.o_exists ob = true /\ ProvModel.o_path ob = [root_name sd; n] /\ exists cs, g_get k (g_of g sd) = Some cs /\
            ((ProvModel.o_data ob' = ProvModel.o_data ob /\ cs' = cs) \/ (~ In (ProvModel.o_data ob') cs /\ cs' = ProvModel.o_data ob' :: cs))).
  { intros ob Hob. destruct Hcell as [(-> & _)|(ob1 & cs & Hob1 & Hl & Hp1 & Hg & Hcs)].
    - exfalso. unfold obj_at in Hob. apply (Nat.lt_irrefl (length (ProvModel.p_heap (prov_of w sd)))). apply nth_error_Some. congruence.
    - assert (ob1 = ob) by congruence. subst ob1. eauto. }
  assert (Hps: prov_of w' sd = p') by apply prov_with_same.
  assert (Hpo: prov_of w' (negb sd) = prov_of w (negb sd)) by apply prov_with_other.
  rewrite <- Hps in CP.
  assert (Hgx: forall x sd0, getx w' x sd0 = getx w x sd0) by (intros; unfold getx, w'; rewrite x_with_prov; reflexivity).
  (* a cell that was there before the call was live *)
  assert (Hdead: forall ob, obj_at w sd k = Some ob -> ProvModel.o_exists ob = false -> ProvModel.o_exists ob' = false).
  { intros ob Hob Hd. destruct (Hold ob Hob) as (Hl & _). congruence. }
  (* what the call does to the providers' clauses and to the other cells: the entries (HE), inv_cell and Dom_set all read it *)
  destruct (cell_put_world g w w' sd k ob' ev I Hpo CP Hk2 Hkf (ex_intro _ n (conj Hp Hnok)) Hdead) as [Hprov Hpdm Hpdk Hobt Hobj Hobjo].
  pose proof (cell_frame g g' w w' sd k Hobjo Hobj (g_set_other_side _ _ _ _) (g_set_other_key _ _ _ _)) as Hfr.
  (* an entry that holds the cell follows its object; every other entry is left alone *)
  assert (HE: forall x xn, (2 <= x)%nat -> nth_error (ents (w_st w)) x = Some xn -> EntOk (real_evl w') g' w' x xn).
  { intros x xn Hx2 Hxn. pose proof (i_ents I x xn Hx2 Hxn) as EO.
    destruct (ostr_eqb (s_oid (gs xn sd)) (Some (ostr_k k))) eqn:Ho.
    - apply ostr_eqb_eq in Ho. pose proof (oid_lt_heap g w x xn sd k I Hxn Ho) as Hlt.
      destruct (opt_dec (obj_at w sd k)) as [(ob & Hob)|Hob]; [|exfalso; unfold obj_at in Hob; apply nth_error_None in Hob; lia].
      destruct (Hold ob Hob) as (Hl & Hpo' & cs & Hg & Hcs).
      apply (EntOk_touch (real_evl w) (real_evl w') g g' w w' sd k ob ob' cs cs' Hob Hobt Hobjo Hpdm Hpdk Hg
               (g_set_same _ _ _ _) (g_set_other_side _ _ _ _));
        [(* Hpath *) congruence|(* Hdead *) congruence|exact Hhead|exact Hcs|(* Hlgx *)|exact Ho|exact EO].
      intros e0 sd0. rewrite Hgx. reflexivity.
    - apply (EntOk_frame (real_evl w) (real_evl w') g g' w w' x xn EO); [intros; rewrite Hgx; reflexivity|].
      intros sd0 k0 Ho0. destruct (Hfr sd0 k0) as (Eg & Eo); [intros (-> & ->); rewrite (proj2 (ostr_eqb_eq _ _) Ho0) in Ho; discriminate|]. split; [exact Eo|]. split; [apply Hpdm|exact Eg]. }
  split; [|split; [|split]].
  - exact (inv_cell g g' w w' sd k ob' I (cfg_with_prov _ _ _) (st_with_prov _ _ _) (x_with_prov _ _ _) Hprov Hpdm Hpdk Hobt Hk2 Hfr
             (ex_intro _ cs' (conj (g_set_same _ _ _ _) Hhead)) HE).
  - intros x sd0. rewrite Hgx. apply T.
  - apply g_set_other_side.
  - apply (Dom_set used used' lvL lvR f g g' w w' sd k n ob' cs' D Hfr Hobt (g_set_same _ _ _ _) Hp Hum Hun); [|exact Hf].
    intros sd0 k0 cs0 ob0 Hg0 Ho0. split.
    + intros Hleaf. destruct (d_used _ _ _ _ _ D sd0 k0 cs0 Hg0) as (obz & nz & Z1 & Z2 & Z3).
      assert (obz = ob0) by congruence. subst obz. rewrite Z2 in Hleaf. cbn in Hleaf. subst nz.
      destruct Hcell as [(_ & Hnew)|(ob & cs & Hob & _ & Hpo' & Hg & _)]; [congruence|].
      apply (d_uniq _ _ _ _ _ D sd0 k0 cs0 sd k cs ob0 ob Hg0 Hg Ho0 Hob). rewrite Z2, Hpo'. reflexivity.
    + intros (-> & ->). destruct (Hold ob0 Ho0) as (_ & Hpo' & _). rewrite Hpo'. reflexivity.
Qed.

Lemma user_create_pres used lvL lvR g w sd n d :
  Inv g w -> NoTmp w -> Dom used lvL lvR g w -> name_ok n = true -> name_mem n used = false ->
  exists g', Inv g' (user_op w sd (UCreate [n] d)) /\ NoTmp (user_op w sd (UCreate [n] d)) /\
     (forall k, g_get k (g_of g' (negb sd)) = g_get k (g_of g (negb sd))) /\
     Dom (n :: used) (if sd then lvL else ([n], [d]) :: lvL) (if sd then ([n], [d]) :: lvR else lvR) g' (user_op w sd (UCreate [n] d)).
Proof.
  intros I T D Hnok Hnew.
  set (p := prov_of w sd). set (q := [root_name sd; n]).
  assert (Hw': user_op w sd (UCreate [n] d) = with_prov w sd (fst (ProvModel.create p q d))).
  { unfold user_op. rewrite (i_cfg I), root_std. reflexivity. }
  rewrite Hw'. clear Hw'.
  pose proof (i_pwf I sd) as W. fold p in W.
  assert (Hfree: forall k o, nth_error (ProvModel.p_heap p) k = Some o -> ProvModel.o_exists o = true -> ProvModel.o_path o <> q).
  { intros k o Hk Hl Hq. pose proof (below_root_ge2 g w sd k o [n] I Hk Hq ltac:(discriminate)) as Hk2.
    rewrite (live_name_used used lvL lvR g w sd k o n I D Hk2 Hk Hl Hq) in Hnew. discriminate. }
  destruct (create_spec p q d W Hfree (verify_parent_root g w sd n I)) as (p' & Ecr & CP).
  rewrite Ecr. cbn [fst]. exists (g_set g sd (length (ProvModel.p_heap p)) [d]).
  apply (user_cell_pres used (n :: used) lvL lvR (cons ([n], [d])) g w sd _ n (new_obj p q ProvModel.KFile d) [d] p' _
           I T D CP); try reflexivity; [exact Hnok|exists []; reflexivity|left; auto|intros m; apply name_mem_cons|apply name_mem_head].
Qed.

Lemma user_find used lvL lvR g w (sd : bool) rel cs :
  Inv g w -> Dom used lvL lvR g w -> live_get rel (if sd then lvR else lvL) = Some cs ->
  exists n k ob, rel = [n] /\ obj_at w sd k = Some ob /\ ProvModel.o_exists ob = true /\ ProvModel.o_path ob = [root_name sd; n] /\
    g_get k (g_of g sd) = Some cs /\
    ProvModel.info_path (prov_of w sd) (root_of (w_cfg w) sd ++ rel) = Some (ProvModel.info_of ob) /\
    ProvModel.o_oid ob = kid_of k /\ ProvModel.o_kind ob = ProvModel.KFile /\ name_ok n = true /\ name_mem n used = true.
Proof.
  intros I D H. destruct (d_live _ _ _ _ _ D sd rel cs H) as (n & k & ob & -> & Hob & Hl & Hp & Hg).
  exists n, k, ob. pose proof (i_pwf I sd) as W.
  destruct (i_ghost I sd k cs Hg) as (Hk2 & _).
  destruct (sh_files (i_shape I sd) k ob Hk2 Hob) as (Hkf & n1 & Hp1 & Hnok).
  destruct (d_used _ _ _ _ _ D sd k cs Hg) as (ob2 & n2 & Hob2 & Hp2 & Hu).
  assert (n1 = n) by congruence. assert (n2 = n) by congruence. subst n1 n2.
  repeat (split; [first [reflexivity|assumption]|]). split; [|split; [apply (pw_oid _ W _ _ Hob)|auto]].
  rewrite (i_cfg I), root_std. change ([root_name sd] ++ [n]) with [root_name sd; n]. rewrite <- Hp.
  apply (info_path_live _ k ob W Hob Hl).
Qed.

Lemma user_write_pres used lvL lvR g w (sd : bool) rel d cs :
  Inv g w -> NoTmp w -> Dom used lvL lvR g w ->
  live_get rel (if sd then lvR else lvL) = Some cs -> n_mem d cs = false ->
  exists g', Inv g' (user_op w sd (UWrite rel d)) /\ NoTmp (user_op w sd (UWrite rel d)) /\
    (forall k, g_get k (g_of g' (negb sd)) = g_get k (g_of g (negb sd))) /\
    Dom used (if sd then lvL else (rel, d :: cs) :: live_del rel lvL) (if sd then (rel, d :: cs) :: live_del rel lvR else lvR)
        g' (user_op w sd (UWrite rel d)).
Proof.
  intros I T D Hlive Hfresh.
  destruct (user_find used lvL lvR g w sd rel cs I D Hlive) as (n & k & ob & -> & Hob & Hl & Hp & Hg & Hinfo & Hoid & Hkf & Hnok & Hu).
  destruct (upload_spec _ k ob d (i_pwf I sd) Hob Hl Hkf) as (p' & Eup & CP).
  assert (Hw': user_op w sd (UWrite [n] d) = with_prov w sd p').
  { unfold user_op. rewrite Hinfo. cbn [ProvModel.info_of ProvModel.i_oid]. rewrite Hoid, Eup. reflexivity. }
  rewrite Hw'. exists (g_set g sd k (d :: cs)).
  apply (user_cell_pres used used lvL lvR (fun l => ([n], d :: cs) :: live_del [n] l) g w sd k n (ProvModel.set_data ob d) (d :: cs) p'
           _ I T D CP Hkf Hp Hnok); [exists cs; reflexivity| |auto|exact Hu|].
  - right. exists ob, cs. repeat (split; [assumption|]). right. split; [apply n_mem_false; exact Hfresh|reflexivity].
  - intros l rel. cbn [ProvModel.set_data ProvModel.o_exists]. rewrite Hl. apply live_get_set.
Qed.

Lemma user_delete_pres used lvL lvR g w (sd : bool) rel cs :
  Inv g w -> NoTmp w -> Dom used lvL lvR g w ->
  live_get rel (if sd then lvR else lvL) = Some cs ->
  exists g', Inv g' (user_op w sd (UDelete rel)) /\ NoTmp (user_op w sd (UDelete rel)) /\
    (forall k, g_get k (g_of g' (negb sd)) = g_get k (g_of g (negb sd))) /\
    Dom used (if sd then lvL else live_del rel lvL) (if sd then live_del rel lvR else lvR) g' (user_op w sd (UDelete rel)).
Proof.
  intros I T D Hlive.
  destruct (user_find used lvL lvR g w sd rel cs I D Hlive) as (n & k & ob & -> & Hob & Hl & Hp & Hg & Hinfo & Hoid & Hkf & Hnok & Hu).
  destruct (delete_spec _ k ob (i_pwf I sd) Hob Hl Hkf) as (p' & Edel & CP).
  assert (Hw': user_op w sd (UDelete [n]) = with_prov w sd p').
  { unfold user_op. rewrite Hinfo. cbn [ProvModel.info_of ProvModel.i_oid]. rewrite Hoid, Edel. reflexivity. }
  rewrite Hw'. exists (g_set g sd k cs).
  destruct (i_ghost I sd k cs Hg) as (_ & ob0 & r & Hob0 & Hcsr). assert (ob0 = ob) by congruence. subst ob0.
  apply (user_cell_pres used used lvL lvR (live_del [n]) g w sd k n (ProvModel.set_exists ob false) cs p'
           _ I T D CP Hkf Hp Hnok); [exists r; exact Hcsr| |auto|exact Hu|].
  - right. exists ob, cs. repeat (split; [assumption|]). left. split; reflexivity.
  - intros l rel. apply live_get_del.
Qed.

Lemma new_leaf_1 used rel : new_leaf 1 used [] rel = true -> exists n, rel = [n] /\ name_ok n = true /\ name_mem n used = false.
Proof.
  unfold new_leaf. destruct rel as [|a r]; [discriminate|]. intros H.
  apply andb_prop in H as [H Hd]. apply andb_prop in H as [Hn Hu]. apply negb_true_iff in Hu.
  destruct r as [|b r'].
  - exists a. auto.
  - exfalso. unfold dir_ok in Hd. change (removelast (a :: b :: r')) with (a :: removelast (b :: r')) in Hd. simpl in Hd. discriminate.
Qed.

Lemma NoTmp_init c t0 lg0 : NoTmp (world_init c t0 lg0).
Proof. intros e sd. unfold getx, world_init. cbn [w_x]. destruct e as [|[|e]]; destruct sd; try reflexivity; destruct e; reflexivity. Qed.

Lemma Dom_init c t0 lg0 : Dom [] [] [] g0 (world_init c t0 lg0).
Proof.
  constructor; [intros sd rel cs H; destruct sd; discriminate|intros sd k cs H; destruct sd; discriminate| |].
  - intros sd k cs sd' k' cs' ob ob' H. destruct sd; discriminate.
  - intros sd k cs ob H. destruct sd; discriminate.
Qed.

(* the bookkeeping of AlgoModel.in_F_from (used, lvL, lvR) after one operation (level 1: rename and mkdir are out of the
   fragment and leave it alone) *)
Definition book_step (used : list ProvModel.name) (lvL lvR : list (ProvModel.path * list N)) (sd : bool) (o : uop)
  : list ProvModel.name * list (ProvModel.path * list N) * list (ProvModel.path * list N) :=
  let lv := if sd then lvR else lvL in
  let put (u : list ProvModel.name) lv' := (u, if sd then lvL else lv', if sd then lv' else lvR) in
  match o with
  | UCreate rel d => put (leaf rel :: used) ((rel, [d]) :: lv)
  | UWrite rel d => match live_get rel lv with Some cs => put used ((rel, d :: cs) :: live_del rel lv) | None => (used, lvL, lvR) end
  | UDelete rel => put used (live_del rel lv)
  | _ => (used, lvL, lvR)
  end.

Lemma user_step_pres used lvL lvR g w sd o r used' lvL' lvR' :
  Inv g w -> NoTmp w -> Dom used lvL lvR g w ->
  in_F_from 1 used lvL lvR [] [] ((sd, o) :: r) = true ->
  book_step used lvL lvR sd o = (used', lvL', lvR') ->
  exists g', Inv g' (user_op w sd o) /\ NoTmp (user_op w sd o) /\
    (forall k, g_get k (g_of g' (negb sd)) = g_get k (g_of g (negb sd))) /\
    Dom used' lvL' lvR' g' (user_op w sd o) /\ in_F_from 1 used' lvL' lvR' [] [] r = true.
Proof.
  intros I T D HF E.
  (* the side only selects which list of in_F_from is rewritten *)
  assert (Hgo: forall u lv', (if sd then in_F_from 1 u lvL lv' [] [] r else in_F_from 1 u lv' lvR [] [] r) =
                             in_F_from 1 u (if sd then lvL else lv') (if sd then lv' else lvR) [] [] r) by (destruct sd; reflexivity).
  assert (Hds: (if sd then @nil ProvModel.path else []) = []) by (destruct sd; reflexivity).
  destruct o as [rel d|rel d|rel|rel rel2|rel]; cbn [in_F_from book_step] in HF, E; rewrite ?Hds, ?Hgo in HF; try discriminate.
  - apply andb_prop in HF as [Hnl HF]. destruct (new_leaf_1 _ _ Hnl) as (n & -> & Hnok & Hnew). injection E as <- <- <-.
    destruct (user_create_pres used lvL lvR g w sd n d I T D Hnok Hnew) as (g1 & I1 & T1 & G1 & D1). destruct sd; eauto 6.
  - destruct (live_get rel (if sd then lvR else lvL)) as [cs|] eqn:El; [|discriminate].
    apply andb_prop in HF as [Hf HF]. apply negb_true_iff in Hf. injection E as <- <- <-.
    destruct (user_write_pres used lvL lvR g w sd rel d cs I T D El Hf) as (g1 & I1 & T1 & G1 & D1). destruct sd; eauto 6.
  - destruct (live_get rel (if sd then lvR else lvL)) as [cs|] eqn:El; [|discriminate]. injection E as <- <- <-.
    destruct (user_delete_pres used lvL lvR g w sd rel cs I T D El) as (g1 & I1 & T1 & G1 & D1). destruct sd; eauto 6.
Qed.

Theorem run_inv : forall acts used lvL lvR g w w',
  Inv g w -> NoTmp w -> Dom used lvL lvR g w ->
  in_F_from 1 used lvL lvR [] [] (history_of acts) = true ->
  algo_run w acts = ROk w' -> exists g', Inv g' w' /\ NoTmp w'.
Proof.
  induction acts as [|a r IH]; intros used lvL lvR g w w' I T D HF H.
  - simpl in H. injection H as <-. exists g. auto.
  - simpl in H. destruct (algo_step w a) as [[w1 cs1]|c] eqn:Es; [|discriminate]. cbn [rbind] in H.
    destruct a as [sd o|sd clk|order clk].
    (* an engine action (cases 2, 3) is not a user's: engine_step_pres *)
    2, 3: apply (engine_step_pres g) in Es as (I1 & T1 & O1); [|exact I|exact T|intros; discriminate];
      apply (IH used lvL lvR g w1 w' I1 T1 (Dom_frame _ _ _ _ _ _ O1 D) HF H).
    simpl in Es. injection Es as <- <-. change (history_of (AUser sd o :: r)) with ((sd, o) :: history_of r) in HF.
    destruct (book_step used lvL lvR sd o) as [[used1 lvL1] lvR1] eqn:Eb.
    destruct (user_step_pres used lvL lvR g w sd o _ used1 lvL1 lvR1 I T D HF Eb) as (g1 & I1 & T1 & _ & D1 & HF1).
    apply (IH _ _ _ g1 _ w' I1 T1 D1 HF1 H).
Qed.

(* every world an in-domain history reaches, under every schedule, satisfies the coupling invariant *)
Theorem algo_inv_reachable t0 lg0 acts w :
  lg0 <= t0 + 1 -> in_F1 (cfg_std 1) (history_of acts) = true ->
  algo_run (world_init (cfg_std 1) t0 lg0) acts = ROk w -> exists g, Inv g w /\ NoTmp w.
Proof.
  intros Hlg HF H. unfold in_F1, in_F in HF. cbn in HF.
  apply (run_inv acts [] [] [] g0 _ w (init_inv t0 lg0 Hlg) (NoTmp_init _ _ _) (Dom_init _ _ _) HF H).
Qed.

(* ... and when it is quiescent, both sides hold the same tree *)
Theorem algo_quiescent_equal t0 lg0 acts w :
  lg0 <= t0 + 1 -> in_F1 (cfg_std 1) (history_of acts) = true ->
  algo_run (world_init (cfg_std 1) t0 lg0) acts = ROk w -> quiescent w = true ->
  forall rel kd d, In (rel, (kd, d)) (rel_view w false) <-> In (rel, (kd, d)) (rel_view w true).
Proof.
  intros Hlg HF H Hq. destruct (algo_inv_reachable t0 lg0 acts w Hlg HF H) as (g & I & _).
  apply (inv_quiescent_equal g w I Hq).
Qed.
