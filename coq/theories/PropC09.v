(* PropC09.v — property theorems for C09 (storage back ends behave as a durable, tag-isolated map of rows).
   Each is followed by Print Assumptions; Examples show the hypotheses are satisfiable.  Models and
   specification: StoreModel.v; the refinement of both back ends and the lemmas used here: StoreProofs.v.

   [wf_sq T] (ids pairwise different: the PRIMARY KEY constraint) holds for the empty table and is preserved by
   every call, so it holds for every table the code can produce.  Atomicity of a call (the mutex in __db_execute, which since the repository's `fix:` commit
   637ed7d also covers fetching the rows; autocommit) is an assumption about the runtime: a call is one
   step of the model. *)
From Coq Require Import NArith List Bool Permutation.
From CS Require Import Sx Str ListFacts StoreModel StoreProofs.
Import ListNotations.

Theorem C09_spec_map_laws : forall s k k' b,
  sp_get (sp_set k b s) k' = (if key_eqb k k' then Some b else sp_get s k') /\
  sp_get (sp_del k s) k' = (if key_eqb k k' then None else sp_get s k') /\
  (key_eqb k k' = true <-> k = k').
Proof. exact (fun s k k' b => conj (sp_get_set k b k' s) (conj (sp_get_del k k' s) (key_eqb_eq k k'))). Qed.
Print Assumptions C09_spec_map_laws.

(* one call: the result, exactly as returned, is one the map allows, and the abstraction commutes *)
Theorem C09_store_refines_step : forall T o, wf_sq T ->
  wf_sq (snd (sq_step T o)) /\
  exists s', sp_ok (abs_sq T) o (fst (sq_step T o)) s' /\ sp_equiv s' (abs_sq (snd (sq_step T o))).
Proof. exact sq_step_refines. Qed.
Print Assumptions C09_store_refines_step.

(* every call sequence (incl. close/reopen), from every well-formed table, results taken as they are
   ([view_raw] is the identity) *)
Theorem C09_store_refines : forall ops T, wf_sq T ->
  exists s', sp_trace (abs_sq T) (history view_raw ops (fst (run_ops sq_step T ops))) s' /\
             sp_equiv s' (abs_sq (snd (run_ops sq_step T ops))) /\
             wf_sq (snd (run_ops sq_step T ops)).
Proof.
  intros ops T WF. apply (sim_run sq_step abs_sq wf_sq view_raw (fun _ => True) (fun T o WF _ => sq_step_refines T o WF)).
  - exact WF.
  - apply Forall_forall. intros; exact I.
  - apply sp_equiv_refl.
Qed.
Print Assumptions C09_store_refines.

(* create returns an id that no live row uses — of any tag — and adds exactly that row *)
Theorem C09_create_fresh : forall T t b, wf_sq T ->
  exists i, sq_step T (Create t b) = (RId i, T ++ [(i, t, b)]) /\ forall t' b', ~ In (i, t', b') T.
Proof.
  intros T t b WF. exists (sq_next T). split; [reflexivity|].
  intros t' b' H. apply (sq_next_fresh T). apply (in_map row_id) in H. exact H.
Qed.
Print Assumptions C09_create_fresh.

(* read returns the value of the last acknowledged write (create or update) of that tag and id, whatever
   calls came in between — other tags, other ids, creates, reads, close/reopen — as long as none of them
   updates or deletes that very (tag, id) *)
Theorem C09_read_last_write : forall T w t b i ops, wf_sq T ->
  (w = Create t b /\ fst (sq_step T w) = RId i) \/ (w = Update t b i /\ fst (sq_step T w) = RCount 1) ->
  Forall (fun o => touches (t, i) o = false) ops ->
  fst (sq_step (snd (run_ops sq_step (snd (sq_step T w)) ops)) (Read t i)) = RBytes b.
Proof.
  intros T w t b i ops WF Hw HF. destruct (C09_store_refines_step T w WF) as [WF1 [s' [Hok He]]].
  apply sq_read_live, sq_untouched_run; [exact WF1 | exact HF|].
  rewrite <- He. exact (sp_ok_written _ _ _ _ _ _ _ Hok Hw).
Qed.
Print Assumptions C09_read_last_write.

(* update of a missing row is an error and changes nothing — also when the id is live under another tag *)
Theorem C09_update_missing_err : forall T t b i,
  (forall b0, ~ In (i, t, b0) T) -> sq_step T (Update t b i) = (RErr EValue, T).
Proof.
  intros T t b i H. apply no_row_filter in H. cbn [sq_step]. rewrite H, (upd_noop _ _ _ _ H). reflexivity.
Qed.
Print Assumptions C09_update_missing_err.

(* update of a live row answers rowcount 1 *)
Theorem C09_update_live : forall T t b i b0, wf_sq T -> In (i, t, b0) T -> fst (sq_step T (Update t b i)) = RCount 1.
Proof.
  intros T t b i b0 WF Hin. apply (live_iff _ _ _ _ WF) in Hin.
  destruct (C09_store_refines_step T (Update t b i) WF) as [_ [s' [Hok _]]].
  (* the map allows RCount 1 on a live key and the error only on a missing one *)
  inversion Hok; [symmetry; assumption | congruence].
Qed.
Print Assumptions C09_update_live.

(* delete is idempotent (second delete: same table, no error) and the row reads as nothing afterwards *)
Theorem C09_delete_idem : forall T t i,
  sq_step (snd (sq_step T (Delete t i))) (Delete t i) = (RNone, snd (sq_step T (Delete t i))) /\
  fst (sq_step (snd (sq_step T (Delete t i))) (Read t i)) = RNone.
Proof.
  intros T t i. cbn [sq_step fst snd]. split.
  - rewrite filter_sub by auto. reflexivity.
  - rewrite (filter_nil (where_id_tag i t)); [reflexivity|].
    intros r Hr. apply filter_In in Hr as [_ Hr]. apply negb_true_iff, Hr.
Qed.
Print Assumptions C09_delete_idem.

(* read_all(tag) is a dict holding exactly the live rows of the tag *)
Theorem C09_read_all_exact : forall T t, wf_sq T ->
  exists d, fst (sq_step T (ReadAll (Some t))) = RDict d /\ is_dict d /\
            forall i b, In (i, b) d <-> In (i, t, b) T.
Proof.
  intros T t WF. destruct (C09_store_refines_step T (ReadAll (Some t)) WF) as [_ [s' [Hok _]]].
  inversion Hok as [| | | | | |? ? Hd Hget| |]. eexists. split; [reflexivity|]. split; [exact Hd|].
  intros i b. rewrite <- (dict_get_in N.eqb N.eqb_eq) by exact Hd. rewrite Hget. apply live_iff, WF.
Qed.
Print Assumptions C09_read_all_exact.

(* read_all() is a dict of dicts holding exactly the live rows of all tags *)
Theorem C09_read_all_tags_exact : forall T, wf_sq T ->
  exists g, fst (sq_step T (ReadAll None)) = RDictAll g /\ is_dict g /\ (forall t d, In (t, d) g -> is_dict d) /\
            forall t i b, dd_get g t i = Some b <-> In (i, t, b) T.
Proof.
  intros T WF. destruct (C09_store_refines_step T (ReadAll None) WF) as [_ [s' [Hok _]]].
  inversion Hok as [| | | | | | |? Hg Hd Hget|]. eexists. split; [reflexivity|]. split; [exact Hg|]. split; [exact Hd|].
  intros t i b. rewrite Hget. apply live_iff, WF.
Qed.
Print Assumptions C09_read_all_tags_exact.

(* a call that does not name tag t' — whatever id it names — leaves read_all(t') and every read(t', i) unchanged *)
Theorem C09_tag_isolation : forall T o t', op_tag o <> Some t' ->
  fst (sq_step (snd (sq_step T o)) (ReadAll (Some t'))) = fst (sq_step T (ReadAll (Some t'))) /\
  forall i, fst (sq_step (snd (sq_step T o)) (Read t' i)) = fst (sq_step T (Read t' i)).
Proof.
  intros T o t' Hne. split; [|intros i]; cbn [sq_step fst]; rewrite (sq_filter_other_tag T o t'); try reflexivity; try exact Hne.
  - intros r H. apply where_tag_true, H.
  - intros r H. apply where_id_tag_true in H. tauto.
Qed.
Print Assumptions C09_tag_isolation.

(* close + reopen is the identity on the table (what SQLite keeps on disk is not modelled: see the check) *)
Theorem C09_reopen_id : forall T, sq_step T Reopen = (RUnit, T).
Proof. reflexivity. Qed.
Print Assumptions C09_reopen_id.

(* n threads, each a list of calls; every interleaving of whole calls: all calls are in the schedule, the
   history is a legal map history in schedule order (so every create got an id no live row of its tag
   had), ids in the final table are pairwise different, the final table is exactly the acknowledged
   writes applied in schedule order (no write lost, none invented), and without deletes all created ids
   are pairwise different. *)
Theorem C09_serial_no_lost_write : forall (progs : list (list op)) (sched : list op) T,
  interleaving progs sched -> wf_sq T ->
  let rs := fst (run_ops sq_step T sched) in
  let T' := snd (run_ops sq_step T sched) in
  Permutation (concat progs) sched /\
  (exists s', sp_trace (abs_sq T) (history view_raw sched rs) s' /\ sp_equiv s' (abs_sq T')) /\
  wf_sq T' /\
  sp_equiv (fold_left apply_ack (history view_raw sched rs) (abs_sq T)) (abs_sq T') /\
  (Forall (fun o => is_delete o = false) sched -> NoDup (created_ids sched rs)).
Proof.
  intros progs sched T HI WF. cbn zeta.
  destruct (C09_store_refines sched T WF) as [s' [Htr [He WF']]].
  split; [apply interleaving_perm; exact HI|].
  split; [exists s'; split; assumption|].
  split; [exact WF'|]. split; [|apply sq_created_nodup, WF'].
  eapply sp_equiv_trans; [|exact He]. eapply sp_trace_apply_ack; [exact Htr | apply sp_equiv_refl].
Qed.
Print Assumptions C09_serial_no_lost_write.

(* full strength (read's ValueError already forgiven): every sequence incl. "new instance over the same dict" *)
Definition mock_refines_full : Prop :=
  forall ops, exists s', sp_trace [] (history unraise ops (fst (run_ops m_step m_init ops))) s'.

(* false: create('t', b1); MockStorage(same dict); create('t', b2) -> id 0 again, live row overwritten *)
Theorem C09_mock_refines_refuted : ~ mock_refines_full.
Proof.
  intros H. destruct (H [Create [116%N] [1%N]; Reopen; Create [116%N] [2%N]]) as [s' Htr]. vm_compute in Htr.
  inversion Htr as [|? ? ? ? ? ? Hok1 Htr1]; subst.
  inversion Htr1 as [|? ? ? ? ? ? Hok2 Htr2]; subst.
  inversion Htr2 as [|? ? ? ? ? ? Hok3 Htr3]; subst.
  inversion Hok1; subst. inversion Hok2; subst.
  inversion Hok3 as [? ? ? Hnone| | | | | | | |]; subst.
  vm_compute in Hnone. discriminate.
Qed.
Print Assumptions C09_mock_refines_refuted.

Definition mock_read_total : Prop :=
  forall ops, Forall (fun o => o <> Reopen) ops ->
  exists s', sp_trace [] (history view_raw ops (fst (run_ops m_step m_init ops))) s'.

(* false: read('t', 0) on an empty store raises ValueError instead of returning None *)
Theorem C09_mock_read_missing_refuted : ~ mock_read_total.
Proof.
  intros H. destruct (H [Read [116%N] 0%N]) as [s' Htr]; [repeat constructor; discriminate|].
  vm_compute in Htr. inversion Htr as [|? ? ? ? ? ? Hok1 Htr1]; subst. inversion Hok1.
Qed.
Print Assumptions C09_mock_read_missing_refuted.

(* one instance (no Reopen), read's ValueError read as "nothing": MockStorage refines the map *)
Theorem C09_mock_refines_partial : forall ops m, inv_m m -> Forall (fun o => o <> Reopen) ops ->
  exists s', sp_trace (abs_m m) (history unraise ops (fst (run_ops m_step m ops))) s' /\
             sp_equiv s' (abs_m (snd (run_ops m_step m ops))) /\ inv_m (snd (run_ops m_step m ops)).
Proof.
  intros ops m HI HD. apply (sim_run m_step abs_m inv_m unraise (fun o => o <> Reopen)).
  - intros c o Hc Ho. apply m_step_refines; assumption.
  - exact HI.
  - exact HD.
  - apply sp_equiv_refl.
Qed.
Print Assumptions C09_mock_refines_partial.

(* read_all(t') is isolated from other tags for MockStorage unconditionally, ids coinciding across tags included *)
Theorem C09_mock_tag_isolation : forall m o t', op_tag o <> Some t' ->
  fst (m_step (snd (m_step m o)) (ReadAll (Some t'))) = fst (m_step m (ReadAll (Some t'))).
Proof.
  (* read_all(t') answers the inner dict of t'; a method naming another tag does its setdefault and at most
     replaces the inner dict of that tag *)
  intros m o t' Hne. cbn [m_step fst]. rewrite !md_inner_default. f_equal.
  destruct o as [t b|t b i|t i|t i|[t|]|]; cbn [m_step op_tag] in *;
    try destruct (dict_get N.eqb i _); cbn [snd m_dict];
    rewrite ?md_inner_put, ?md_inner_default by congruence; reflexivity.
Qed.
Print Assumptions C09_mock_tag_isolation.

Definition tA : tag := [97%N].      (* "a" *)
Definition tB : tag := [65%N].      (* "A" *)

Example wf_empty : wf_sq [].
Proof. constructor. Qed.

(* a reachable three-row table over two tags; the id of the deleted last row (3) was handed out again *)
Example reachable_table :
  snd (run_ops sq_step [] [Create tA [1%N]; Create tB []; Create tA [255%N]; Delete tA 3%N; Create tB [7%N]])
  = [(1%N, tA, [1%N]); (2%N, tB, []); (3%N, tB, [7%N])].
Proof. vm_compute. reflexivity. Qed.

Example wf_reachable : wf_sq [(1%N, tA, [1%N]); (2%N, tB, []); (3%N, tB, [7%N])].
Proof.
  rewrite <- reachable_table.
  destruct (C09_store_refines [Create tA [1%N]; Create tB []; Create tA [255%N]; Delete tA 3%N; Create tB [7%N]] [] wf_empty)
    as [s' [_ [_ W]]]. exact W.
Qed.

(* read_last_write's hypotheses: an acknowledged update followed by calls on the same id under another tag *)
Example read_last_write_inst :
  fst (sq_step [(1%N, tA, [1%N]); (2%N, tB, []); (3%N, tB, [7%N])] (Update tB [9%N] 3%N)) = RCount 1 /\
  Forall (fun o => touches (tB, 3%N) o = false) [Delete tA 3%N; Update tB [0%N] 2%N; Reopen; Create tA []].
Proof. split; [vm_compute; reflexivity | repeat constructor]. Qed.

(* tag isolation with coinciding ids: update('a', .., 3) where 3 is live under 'A' -> ValueError, 'A' untouched *)
Example isolation_inst :
  sq_step [(1%N, tA, [1%N]); (2%N, tB, []); (3%N, tB, [7%N])] (Update tA [9%N] 3%N)
  = (RErr EValue, [(1%N, tA, [1%N]); (2%N, tB, []); (3%N, tB, [7%N])]).
Proof. vm_compute. reflexivity. Qed.

Example interleaving_inst :
  interleaving [[Create tA [1%N]; Read tA 1%N]; [Create tB [2%N]]] [Create tA [1%N]; Create tB [2%N]; Read tA 1%N].
Proof.
  apply (il_step [] (Create tA [1%N]) [Read tA 1%N] [[Create tB [2%N]]]).
  apply (il_step [[Read tA 1%N]] (Create tB [2%N]) [] []).
  apply (il_step [] (Read tA 1%N) [] [[]]).
  apply il_done. repeat constructor.
Qed.

Example inv_m_empty : inv_m m_init.
Proof. split; [apply wf_dd_nil | intros t i b H; discriminate]. Qed.

(* SqliteStorage.read of a missing id answers None where MockStorage raises *)
Example sqlite_read_inst :
  fst (run_ops sq_step [] [Create tA [1%N]; Read tA 1%N; Read tA 2%N]) = [RId 1; RBytes [1%N]; RNone].
Proof. vm_compute. reflexivity. Qed.

(* the witnesses of the two refutations, as the MockStorage model computes them *)
Example mock_reissue_witness :
  fst (run_ops m_step m_init [Create tA [1%N]; Reopen; Create tA [2%N]; Read tA 0%N; Read tA 5%N])
  = [RId 0; RUnit; RId 0; RBytes [2%N]; RErr EValue].
Proof. vm_compute. reflexivity. Qed.
