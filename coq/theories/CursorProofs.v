(* CursorProofs.v — the cursor acceptor keeps the invariant cinv, and cinv makes every restart resume-safe:
   no restart skips an event that is not reflected in storage. *)
From Coq Require Import Arith NArith List Bool Lia.
From CS Require Import CursorModel.
Import ListNotations.

Lemma cinv_init : cinv cinit.
Proof. unfold cinv, cinit; simpl. split; [lia|]. intros c Hc. discriminate. Qed.

Lemma cinv_step s a s' : cinv s -> cstep s a = Some s' -> cinv s'.
Proof.
  unfold cinv. intros (Ha & Hs) H. destruct a as [|e|c| | | |]; simpl in H.
  - (* CNew *) injection H as <-; simpl. split; [lia|]. intros c Hc. destruct (Hs c Hc). split; [lia|assumption].
  - (* CApplied *) destruct (Nat.leb_spec e (latest s)) as [Hle|]; [|discriminate]. injection H as <-; simpl.
    destruct (Nat.eqb_spec e (S (applied s))); (split; [lia|]); [|exact Hs].
    intros c Hc. destruct (Hs c Hc) as [H1 H2]. split; [exact H1|]. destruct H2; [left; lia|right; assumption].
  - (* CStore: the guard is the invariant of the new cursor *)
    destruct (_ && _) eqn:G; [|discriminate]. injection H as <-; simpl.
    apply andb_true_iff in G as [G1 G2]. apply Nat.leb_le in G1. split; [lia|]. intros c' [= <-]. split; [exact G1|].
    apply orb_true_iff in G2 as [G2|G2]; [left; now apply Nat.leb_le|right].
    apply andb_true_iff in G2 as [_ G2]. now apply negb_true_iff.
  - (* CWalk *) destruct (need_walk s); [|discriminate]. injection H as <-; simpl. unfold stored_or0.
    destruct (stored s) as [c0|]; [|split; [lia|discriminate]].
    destruct (Hs c0 eq_refl). split; [lia|]. intros c [= <-]. split; [assumption|left; lia].
  - (* CRestart *) injection H as <-; simpl. auto.
  - (* CLoseCursor *) injection H as <-; simpl. split; [exact Ha|discriminate].
  - (* CReset *) injection H as <-; simpl. split; [exact Ha|]. intros c Hc. destruct (Hs c Hc). auto.
Qed.

Lemma cinv_run l : forall s i s', cinv s -> crun s l i = inl s' -> cinv s'.
Proof.
  induction l as [|a r IH]; simpl; intros s i s' Hi H.
  - inversion H; subst. exact Hi.
  - destruct (cstep s a) as [s1|] eqn:Hs; [|discriminate]. eapply IH; [|exact H]. eapply cinv_step; eassumption.
Qed.

Lemma crun_cinv l s : crun cinit l 0 = inl s -> cinv s.
Proof. exact (cinv_run l cinit 0 s cinv_init). Qed.

(* resume-safe: no existing event is both unreflected and skipped, unless a full walk is pending (which re-discovers
   every object that still exists) *)
Lemma cinv_restart_safe s s' : cinv s -> cstep s CRestart = Some s' -> resume_safe s'.
Proof.
  intros (Ha & Hst) Hs. injection Hs as <-. unfold resume_safe, stored_or0; simpl.
  intros e He. destruct (stored s) as [c|] eqn:Hc; [|now right; right].
  destruct (Hst c eq_refl) as [_ [H|H]]; [|right; right; now rewrite H].
  destruct (le_lt_dec e c); [left; lia|right; left; assumption].
Qed.

(* C06: so it is after every accepted sequence of cursor actions, arbitrary restarts and lost or rejected cursors
   included *)
Theorem restart_never_skips l s :
  crun cinit l 0 = inl s ->
  forall s', cstep s CRestart = Some s' -> resume_safe s'.
Proof. intros Hr s'. apply cinv_restart_safe, (crun_cinv l s Hr). Qed.

Theorem stored_cursor_never_ahead l s c :
  crun cinit l 0 = inl s -> stored s = Some c -> c <= applied s \/ walked s = false.
Proof. intros Hr Hc. apply (crun_cinv l s Hr), Hc. Qed.

Theorem walk_covers s s' :
  cstep s CWalk = Some s' -> stored_or0 s' <= applied s' /\ need_walk s' = false /\ walked s' = true.
Proof.
  simpl. destruct (need_walk s); [|discriminate]. intros H; inversion H; subst; simpl.
  unfold stored_or0; simpl. repeat split; lia.
Qed.

(* the behaviour before fix 3f7683c (cursor reset without dropping the 'walked' marker) is rejected:
   event 1 applied and stored, two more events, the cursor is lost, restart, the engine stores the latest cursor *)
Example legacy_reset_rejected :
  crun cinit [CNew; CStore 0; CWalk; CApplied 1; CStore 1; CNew; CNew; CLoseCursor; CRestart; CStore 3] 0 = inr 9.
Proof. vm_compute. reflexivity. Qed.

Example fixed_reset_accepted :
  exists s, crun cinit [CNew; CStore 0; CWalk; CApplied 1; CStore 1; CNew; CNew; CLoseCursor; CRestart;
                        CReset; CStore 3; CRestart; CWalk] 0 = inl s /\ applied s = 3.
Proof. eexists. vm_compute. split; reflexivity. Qed.
