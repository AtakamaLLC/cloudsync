(* SmartProofs.v — C20: theorems about the GATE layer of SmartModel.v (the mechanism of cloudsync/smartsync.py),
   for ALL entry tables, request / exclude sets, provider contents (local objects, remote objects by id) and
   auto-sync predicates.  SmartSpecProofs.v, SmartMonProofs.v and PropC20.v also take from here [is_file_iff],
   [isnone_iff], the path sets [pmem_*] and the tactic [guards]. *)
From Coq Require Import NArith List Bool.
From CS Require Import Sx TreeModel TreePaths SmartModel.
Import ListNotations.

Lemma is_file_iff t p : is_file t p = true <-> exists c, lookup t p = Some (File c).
Proof.
  unfold is_file. destruct (lookup t p) as [[|c]|]; split; try discriminate; try (intros [c' H]; discriminate);
    [exists c|]; reflexivity.
Qed.
Lemma isnone_iff {T} (o : option T) : isnone o = true <-> o = None.
Proof. destruct o; simpl; split; intros H; congruence. Qed.

Lemma pmem_In p l : pmem p l = true <-> In p l.
Proof. exact (existsb_eqb_In path_eqb path_eqb_eq p l). Qed.
Lemma pmem_padd p q l : pmem p (padd q l) = path_eqb q p || pmem p l.
Proof.
  unfold padd. rewrite (path_eqb_sym q p). destruct (pmem q l) eqn:Hq; [|reflexivity].
  destruct (path_eqb p q) eqn:E; [|reflexivity].
  apply path_eqb_eq in E. subst. simpl. exact Hq.
Qed.
Lemma pmem_pdel p q l : pmem p (pdel q l) = negb (path_eqb q p) && pmem p l.
Proof.
  apply eq_true_iff_eq. unfold pdel. rewrite andb_true_iff, !pmem_In, filter_In. tauto.
Qed.

Lemma kmem_In k l : kmem k l = true <-> In k l.
Proof. exact (existsb_eqb_In N.eqb N.eqb_eq k l). Qed.
Lemma kmem_app k a b : kmem k (a ++ b) = kmem k a || kmem k b.
Proof. unfold kmem. apply existsb_app. Qed.
Lemma kmem_kadd k q l : kmem k (kadd q l) = N.eqb q k || kmem k l.
Proof.
  unfold kadd. rewrite (N.eqb_sym q k). destruct (kmem q l) eqn:Hq.
  - destruct (N.eqb k q) eqn:E; [|reflexivity]. apply N.eqb_eq in E. subst. simpl. exact Hq.
  - rewrite kmem_app. simpl. rewrite orb_false_r. apply orb_comm.
Qed.
Lemma kmem_kdel k q l : kmem k (kdel q l) = negb (N.eqb q k) && kmem k l.
Proof.
  apply eq_true_iff_eq. unfold kdel. rewrite andb_true_iff, !kmem_In, filter_In. tauto.
Qed.

(* The step functions of SmartModel are cascades of guards ([if], [match] on an option or a node) ending in results.
   [guards H], for H : cascade = v, stands for: [destruct g eqn:?] on the outermost guard g of the cascade, then
   [try discriminate H], repeated until the left side of H begins with no guard.  It leaves one goal for each result
   that can equal v, with the equations of the guards passed in the context. *)
Ltac guards H :=
  repeat match type of H with
         | (if ?c then _ else _) = _ => destruct c eqn:?; try discriminate H
         | match ?c with Some _ => _ | None => _ end = _ => destruct c eqn:?; try discriminate H
         | match ?c with Dir => _ | File _ => _ end = _ => destruct c eqn:?; try discriminate H
         end.

Lemma find_ent_key l k e : find_ent l k = Some e -> g_key e = k.
Proof.
  induction l as [|x l IH]; simpl; [discriminate|].
  destruct (N.eqb (g_key x) k) eqn:E; [|exact IH].
  intros H. inversion H; subst. apply N.eqb_eq. exact E.
Qed.
Lemma find_put_other l e k : g_key e <> k -> find_ent (put_ent l e) k = find_ent l k.
Proof.
  intros Hne. induction l as [|x l IH]; simpl; [reflexivity|].
  destruct (N.eqb (g_key x) (g_key e)) eqn:E.
  - apply N.eqb_eq in E. destruct (N.eqb (g_key e) k) eqn:E2; [apply N.eqb_eq in E2; contradiction|].
    rewrite E. rewrite E2. exact IH.
  - destruct (N.eqb (g_key x) k); [reflexivity|exact IH].
Qed.
Lemma find_put_key l e e0 k : g_key e = k -> find_ent l k = Some e0 -> find_ent (put_ent l e) k = Some e.
Proof.
  intros <-. induction l as [|x l IH]; simpl; [discriminate|].
  destruct (N.eqb (g_key x) (g_key e)) eqn:E; [rewrite N.eqb_refl; reflexivity|rewrite E; exact IH].
Qed.

(* all that the filter reads of a state about one key, and all that it changes there *)
Definition kview (st : gst) (k : N) : option gent * bool * bool :=
  (find_ent (g_ents st) k, kmem k (g_req st), kmem k (g_exc st)).

Lemma state_request_other w st e k : g_key e <> k -> kview (g_state_request w st e) k = kview st k.
Proof.
  intros Hne. unfold g_state_request. destruct (g_dir e); [reflexivity|].
  unfold kview, g_state_request_legacy; cbn [g_ents g_req g_exc].
  rewrite kmem_kadd, kmem_kdel, (proj2 (N.eqb_neq _ _) Hne), find_put_other; [reflexivity|].
  destruct (match g_path (g_loc e) with Some p => _ | None => false end); exact Hne.
Qed.

Section GateThms.
Variable auto : path -> bool.
Variable w : gworld.

(* the three tests of SmartSyncState._changeset (its loop, _changeset_locked) on one entry of the stored change set *)
Definition skipped (st : gst) (k : N) (e : gent) : bool := kmem k (g_exc st) && negb (g_changed (g_loc e)).
Definition due (st : gst) (k : N) (e : gent) : bool :=
  kmem k (g_req st) || g_dir e || ((g_changed (g_rem e) || g_changed (g_loc e)) && negb (g_latest e)).
Definition matched (e : gent) : bool := match g_path (g_rem e) with Some p => auto p | None => false end.
Definition offered_entry (st : gst) (k : N) (e : gent) : bool :=
  negb (skipped st k e) && (due st k e || (isnone (g_oid (g_loc e)) && matched e)).
Definition offered_key (st : gst) (k : N) : bool :=
  match find_ent (g_ents st) k with Some e => offered_entry st k e | None => false end.

Lemma matched_false e : match g_path (g_rem e) with Some p => auto p = false | None => True end -> matched e = false.
Proof. unfold matched. destruct (g_path (g_rem e)); auto. Qed.

Lemma offered_key_kview st st' k : kview st' k = kview st k -> offered_key st' k = offered_key st k.
Proof. unfold kview, offered_key, offered_entry, skipped, due. intros [= -> -> ->]. reflexivity. Qed.

Lemma offer_one_eq st out k e :
  find_ent (g_ents st) k = Some e ->
  offer_one auto w (st, out) k =
  if offered_entry st k e then ((if due st k e then st else g_state_request w st e), out ++ [k]) else (st, out).
Proof.
  intros Hf. unfold offer_one, offered_entry, skipped, due, matched. rewrite Hf.
  destruct (kmem k (g_exc st) && negb (g_changed (g_loc e))); simpl; [reflexivity|].
  destruct (kmem k (g_req st)); simpl; [reflexivity|].
  destruct (g_dir e); simpl; [reflexivity|].
  destruct ((g_changed (g_rem e) || g_changed (g_loc e)) && negb (g_latest e)); simpl; [reflexivity|].
  destruct (isnone (g_oid (g_loc e))); simpl; [|reflexivity].
  destruct (g_path (g_rem e)) as [p|]; [|reflexivity].
  destruct (auto p); reflexivity.
Qed.

Lemma offer_one_out st out k : snd (offer_one auto w (st, out) k) = if offered_key st k then out ++ [k] else out.
Proof.
  unfold offered_key. destruct (find_ent (g_ents st) k) as [e|] eqn:Hf; [|unfold offer_one; rewrite Hf; reflexivity].
  rewrite (offer_one_eq st out k e Hf). destruct (offered_entry st k e); reflexivity.
Qed.

Lemma offer_one_state acc k :
  fst (offer_one auto w acc k) = fst acc \/
  exists e, find_ent (g_ents (fst acc)) k = Some e /\ offered_key (fst acc) k = true /\ matched e = true /\
            fst (offer_one auto w acc k) = g_state_request w (fst acc) e.
Proof.
  destruct acc as [st out]. cbn [fst]. unfold offered_key.
  destruct (find_ent (g_ents st) k) as [e|] eqn:Hf; [|left; unfold offer_one; rewrite Hf; reflexivity].
  rewrite (offer_one_eq st out k e Hf). unfold offered_entry.
  destruct (skipped st k e), (due st k e); cbn; try (left; reflexivity).
  destruct (isnone (g_oid (g_loc e))), (matched e) eqn:Hm; cbn; try (left; reflexivity).
  right. exists e. auto.
Qed.

Lemma offer_one_other acc k0 k : k0 <> k -> kview (fst (offer_one auto w acc k0)) k = kview (fst acc) k.
Proof.
  intros Hne. destruct (offer_one_state acc k0) as [->|(e0 & Hf0 & _ & _ & ->)]; [reflexivity|].
  apply state_request_other. rewrite (find_ent_key _ _ _ Hf0). exact Hne.
Qed.

(* the decision is the one taken in the state the filter STARTS from *)
Lemma filter_fold_offered ks : forall acc k,
  In k (snd (fold_left (offer_one auto w) ks acc)) <-> In k (snd acc) \/ In k ks /\ offered_key (fst acc) k = true.
Proof.
  induction ks as [|k0 ks IH]; intros [st out] k; cbn [fold_left]; [simpl; tauto|].
  rewrite IH. cbn [In fst snd]. destruct (N.eq_dec k0 k) as [->|Hne].
  - rewrite (offer_one_out st out k). destruct (offered_key st k) eqn:Ho.
    + (* the step of k itself, offered: k is in the output from here on *)
      split; intros _; [right|left; apply in_or_app; right; left]; auto.
    + (* the step of k itself, not offered: nothing changes, a later occurrence of k meets the same state *)
      destruct (offer_one_state (st, out) k) as [->|(_ & _ & Ho' & _)]; [|cbn [fst] in Ho'; congruence].
      cbn [fst]. rewrite Ho. split; intros [H|[_ H]]; auto; discriminate H.
  - (* the step of another key leaves what the filter reads about k alone, and adds at most k0 to the output *)
    rewrite (offered_key_kview _ _ k (offer_one_other (st, out) k0 k Hne)), (offer_one_out st out k0).
    destruct (offered_key st k0); rewrite ?in_app_iff; simpl; tauto.
Qed.

Theorem filter_offered st k :
  In k (snd (changeset_filter auto w st)) <-> In k (g_changeset st) /\ offered_key st k = true.
Proof. unfold changeset_filter. rewrite filter_fold_offered. simpl. tauto. Qed.

Definition unrequested_entry (st : gst) (k : N) (e : gent) : Prop :=
  find_ent (g_ents st) k = Some e /\ kmem k (g_req st) = false.

Lemma offer_one_keeps acc k0 k e :
  matched e = false ->
  unrequested_entry (fst acc) k e -> unrequested_entry (fst (offer_one auto w acc k0)) k e.
Proof.
  intros Hm [Hf Hr]. unfold unrequested_entry. destruct (N.eq_dec k0 k) as [->|Hne].
  - destruct (offer_one_state acc k) as [->|(e0 & Hf0 & _ & Hm0 & _)]; [auto|].
    rewrite Hf in Hf0. injection Hf0 as <-. congruence.
  - pose proof (offer_one_other acc k0 k Hne) as [= -> -> _]. auto.
Qed.

Lemma filter_keeps st k e :
  matched e = false ->
  unrequested_entry st k e -> unrequested_entry (fst (changeset_filter auto w st)) k e.
Proof.
  intros Hm Hq. apply (fold_left_invariant _ (fun acc => unrequested_entry (fst acc) k e)); [|exact Hq].
  intros acc k0 _. apply offer_one_keeps; assumption.
Qed.

(* an unrequested, unmatched remote-only FILE never reaches the sync step *)
Theorem unrequested_never_downloaded st k e :
  find_ent (g_ents st) k = Some e ->
  g_oid (g_loc e) = None ->                       (* exists only remotely *)
  g_dir e = false ->                              (* a file *)
  kmem k (g_req st) = false ->                    (* not requested *)
  match g_path (g_rem e) with Some p => auto p = false | None => True end ->   (* not matched *)
  reaches_sync auto w st k = false.
Proof.
  intros Hf Hoid Hdir Hr Hauto. unfold reaches_sync.
  destruct (filter_keeps st k e (matched_false e Hauto) (conj Hf Hr)) as [Hf' Hr'].
  destruct (changeset_filter auto w st) as [st' out]. simpl in Hf', Hr'. rewrite Hf'.
  assert (Hk: g_key e = k) by (eapply find_ent_key; exact Hf).
  unfold pre_sync, local_file. rewrite Hk, Hoid, Hr', Hdir. simpl. rewrite orb_true_r. apply andb_false_r.
Qed.

(* not skipped, and offered for a reason that does not need the predicate *)
Definition must_offer (st : gst) (k : N) (e : gent) : Prop :=
  find_ent (g_ents st) k = Some e /\
  (kmem k (g_exc st) = false \/ g_changed (g_loc e) = true) /\
  (kmem k (g_req st) = true \/ g_dir e = true \/
   ((g_changed (g_rem e) || g_changed (g_loc e)) = true /\ g_latest e = false)).

Lemma must_offer_offered st k e : must_offer st k e -> offered_key st k = true.
Proof.
  intros (Hf & Hx & Hy). unfold offered_key, offered_entry, skipped, due. rewrite Hf.
  destruct Hy as [-> | [-> | [-> ->]]], Hx as [-> | ->]; cbn; rewrite ?andb_false_r, ?orb_true_r; reflexivity.
Qed.

End GateThms.

Lemma zero_orphan_keeps a b s :
  g_oid (zero_orphan a b s) = g_oid s /\ g_exists (zero_orphan a b s) = g_exists s /\ g_path (zero_orphan a b s) = g_path s.
Proof. unfold zero_orphan. destruct (a || b); repeat split. Qed.
(* the entry the un-request pushes through the sync step *)
Definition pushed_entry (w : gworld) (e : gent) : gent :=
  let e1 := g_refresh_local w e in if needs_push e1 then with_local_changed e1 else e1.

Lemma refresh_local_keeps w e :
  g_key (g_refresh_local w e) = g_key e /\ g_path (g_loc (g_refresh_local w e)) = g_path (g_loc e) /\
  g_rem (g_refresh_local w e) = g_rem e.
Proof.
  unfold g_refresh_local. cbn [g_key g_loc g_rem g_path]. repeat split.
  destruct (g_oid (g_loc e)) as [o|]; [destruct (kmem o (w_loids w))|]; reflexivity.
Qed.

Lemma pushed_entry_keeps w e :
  g_key (pushed_entry w e) = g_key e /\ g_path (g_loc (pushed_entry w e)) = g_path (g_loc e) /\
  g_oid (g_rem (pushed_entry w e)) = g_oid (g_rem e) /\ g_exists (g_rem (pushed_entry w e)) = g_exists (g_rem e) /\
  g_path (g_rem (pushed_entry w e)) = g_path (g_rem e).
Proof.
  unfold pushed_entry. destruct (refresh_local_keeps w e) as (A & B & C).
  destruct (needs_push _); [|rewrite C; auto].
  unfold with_local_changed. cbn [g_key g_loc g_rem g_path].
  destruct (zero_orphan_keeps (has_oid (g_loc (g_refresh_local w e))) (pending (g_rem (g_refresh_local w e)))
                              (g_rem (g_refresh_local w e))) as (Z1 & Z2 & Z3).
  rewrite Z1, Z2, Z3, C. auto.
Qed.

(* providers[LOCAL].delete of a non-empty folder raises, and then nothing is cleared *)
Definition local_leaf (w : gworld) (e : gent) : Prop :=
  forall p, g_path (g_loc e) = Some p -> existsb (strict_prefix p) (w_lpaths w) = false.

(* the outcomes of an un-request: of a requested entry whose local object is a non-empty folder (the delete raises),
   with another local path, without local path; of an entry that is not requested.  [push]: the upload of a newer
   local edit, if one is due *)
Lemma g_unrequest_cases w bp st e st' acts :
  g_unrequest w bp st e = (st', acts) ->
  exists push, (forall a, In a push -> a = GPushLocal (g_key e)) /\
  if kmem (g_key e) (g_req st) then
    match g_path (g_loc e) with
    | Some p =>
      if pmem p (w_lpaths w) && existsb (strict_prefix p) (w_lpaths w)
      then acts = push /\ g_req st' = g_req st /\ g_exc st' = g_exc st
      else acts = push ++ (if pmem p (w_lpaths w) then [GDeleteLocal p] else []) /\
           g_req st' = kdel (g_key e) (g_req st) /\ g_exc st' = kadd (g_key e) (g_exc st) /\
           exists e', g_ents st' = put_ent (g_ents st) e' /\ g_key e' = g_key e /\ g_loc e' = cleared /\
                      g_oid (g_rem e') = g_oid (g_rem e) /\ g_exists (g_rem e') = g_exists (g_rem e) /\
                      g_path (g_rem e') = g_path (g_rem e)
    | None => acts = push /\ g_req st' = kdel (g_key e) (g_req st) /\ g_exc st' = kadd (g_key e) (g_exc st)
    end
  else (acts = [] \/ acts = push) /\ g_req st' = g_req st /\ g_exc st' = g_exc st.
Proof.
  unfold g_unrequest.
  change (if needs_push (g_refresh_local w e) then with_local_changed (g_refresh_local w e) else g_refresh_local w e)
    with (pushed_entry w e).
  destruct (pushed_entry_keeps w e) as (K1 & K2 & K3 & K4 & K5). rewrite K1, K2.
  set (e2 := pushed_entry w e) in *. clearbody e2.
  set (push := if needs_push _ then [GPushLocal (g_key e)] else []).
  assert (Hpush : forall a, In a push -> a = GPushLocal (g_key e)).
  { unfold push. destruct (needs_push _); intros a Ha; [destruct Ha as [<-|[]]; reflexivity|destruct Ha]. }
  clearbody push. intros H. exists push. split; [exact Hpush|].
  destruct (kmem (g_key e) (g_req st)).
  - rewrite andb_false_r in H. destruct (g_path (g_loc e)) as [p|].
    + destruct (pmem p (w_lpaths w) && existsb (strict_prefix p) (w_lpaths w)); injection H as <- <-; cbn [g_req g_exc g_ents].
      * auto.
      * repeat split. eexists. repeat split; assumption.
    + injection H as <- <-. auto.
  - destruct bp; injection H as <- <-; auto.
Qed.

(* what SmartSyncManager.get_parent_conflicts collects: changed, existing entries *)
Definition pc_ok (e : gent) : bool := g_changed (g_rem e) && ex_is_exists (g_exists (g_rem e)).

Lemma parent_conflict_spec st p pc :
  parent_conflict st p = Some pc ->
  pc_ok pc = true /\ exists q, In q (ancestors p) /\ In pc (lookup_rpath st q).
Proof.
  unfold parent_conflict.
  apply (fold_left_invariant _ (fun acc => acc = Some pc ->
                                     pc_ok pc = true /\ exists q, In q (ancestors p) /\ In pc (lookup_rpath st q))); [|discriminate].
  intros acc q Hq IH. apply fold_left_invariant; [|exact IH].
  intros acc' e He IH'. fold (pc_ok e). destruct (pc_ok e) eqn:Hok; [|exact IH']. intros [= ->]. eauto.
Qed.

Lemma lookup_rpath_In st q e : In e (lookup_rpath st q) ->
  In e (g_ents st) /\ g_path (g_rem e) = Some q /\ g_discarded e = false.
Proof.
  unfold lookup_rpath. rewrite filter_In, !andb_true_iff. intros [Hin [[[Hp _] Hd] _]].
  apply (option_eqb_eq path_eqb path_eqb_eq) in Hp. rewrite negb_true_iff in Hd. auto.
Qed.

Lemma strict_prefix_trans a b c : strict_prefix a b = true -> strict_prefix b c = true -> strict_prefix a c = true.
Proof.
  intros (s1 & N1 & E1)%strict_prefix_iff (s2 & N2 & E2)%strict_prefix_iff.
  rewrite E2, E1, <- app_assoc. apply strict_prefix_app, app_nonnil_l, N1.
Qed.

Lemma ancestors_fuel_strict n : forall p q, In q (ancestors_fuel n p) -> strict_prefix q p = true.
Proof.
  induction n as [|n IH]; intros p q H; simpl in H; [destruct H|].
  destruct p as [|x p]; [destruct H|].
  assert (Hrl: strict_prefix (removelast (x :: p)) (x :: p) = true).
  { rewrite (app_removelast_last 0%N (l := x :: p)) at 2 by discriminate. apply strict_prefix_app. discriminate. }
  destruct H as [<-|H]; [exact Hrl|]. exact (strict_prefix_trans _ _ _ (IH _ _ H) Hrl).
Qed.

Lemma parent_conflicts_from_ancestors fuel : forall st cur acc k p,
  g_path (g_rem cur) = Some p ->
  In k (parent_conflicts_from fuel st cur acc) ->
  In k acc \/ exists pc q, g_key pc = k /\ In pc (g_ents st) /\ g_path (g_rem pc) = Some q /\
                           strict_prefix q p = true /\ pc_ok pc = true /\ g_discarded pc = false.
Proof.
  induction fuel as [|f IH]; intros st cur acc k p Hp H; simpl in H; [left; exact H|].
  rewrite Hp in H.
  destruct (parent_conflict st p) as [pc|] eqn:Hpc; [|left; exact H].
  destruct (opt_path_eqb (g_path (g_rem pc)) (Some p)); [left; exact H|].
  apply parent_conflict_spec in Hpc as (Hok & q & Hq & Hin).
  apply lookup_rpath_In in Hin as (Hin & Hpq & Hd).
  apply ancestors_fuel_strict in Hq.
  destruct (IH st pc (g_key pc :: acc) k q Hpq H) as [[<-|H1]|(pc' & q' & A & B & C & D & E & F)].
  - right. exists pc, q. repeat split; assumption.
  - left. exact H1.
  - right. exists pc', q'. repeat split; try assumption. eapply strict_prefix_trans; eassumption.
Qed.

Lemma request_plan_ancestors st e k :
  In k (request_plan st e) ->
  k = g_key e \/
  exists pc q p, g_path (g_rem e) = Some p /\ g_key pc = k /\ In pc (g_ents st) /\ g_path (g_rem pc) = Some q /\
                 strict_prefix q p = true /\ pc_ok pc = true /\ g_discarded pc = false.
Proof.
  unfold request_plan. intros [H|[<-|[]]]%in_app_or; [|left; reflexivity].
  destruct (g_path (g_rem e)) as [p|] eqn:Hp; [|simpl in H; rewrite Hp in H; destruct H].
  destruct (parent_conflicts_from_ancestors _ _ _ _ _ p Hp H) as [[]|(pc & q & K)].
  right. exists pc, q, p. auto.
Qed.

Lemma state_request_legacy_entry w st e :
  find_ent (g_ents st) (g_key e) = Some e ->
  exists e1, find_ent (g_ents (g_state_request_legacy w st e)) (g_key e) = Some e1 /\ g_key e1 = g_key e /\
             g_oid (g_rem e1) = g_oid (g_rem e) /\ g_path (g_rem e1) = g_path (g_rem e) /\
             (forall p, g_path (g_loc e) = Some p -> pmem p (w_lpaths w) = false ->
                        g_loc e1 = cleared /\ g_sync_hash (g_rem e1) = None /\ g_sync_path (g_rem e1) = None).
Proof.
  intros Hf. unfold g_state_request_legacy. cbn [g_ents]. eexists. split.
  - eapply find_put_key; [|exact Hf]. destruct (match g_path (g_loc e) with Some _ => _ | None => _ end); reflexivity.
  - destruct (g_path (g_loc e)) as [lp|]; [destruct (pmem lp (w_lpaths w)) eqn:Hm|]; cbn; repeat split; congruence.
Qed.

(* [fill_remote]: cloudsync fc0a567 *)
Lemma fill_remote_spec bo w st e st0 e0 :
  find_ent (g_ents st) (g_key e) = Some e ->
  fill_remote bo w st e = (st0, e0) ->
  find_ent (g_ents st0) (g_key e) = Some e0 /\ g_key e0 = g_key e /\
  g_loc e0 = g_loc e /\ g_oid (g_rem e0) = g_oid (g_rem e) /\
  (bo = true -> forall o i, g_oid (g_rem e) = Some o -> find_robj w o = Some i -> g_path (g_rem e0) <> None).
Proof.
  intros Hf. unfold fill_remote, needs_fill. destruct bo, (g_path (g_rem e)) eqn:Hp; intros [= <- <-]; cbn [g_ents].
  2: { unfold g_refresh_remote.
       destruct (g_oid (g_rem e)) as [o|] eqn:Ho; [destruct (find_robj w o) as [i|] eqn:Hi|];
         (split; [eapply find_put_key; [|exact Hf]; reflexivity|]); cbn; repeat split; congruence. }
  all: repeat split; congruence.
Qed.

(* files (after the fill): the request is registered and un-excluded whether or not the call returns, the remote side
   is marked changed and a local side whose file is gone is forgotten; it raises exactly when the remote path is still
   unknown *)
Theorem request_registers bo w st e st0 e0 st' plan :
  find_ent (g_ents st) (g_key e) = Some e ->
  fill_remote bo w st e = (st0, e0) -> g_dir e0 = false ->
  g_request bo w st e = (st', plan) ->
  kmem (g_key e) (g_req st') = true /\ kmem (g_key e) (g_exc st') = false /\
  (plan = None <-> g_path (g_rem e0) = None) /\
  (forall pl, plan = Some pl ->
     (exists pre, pl = pre ++ [g_key e]) /\
     exists e', find_ent (g_ents st') (g_key e) = Some e' /\ g_changed (g_rem e') = true /\ g_latest e' = false /\
                g_oid (g_rem e') = g_oid (g_rem e) /\
                (forall p, g_path (g_loc e) = Some p -> pmem p (w_lpaths w) = false ->
                           g_oid (g_loc e') = None /\ g_sync_hash (g_rem e') = None /\ g_sync_path (g_rem e') = None)).
Proof.
  intros Hf Hfill Hd. unfold g_request, g_request_core, g_state_request. rewrite Hfill, Hd.
  destruct (fill_remote_spec bo w st e st0 e0 Hf Hfill) as (Hf0 & Hk & Hl & Ho & _).
  (* e and the filled entry e0 agree on key, local side and remote oid: from here on the goal speaks of e0 only *)
  rewrite <- Hk in *. rewrite <- Hl, <- Ho. clear Hf Hfill Hk Hl Ho.
  destruct (state_request_legacy_entry w st0 e0 Hf0) as (e1 & Hf1 & Hk1 & Ho1 & Hp1 & Hst). rewrite Hf1.
  set (st1 := g_state_request_legacy w st0 e0).
  assert (HQ: kmem (g_key e0) (g_req st1) = true)
    by (cbn [st1 g_state_request_legacy g_req]; rewrite kmem_kadd, N.eqb_refl; reflexivity).
  assert (HX: kmem (g_key e0) (g_exc st1) = false)
    by (cbn [st1 g_state_request_legacy g_exc]; rewrite kmem_kdel, N.eqb_refl; reflexivity).
  destruct (g_path (g_rem e1)) as [rp|] eqn:Hrp; intros [= <- <-]; cbn [g_req g_exc g_ents].
  all: split; [exact HQ|split; [exact HX|split; [split; congruence|intros pl [= <-]]]].
  split; [eexists; unfold request_plan; rewrite Hk1; reflexivity|].
  eexists. split; [eapply find_put_key; [|exact Hf1]; exact Hk1|].
  unfold g_latest. cbn. split; [reflexivity|]. split; [apply andb_false_r|]. split; [exact Ho1|].
  intros p Hp Hn. destruct (Hst p Hp Hn) as (Hc & Hs1 & Hs2).
  destruct (zero_orphan_keeps (has_oid (g_rem e1)) (pending (g_loc e1)) (g_loc e1)) as [Z1 _].
  rewrite Z1, Hc. repeat split; assumption.
Qed.

(* folders: nothing is registered, so there is nothing an un-request could take away (cloudsync 2277c0d) *)
Theorem request_of_folder_registers_nothing bo w st e st0 e0 st' plan :
  fill_remote bo w st e = (st0, e0) -> g_dir e0 = true ->
  g_request bo w st e = (st', plan) ->
  g_req st' = g_req st0 /\ g_exc st' = g_exc st0.
Proof.
  intros Hfill Hd. unfold g_request. rewrite Hfill. unfold g_request_core, g_state_request. rewrite Hd.
  destruct (find_ent (g_ents st0) (g_key e0)) as [e1|]; [destruct (g_path (g_rem e1))|]; intros H; inversion H; subst;
    split; reflexivity.
Qed.

(* a request by id of an object the remote provider has never raises for lack of a path *)
Theorem request_by_id_never_raises w st e o i st' plan :
  find_ent (g_ents st) (g_key e) = Some e ->
  g_oid (g_rem e) = Some o -> find_robj w o = Some i ->
  g_request true w st e = (st', plan) -> plan <> None.
Proof.
  intros Hf Ho Hi. unfold g_request.
  destruct (fill_remote true w st e) as [st0 e0] eqn:Hfill.
  destruct (fill_remote_spec true w st e st0 e0 Hf Hfill) as (Hf0 & Hk & _ & _ & Hp). specialize (Hp eq_refl o i Ho Hi).
  destruct (g_dir e0) eqn:Hd.
  - unfold g_request_core, g_state_request. rewrite Hd, Hk, Hf0.
    destruct (g_path (g_rem e0)); [intros H; inversion H; discriminate|contradiction].
  - intros H ->. apply Hp, (request_registers true w st e st0 e0 st' None Hf Hfill Hd); [|reflexivity].
    unfold g_request. rewrite Hfill. exact H.
Qed.

Lemma dedup_In n l : In n (dedup l) <-> In n l.
Proof.
  induction l as [|x l IH]; simpl; [tauto|].
  destruct (kmem x (dedup l)) eqn:Hm.
  - apply kmem_In in Hm. split; [intros H; right; apply IH; exact H|intros [H|H]; [subst; exact Hm|apply IH; exact H]].
  - simpl. rewrite IH. tauto.
Qed.

Definition synced_item (n : N) (l : linfo) : litem := {| i_name := n; i_isdir := l_isdir l; i_synced := true |}.
Definition unsynced_item (n : N) (e : gent) : litem := {| i_name := n; i_isdir := g_dir e; i_synced := false |}.

(* the merged listing of one folder (SmartCloudSync.smart_listdir_path with _get_smartinfo) *)
Theorem g_listing_law tl ls rs it :
  In it (g_listdir tl ls rs) <->
  In (i_name it) (map l_name ls ++ map fst rs) /\ rent_pass tl (find_rent rs (i_name it)) = true /\
  match find_local ls (i_name it) with
  | Some l => truthy (l_mtime l) (l_size l) = true /\ it = synced_item (i_name it) l
  | None => exists e, find_rent rs (i_name it) = Some e /\
                      ex_gone (g_exists (g_loc e)) = false /\ ex_gone (g_exists (g_rem e)) = false /\
                      truthy (g_mtime (g_rem e)) (g_size (g_rem e)) = true /\ it = unsynced_item (i_name it) e
  end.
Proof.
  unfold g_listdir. rewrite in_flat_map. split.
  - intros [n [Hn Hit]]. apply (proj1 (dedup_In _ _)) in Hn. unfold list_one in Hit.
    destruct (rent_pass tl (find_rent rs n)) eqn:Hp; simpl in Hit; [|destruct Hit].
    destruct (find_local ls n) as [l|] eqn:Hl.
    + destruct (truthy (l_mtime l) (l_size l)) eqn:Ht; [|destruct Hit]. destruct Hit as [<-|[]]. cbn [i_name].
      rewrite Hl. auto.
    + destruct (find_rent rs n) as [e|] eqn:Hr; [|destruct Hit].
      destruct (ex_gone (g_exists (g_loc e)) || ex_gone (g_exists (g_rem e))) eqn:Hg; [destruct Hit|].
      destruct (truthy (g_mtime (g_rem e)) (g_size (g_rem e))) eqn:Ht; [|destruct Hit].
      destruct Hit as [<-|[]]. cbn [i_name]. rewrite Hl, Hr. apply orb_false_iff in Hg as [G1 G2].
      split; [exact Hn|]. split; [exact Hp|]. exists e. auto.
  - intros [Hn [Hp H]]. exists (i_name it). split; [apply (proj2 (dedup_In _ _)); exact Hn|].
    unfold list_one. rewrite Hp. simpl.
    destruct (find_local ls (i_name it)) as [l|].
    + destruct H as [Ht Hit]. rewrite Ht. left. symmetry. exact Hit.
    + destruct H as (e & Hr & G1 & G2 & Ht & Hit). rewrite Hr, G1, G2, Ht. left. symmetry. exact Hit.
Qed.

(* [g_request_legacy] (cloudsync before fc0a567 / 2277c0d): request without the fill and with folders registered;
   the statements it fails, with witnesses (refuted in PropC20.v) *)
Local Open Scope N_scope.
Definition wit_rem (p : option path) : gside :=
  {| g_oid := Some 10; g_path := p; g_changed := true; g_exists := XExists; g_hash := Some 1;
     g_sync_hash := None; g_sync_path := None; g_size := 3; g_mtime := 5 |}.
(* finding S-1: a remote file the engine knows by id only (the event carried no path) *)
Definition wit_file : gent :=
  {| g_key := 1; g_loc := cleared; g_rem := wit_rem None; g_dir := false; g_lfresh := true; g_rfresh := false;
     g_discarded := false; g_conflicted := false |}.
Definition wit_w : gworld :=
  {| w_lpaths := [[1]; [1; 7]]; w_loids := [20]; w_lhash := [];
     w_robjs := [{| r_oid := 10; r_path := [2; 7]; r_hash := Some 1; r_isdir := false; r_size := 3; r_mtime := 5 |}] |}.
Definition wit_st (e : gent) : gst := {| g_ents := [e]; g_changeset := [1]; g_req := []; g_exc := [] |}.

Definition legacy_by_id_never_raises_full : Prop :=
  forall w st e o i st' plan,
    find_ent (g_ents st) (g_key e) = Some e -> g_oid (g_rem e) = Some o -> find_robj w o = Some i ->
    g_request_legacy w st e = (st', plan) -> plan <> None.

(* finding S-2: a mirrored folder *)
Definition wit_dir : gent :=
  {| g_key := 1;
     g_loc := {| g_oid := Some 20; g_path := Some [1; 7]; g_changed := false; g_exists := XExists; g_hash := None;
                 g_sync_hash := None; g_sync_path := Some [1; 7]; g_size := 0; g_mtime := 0 |};
     g_rem := {| g_oid := Some 10; g_path := Some [2; 7]; g_changed := false; g_exists := XExists; g_hash := None;
                 g_sync_hash := None; g_sync_path := Some [2; 7]; g_size := 0; g_mtime := 5 |};
     g_dir := true; g_lfresh := true; g_rfresh := true; g_discarded := false; g_conflicted := false |}.
Definition legacy_folder_registers_nothing_full : Prop :=
  forall w st e st' plan, g_dir e = true -> g_request_legacy w st e = (st', plan) -> g_req st' = g_req st.
