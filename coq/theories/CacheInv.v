(* CacheInv.v — the invariant of the cache tree and its preservation by every operation; and [step_closed]:
   any property established by delete / metadata edit / id edit / ghost / make_node / move is established by [step]. *)
From Coq Require Import NArith List Bool.
From CS Require Import Sx Str ListFacts CacheModel CacheProofs.
Import ListNotations.

Definition has_id (t : node) (q : list N) (o : N) : Prop :=
  exists nd, lookup q t = Some nd /\ n_id nd = Some o.
Definition uniq (t : node) : Prop := forall q1 q2 o, has_id t q1 o -> has_id t q2 o -> q1 = q2.
Definition ids_sub (t' t : node) : Prop := forall q o, has_id t' q o -> has_id t q o.
Definition view_sub (t' t : node) : Prop := forall q e, view t' q = Some e -> view t q = Some e.

Lemma has_id_view t q o : has_id t q o <-> exists d m, view t q = Some (d, Some o, m).
Proof.
  unfold has_id. split.
  - intros [nd [Hl Hi]]. exists (n_dir nd), (n_md nd). apply view_some. exists nd. unfold info. rewrite Hi. auto.
  - intros [d [m H]]. apply view_some in H as [nd [Hl E]]. exists nd. unfold info in E. split; congruence.
Qed.

Lemma has_id_nil t o : has_id t [] o <-> n_id t = Some o.
Proof. split; [intros [nd [Hl Hi]]; inversion Hl; subst; exact Hi|intros H; exists t; auto]. Qed.

Lemma has_id_app t rp nd r o : lookup rp t = Some nd -> has_id nd r o -> has_id t (rp ++ r) o.
Proof. intros El [x [Hx Hi]]. exists x. rewrite lookup_app, El. auto. Qed.
Arguments has_id_app {t rp nd r o}.

Lemma view_sub_ids t' t : view_sub t' t -> ids_sub t' t.
Proof.
  intros H q o Hh. apply has_id_view in Hh as [d [m Hv]]. apply has_id_view. exists d, m. apply H. exact Hv.
Qed.

Lemma view_sub_refl t : view_sub t t. Proof. intros q e H. exact H. Qed.
Lemma view_sub_trans a b c : view_sub a b -> view_sub b c -> view_sub a c.
Proof. intros H1 H2 q e H. apply H2, H1, H. Qed.
Lemma ids_sub_refl t : ids_sub t t. Proof. intros q o H. exact H. Qed.
Lemma ids_sub_trans a b c : ids_sub a b -> ids_sub b c -> ids_sub a c.
Proof. intros H1 H2 q o H. apply H2, H1, H. Qed.

Lemma uniq_sub t' t : uniq t -> ids_sub t' t -> uniq t'.
Proof. intros Hu Hs q1 q2 o H1 H2. apply (Hu q1 q2 o); apply Hs; assumption. Qed.

Definition absent (t : node) (o : N) : Prop := forall q, ~ has_id t q o.
Definition unknown (c : cache) (o : N) : Prop := absent (c_root c) o /\ aget o (c_ghosts c) = None.

Lemma absent_sub t' t o : ids_sub t' t -> absent t o -> absent t' o.
Proof. intros Hs Ha q H. exact (Ha q (Hs q o H)). Qed.

Lemma view_sub_lookup t' t p P P0 :
  view_sub t' t -> lookup p t' = Some P -> lookup p t = Some P0 -> info P = info P0.
Proof.
  intros H HP HP0. specialize (H p (info P)). unfold view in H. rewrite HP, HP0 in H.
  specialize (H eq_refl). cbn [option_map] in H. congruence.
Qed.

Arguments view_sub_lookup {t' t p P P0}.

Lemma view_sub_info t' t : view_sub t' t -> info t' = info t.
Proof. intros H. apply (view_sub_lookup (p := []) H); reflexivity. Qed.
Arguments view_sub_info {t' t}.

Lemma view_sub_cut rp t : view_sub (cut rp t) t.
Proof.
  intros q e. rewrite view_cut. destruct q as [|n q]; [auto|]. destruct (prefixb rp (n :: q)); [discriminate|auto].
Qed.

Lemma has_id_cut rp t q o : has_id (cut rp t) q o -> has_id t q o /\ (q = [] \/ prefixb rp q = false).
Proof.
  rewrite !has_id_view. intros [d [m H]]. rewrite view_cut in H. destruct q as [|n q]; [eauto|].
  destruct (prefixb rp (n :: q)); [discriminate|eauto].
Qed.

Lemma ids_sub_mkdirp p t : ids_sub (mkdirp p t) t.
Proof.
  revert t. induction p as [|n p IH]; intros t q o H; [exact H|].
  destruct q as [|x q].
  - apply has_id_nil in H. apply has_id_nil. pose proof (info_mkdirp (n :: p) t) as E. unfold info in E. congruence.
  - destruct H as [nd [Hl Hi]]. cbn [lookup] in Hl. rewrite aget_mkdirp in Hl.
    destruct (N.eqb_spec x n) as [->|]; [|exists nd; auto].
    destruct (IH _ q o (ex_intro _ nd (conj Hl Hi))) as [nd' [Hl' Hi']]. unfold mk_kid in Hl'.
    exists nd'. split; [|exact Hi']. cbn [lookup].
    destruct (aget n (n_kids t)) as [c|]; [destruct (n_dir c)|]; try exact Hl';
      destruct q; try discriminate; injection Hl' as <-; discriminate.
Qed.

Definition InvT (t : node) : Prop :=
  knodup t = true /\ files_leaf t = true /\ uniq t /\ n_dir t = true.
Lemma inv_knodup t : InvT t -> knodup t = true. Proof. intros H. apply H. Qed.
Lemma inv_leaf t : InvT t -> files_leaf t = true. Proof. intros H. apply H. Qed.
Lemma inv_uniq t : InvT t -> uniq t. Proof. intros H. apply H. Qed.
Lemma inv_root_dir t : InvT t -> n_dir t = true. Proof. intros H. apply H. Qed.

Lemma InvT_intro t : knodup t = true -> files_leaf t = true -> uniq t -> n_dir t = true -> InvT t.
Proof. unfold InvT. auto. Qed.

Lemma InvT_sub t' t :
  InvT t -> knodup t' = true -> files_leaf t' = true -> ids_sub t' t -> info t' = info t -> InvT t'.
Proof.
  intros HI K F Hs Hi. apply InvT_intro; [exact K|exact F| |].
  - exact (uniq_sub _ _ (inv_uniq _ HI) Hs).
  - rewrite (info_dir _ _ Hi). apply inv_root_dir, HI.
Qed.

(* the ghosts are outside the invariant: it speaks of the tree only *)
Definition Inv (c : cache) : Prop := InvT (c_root c).

Lemma single_ok d o m :
  knodup (Node d o m []) = true /\ files_leaf (Node d o m []) = true /\ uniq (Node d o m []).
Proof.
  split; [reflexivity|]. split; [destruct d; reflexivity|].
  intros q1 q2 x [n1 [H1 _]] [n2 [H2 _]]. destruct q1, q2; simpl in *; try discriminate. reflexivity.
Qed.

Lemma inv_init r m : Inv (init r m).
Proof. destruct (single_ok true (Some r) m) as [A [B C]]. repeat split; assumption. Qed.

Lemma delete_loc_ghosts c l : c_ghosts (snd (delete_loc c l)) = c_ghosts c.
Proof. destruct l as [|[|n rp]|o g]; reflexivity. Qed.

Lemma delete_loc_view_sub c l : view_sub (c_root (snd (delete_loc c l))) (c_root c).
Proof. destruct l as [|rp|o g]; try apply view_sub_refl. rewrite delete_loc_tree. apply view_sub_cut. Qed.

Lemma delete_loc_inv c l : Inv c -> Inv (snd (delete_loc c l)).
Proof.
  intros H. destruct l as [|rp|o g]; try exact H. rewrite delete_loc_tree.
  pose proof (view_sub_cut rp (c_root c)) as Hs. apply (InvT_sub _ (c_root c) H); simpl.
  - apply (all_nodes_cut PK_ok), inv_knodup, H.
  - apply (all_nodes_cut PF_ok), inv_leaf, H.
  - apply view_sub_ids, Hs.
  - apply view_sub_info, Hs.
Qed.

Lemma rid_root c o : has_id (c_root c) [] o -> rid c = o.
Proof. rewrite has_id_nil. unfold rid. intros ->. reflexivity. Qed.

Lemma rid_info c c' : info (c_root c') = info (c_root c) -> rid c' = rid c.
Proof. unfold rid, info. intros H. inversion H. congruence. Qed.

Lemma index_has_id t o rp : InvT t -> aget o (index t) = Some rp <-> has_id t rp o.
Proof.
  intros HI. pose proof (inv_knodup _ HI) as K. pose proof (inv_uniq _ HI) as U. split.
  - intros E. apply (index_in t K), aget_in, E.
  - intros H. destruct (in_aget _ _ _ (proj2 (index_in t K o rp) H)) as [rp' E].
    rewrite E. f_equal. apply (U _ _ o); [|exact H]. apply (index_in t K), aget_in, E.
Qed.

Lemma index_none t o : InvT t -> absent t o -> aget o (index t) = None.
Proof.
  intros HI Hno. destruct (aget o (index t)) as [rp|] eqn:E; [|reflexivity].
  apply index_has_id in E; [destruct (Hno _ E)|exact HI].
Qed.

Definition not_ghost (l : loc) : Prop := forall g gn, l <> LGhost g gn.

(* after self.delete(oid=o) the id o is gone from the tree, except when it is the root's own id: then only
   the root is left *)
Lemma deleted_id_only_root c o q :
  Inv c -> not_ghost (loc_oid c o) ->
  has_id (c_root (snd (delete_loc c (loc_oid c o)))) q o ->
  n_id (c_root c) = Some o /\ c_root (snd (delete_loc c (loc_oid c o))) = clear_kids (c_root c).
Proof.
  intros HI Hng H. unfold loc_oid in *.
  destruct (N.eqb_spec o (rid c)) as [Heq|Hne].
  - apply (has_id_cut []) in H as [H [->|H']]; [|discriminate]. apply has_id_nil in H. auto.
  - destruct (aget o (c_ghosts c)) as [g|]; [destruct (Hng _ _ eq_refl)|].
    destruct (aget o (index (c_root c))) as [rp|] eqn:E.
    + apply (index_has_id _ _ _ HI) in E. rewrite delete_loc_tree in H. apply has_id_cut in H as [H1 H2].
      assert (q = rp) by (apply (inv_uniq _ HI) with o; assumption). subst q.
      destruct H2 as [->|H2]; [destruct Hne; symmetry; apply rid_root, E|].
      rewrite prefixb_refl in H2. discriminate.
    + apply (index_has_id _ _ _ HI) in H. simpl in H. congruence.
Qed.

Lemma has_id_modify p f t q o :
  has_id (modify p f t) q o ->
  has_id t q o \/ exists P r, q = p ++ r /\ lookup p t = Some P /\ has_id (f P) r o.
Proof.
  intros H. destruct (prefixb p q) eqn:Ep.
  - right. apply prefixb_true in Ep as [r ->]. destruct H as [x [Hl Hi]].
    rewrite lookup_modify_below in Hl. destruct (lookup p t) as [P|]; [|discriminate].
    exists P, r. split; [reflexivity|]. split; [reflexivity|]. exists x. auto.
  - left. apply has_id_view in H as [d [m H]]. rewrite view_modify_other in H by exact Ep.
    apply has_id_view. eauto.
Qed.

Lemma has_id_attach par nm nd t q o :
  has_id (modify par (add_kid nm nd) t) q o ->
  has_id t q o \/ exists r, q = par ++ nm :: r /\ has_id nd r o.
Proof.
  intros H. apply has_id_modify in H as [H|[P [r [-> [HP [x [Hl Hi]]]]]]]; [left; exact H|].
  destruct P as [d i md kids]. destruct r as [|m r]; simpl in Hl.
  - left. inversion Hl; subst x. exists (Node d i md kids). rewrite app_nil_r. auto.
  - rewrite aget_aset in Hl. destruct (N.eqb_spec m nm) as [->|].
    + right. exists r. split; [reflexivity|]. exists x. auto.
    + left. exists x. split; [|exact Hi]. rewrite lookup_app, HP. exact Hl.
Qed.

Lemma has_id_edit rp f t q o :
  (forall nd, n_kids (f nd) = n_kids nd) ->
  has_id (modify rp f t) q o ->
  has_id t q o \/ (q = rp /\ exists nd, lookup rp t = Some nd /\ n_id (f nd) = Some o).
Proof.
  intros Hk H. apply has_id_modify in H as [H|[P [r [-> [HP [x [Hl Hi]]]]]]]; [left; exact H|].
  destruct r as [|m r]; simpl in Hl.
  - right. inversion Hl; subst x. rewrite app_nil_r. eauto.
  - left. exists x. split; [|exact Hi]. rewrite lookup_app, HP. simpl. rewrite <- (Hk P). exact Hl.
Qed.

Lemma inv_edit rp f c :
  (forall nd, n_kids (f nd) = n_kids nd) -> (forall nd, n_dir (f nd) = n_dir nd) ->
  (forall nd o, n_id (f nd) = Some o -> n_id nd = Some o \/ absent (c_root c) o) ->
  Inv c -> Inv (with_root c (modify rp f (c_root c))).
Proof.
  intros Hk Hd Hi HI. pose proof (inv_uniq _ HI) as U. apply InvT_intro; simpl.
  - apply all_nodes_edit; [exact Hk|exact Hd|apply inv_knodup, HI].
  - apply all_nodes_edit; [exact Hk|exact Hd|apply inv_leaf, HI].
  - (* an id of the edited node that the old tree has at q is the node's old id, so q = rp *)
    assert (Hnew : forall q nd o, has_id (c_root c) q o -> lookup rp (c_root c) = Some nd ->
                     n_id (f nd) = Some o -> q = rp).
    { intros q nd o Hq Hl Ho. destruct (Hi _ _ Ho) as [Hold|Hfresh]; [|destruct (Hfresh _ Hq)].
      apply (U _ _ o Hq). exists nd. auto. }
    intros q1 q2 o H1 H2. apply has_id_edit in H1; [|exact Hk]. apply has_id_edit in H2; [|exact Hk].
    destruct H1 as [H1|[-> [n1 [L1 E1]]]], H2 as [H2|[-> [n2 [L2 E2]]]].
    + exact (U _ _ _ H1 H2).
    + exact (Hnew _ _ _ H1 L2 E2).
    + symmetry. exact (Hnew _ _ _ H2 L1 E1).
    + reflexivity.
  - destruct rp; simpl; [rewrite Hd; apply inv_root_dir, HI|].
    rewrite (info_dir _ _ (info_descend n (modify rp f) (c_root c))). apply inv_root_dir, HI.
Qed.

(* set_metadata and update leave the shape of the tree and the ids alone *)
Definition md_edit (f : node -> node) : Prop :=
  forall nd, n_kids (f nd) = n_kids nd /\ n_dir (f nd) = n_dir nd /\ n_id (f nd) = n_id nd.

Lemma md_edit_set m : md_edit (set_md m). Proof. intros []. auto. Qed.
Lemma md_edit_upd m : md_edit (upd_md m). Proof. intros []. auto. Qed.

Lemma inv_md_edit c rp f : md_edit f -> Inv c -> Inv (with_root c (modify rp f (c_root c))).
Proof.
  intros Hf. apply inv_edit; try apply Hf. intros nd o H. left. rewrite <- H. symmetry. apply Hf.
Qed.

Lemma attach_inv par nm nd c3 :
  Inv c3 -> knodup nd = true -> files_leaf nd = true -> uniq nd ->
  (forall P, lookup par (c_root c3) = Some P ->
     n_dir P = true /\ forall r o, has_id nd r o -> absent (c_root c3) o) ->
  Inv (snd (attach_node par nm nd c3)).
Proof.
  intros HI Kn Fn Un HP. unfold attach_node.
  destruct (lookup par (c_root c3)) as [P|] eqn:EP; [|destruct (n_id nd); exact HI].
  destruct (HP P eq_refl) as [Hdir Hdisj]. pose proof (inv_root_dir _ HI) as D. apply InvT_intro; simpl.
  - apply all_nodes_modify; [apply inv_knodup, HI|]. intros x Hx Kx.
    apply (all_nodes_add_kid PK_ok); auto.
  - apply all_nodes_modify; [apply inv_leaf, HI|]. intros x Hx Fx.
    apply (all_nodes_add_kid PF_ok); auto. congruence.
  - intros q1 q2 o H1 H2. apply has_id_attach in H1. apply has_id_attach in H2.
    destruct H1 as [H1|[r1 [-> H1]]], H2 as [H2|[r2 [-> H2]]].
    + exact (inv_uniq _ HI _ _ _ H1 H2).
    + destruct (Hdisj _ _ H2 _ H1).
    + destruct (Hdisj _ _ H1 _ H2).
    + rewrite (Un _ _ _ H1 H2). reflexivity.
  - destruct par; simpl; [destruct (c_root c3); exact D|].
    rewrite (info_dir _ _ (info_descend n (modify par (add_kid nm nd)) (c_root c3))). exact D.
Qed.

Lemma inv_mkdirp p c : Inv c -> Inv (with_root c (mkdirp p (c_root c))).
Proof.
  intros H. apply (InvT_sub _ (c_root c) H); simpl.
  - apply (all_nodes_mkdirp PK_ok); [apply Forall_forall; auto|exact I|apply inv_knodup, H].
  - apply (all_nodes_mkdirp PF_ok); [apply Forall_forall; auto|apply inv_root_dir, H|apply inv_leaf, H].
  - apply ids_sub_mkdirp.
  - apply info_mkdirp.
Qed.

(* the first half of __insert_node: the state after the parent was made and the old target deleted *)
Definition ins_pre (cf : cfg) (c : cache) (raw : list N) : cache :=
  let c1 := with_root c (mkdirp (map (cf_fold cf) (removelast raw)) (c_root c)) in
  snd (delete_loc c1 (loc_path cf c1 raw)).

Lemma insert_node_eq cf c nd raw :
  insert_node cf c nd raw =
  let dir := map (cf_fold cf) (removelast raw) in
  insert_tail dir (last raw 0%N) nd
    (match lookup dir (c_root (ins_pre cf c raw)) with Some P => n_id P | None => None end) (ins_pre cf c raw).
Proof. reflexivity. Qed.

Lemma ins_pre_inv cf c raw : Inv c -> Inv (ins_pre cf c raw).
Proof. intros HI. apply delete_loc_inv, inv_mkdirp, HI. Qed.

Lemma ins_pre_ghosts cf c raw : c_ghosts (ins_pre cf c raw) = c_ghosts c.
Proof. unfold ins_pre. apply (delete_loc_ghosts (with_root c _)). Qed.

Lemma ins_pre_view_sub cf c raw :
  view_sub (c_root (ins_pre cf c raw)) (mkdirp (map (cf_fold cf) (removelast raw)) (c_root c)).
Proof. unfold ins_pre. apply (delete_loc_view_sub (with_root c _)). Qed.

Lemma ins_pre_ids_sub cf c raw : ids_sub (c_root (ins_pre cf c raw)) (c_root c).
Proof. eapply ids_sub_trans; [apply view_sub_ids, ins_pre_view_sub|apply ids_sub_mkdirp]. Qed.

Lemma ins_pre_info cf c raw : info (c_root (ins_pre cf c raw)) = info (c_root c).
Proof. rewrite (view_sub_info (ins_pre_view_sub cf c raw)). apply info_mkdirp. Qed.

(* the parent survives the delete: the deleted path lies strictly below it *)
Lemma ins_pre_parent cf c raw :
  n_dir (c_root c) = true ->
  exists P, lookup (map (cf_fold cf) (removelast raw)) (c_root (ins_pre cf c raw)) = Some P /\ n_dir P = true.
Proof.
  intros HD. unfold ins_pre.
  set (dir := map (cf_fold cf) (removelast raw)).
  assert (Hp : dir = [] \/ prefixb (map (cf_fold cf) raw) dir = false).
  { unfold dir. destruct raw as [|a l _] using rev_ind; [auto|].
    rewrite removelast_last, map_app. right. apply prefixb_snoc_self. }
  clearbody dir.
  set (c1 := with_root c (mkdirp dir (c_root c))).
  destruct (mkdirp_dir dir (c_root c) HD) as [x [Hx Hd]].
  assert (Hx1 : view (mkdirp dir (c_root c)) dir = Some (info x)) by (unfold view; rewrite Hx; reflexivity).
  assert (Hv1 : view (c_root (snd (delete_loc c1 (loc_path cf c1 raw)))) dir = Some (info x)).
  { unfold loc_path. destruct (lookup _ (c_root c1)); [|exact Hx1].
    rewrite delete_loc_tree. simpl c_root. rewrite view_cut.
    destruct Hp as [->|Hp]; [exact Hx1|]. rewrite Hp. destruct dir; exact Hx1. }
  apply view_some in Hv1 as [P [HP E]]. exists P. split; [exact HP|]. unfold info in E. congruence.
Qed.

Lemma ins_pre_vacant cf c raw r :
  map (cf_fold cf) raw ++ r <> [] -> lookup (map (cf_fold cf) raw ++ r) (c_root (ins_pre cf c raw)) = None.
Proof.
  intros Hne. unfold ins_pre, loc_path. set (c1 := with_root c _).
  destruct (lookup _ (c_root c1)) eqn:E; [|cbn [delete_loc snd]; rewrite lookup_app, E; reflexivity].
  rewrite delete_loc_tree. apply lookup_cut_below; [apply prefixb_app|exact Hne].
Qed.

(* the second half goes through at most one more delete and then at most the attachment
   ([Q c2] itself is the first hypothesis at [LNone]) *)
Lemma insert_tail_closed (Q : cache -> Prop) par nm nd pid c2 :
  (forall l, Q (snd (delete_loc c2 l))) -> (forall c3, Q c3 -> Q (snd (attach_node par nm nd c3))) ->
  Q (snd (insert_tail par nm nd pid c2)).
Proof.
  intros Hdel Hatt. unfold insert_tail. destruct (n_id nd) as [o|]; [|apply Hatt, (Hdel LNone)].
  destruct (loc_oid c2 o); try apply (Hdel LNone); (destruct (oid_is pid o); [apply Hdel|apply Hatt, Hdel]).
Qed.

Lemma insert_tail_inv par nm nd c2 :
  Inv c2 -> knodup nd = true -> files_leaf nd = true -> uniq nd ->
  (forall r q o, has_id nd r o -> has_id (c_root c2) q o -> r = []) ->
  (exists P, lookup par (c_root c2) = Some P /\ n_dir P = true) ->
  Inv (snd (insert_tail par nm nd
              (match lookup par (c_root c2) with Some P => n_id P | None => None end) c2)).
Proof.
  intros HI2 Kn Fn Un Hpre [P0 [HP0 HD0]]. unfold insert_tail. rewrite HP0.
  (* an id of nd that is also in a part c3 of c2 can only be nd's own *)
  assert (Hown : forall c3 r q o', view_sub (c_root c3) (c_root c2) ->
                   has_id nd r o' -> has_id (c_root c3) q o' -> n_id nd = Some o').
  { intros c3 r q o' Hv3 H1 H2. rewrite <- has_id_nil.
    rewrite (Hpre r q o' H1 (view_sub_ids _ _ Hv3 _ _ H2)) in H1. exact H1. }
  assert (Hdir : forall c3 P, view_sub (c_root c3) (c_root c2) -> lookup par (c_root c3) = Some P ->
                   n_dir P = true).
  { intros c3 P Hv3 HP. rewrite (info_dir _ _ (view_sub_lookup Hv3 HP HP0)). exact HD0. }
  destruct (n_id nd) as [o|] eqn:Eo.
  2:{ apply attach_inv; auto. intros P HP. split; [eapply Hdir; eauto using view_sub_refl|].
      intros r o' H1 q H2. discriminate (Hown c2 r q o' (view_sub_refl _) H1 H2). }
  assert (Hgen : forall l, loc_oid c2 o = l -> not_ghost l ->
            Inv (snd (if oid_is (n_id P0) o then (RErr EAssert, snd (delete_loc c2 l))
                      else attach_node par nm nd (snd (delete_loc c2 l))))).
  { intros l El Hng. pose proof (delete_loc_view_sub c2 l) as Hv3. pose proof (delete_loc_inv c2 l HI2) as HI3.
    destruct (oid_is (n_id P0) o) eqn:Epid; [exact HI3|].
    apply attach_inv; auto. intros P HP. split; [eapply Hdir; eauto|].
    intros r o' H1 q H2. pose proof (Hown _ r q o' Hv3 H1 H2) as E. injection E as <-.
    (* o survived its own delete: it is the root's id and only the root is left, so the parent is the root *)
    subst l. destruct (deleted_id_only_root c2 o q HI2 Hng H2) as (Hid & Hc3).
    rewrite Hc3, lookup_clear_kids in HP. destruct par; [|discriminate].
    injection HP0 as <-. rewrite Hid in Epid. simpl in Epid. rewrite N.eqb_refl in Epid. discriminate. }
  destruct (loc_oid c2 o) eqn:El; [| |exact HI2]; apply Hgen; congruence.
Qed.

Lemma insert_node_inv cf c nd raw :
  Inv c -> knodup nd = true -> files_leaf nd = true -> uniq nd ->
  (forall r q o, has_id nd r o -> has_id (c_root c) q o -> r = []) ->
  Inv (snd (insert_node cf c nd raw)).
Proof.
  intros HI Kn Fn Un Hpre. rewrite insert_node_eq.
  apply insert_tail_inv; auto using ins_pre_inv, ins_pre_parent, inv_root_dir.
  intros r q o H1 H2. apply (Hpre r q o H1), (ins_pre_ids_sub cf c raw), H2.
Qed.

Lemma make_node_inv cf c d p o m : Inv c -> Inv (snd (make_node cf c d p o m)).
Proof.
  intros HI. unfold make_node. destruct (negb (md_ok_opt cf m)); [exact HI|].
  destruct (single_ok d o (md_or m)) as [K [F U]].
  apply insert_node_inv; auto.
  intros r q o' [x [Hx _]] _. destruct r; [reflexivity|discriminate].
Qed.

(* _set_oid of a node without id, after self.delete(oid=o): the id is fresh where the node survived *)
Lemma set_id_inv c rp o d m k :
  Inv c -> lookup rp (c_root c) = Some (Node d None m k) -> not_ghost (loc_oid c o) ->
  let c1 := snd (delete_loc c (loc_oid c o)) in
  lookup rp (c_root c1) <> None -> Inv (with_root c1 (modify rp (set_id o) (c_root c1))).
Proof.
  intros HI El Hng c1 Hnd. apply inv_edit; try (intros []; reflexivity); [|apply delete_loc_inv, HI].
  intros [] o' E. injection E as <-. right. intros q Hq.
  (* o survived its own delete: it is the root's id, only the root is left, and the root has an id *)
  destruct (deleted_id_only_root c o q HI Hng Hq) as (Hid & Hc1). unfold c1 in Hnd.
  rewrite Hc1, lookup_clear_kids in Hnd. destruct rp; [|congruence].
  injection El as El. rewrite El in Hid. discriminate.
Qed.

Lemma inv_with_ghost c o g : Inv c -> Inv (with_ghost c o g).
Proof. auto. Qed.

Lemma detached_ids_gone c rp nd t2 r o :
  Inv c -> rp <> [] -> lookup rp (c_root c) = Some nd -> view_sub t2 (cut rp (c_root c)) ->
  has_id nd r o -> absent t2 o.
Proof.
  intros HI Hne El Hv2 H1 q H2. apply (view_sub_ids _ _ Hv2), has_id_cut in H2 as [H2 Hp].
  rewrite (inv_uniq _ HI _ _ o H2 (has_id_app El H1)), prefixb_app in Hp.
  destruct Hp as [Hp|Hp]; [apply app_eq_nil in Hp as [Hp _]; auto|discriminate].
Qed.

(* rename, once the source is found: the subtree is detached, the target deleted, the subtree inserted *)
Lemma move_inv cf c rp nd q :
  Inv c -> rp <> [] -> lookup rp (c_root c) = Some nd ->
  let c1 := with_root c (cut rp (c_root c)) in
  Inv (snd (insert_node cf (snd (delete_loc c1 (loc_path cf c1 q))) nd (map (cf_fold cf) q))).
Proof.
  intros HI Hne El c1.
  pose proof (delete_loc_inv c (LTree rp) HI) as HI1. rewrite delete_loc_tree in HI1.
  pose proof (delete_loc_view_sub c1 (loc_path cf c1 q)) as Hv2. pose proof (delete_loc_inv c1 (loc_path cf c1 q)) as HI2.
  apply insert_node_inv; [apply HI2, HI1|apply (all_nodes_lookup (inv_knodup _ HI) El)|
                          apply (all_nodes_lookup (inv_leaf _ HI) El)| |].
  - intros q1 q2 o H1 H2. apply (app_inv_head rp), HI with o; eapply has_id_app; eauto.
  - intros r q' o H1 H2. destruct (detached_ids_gone c rp nd _ r o HI Hne El Hv2 H1 q' H2).
Qed.

(* Every public operation is put together from six pieces: delete of a located node, an edit of one
   node's metadata, the registration of a ghost, __make_node, giving an id to a node that has none (once
   the previous holder of the id is deleted), and the move of a subtree.  [step_pieces cf G admissible]: each
   piece establishes the property G of (answer, state after the call), for the paths a caller may pass
   ([admissible], kept by normalisation), and G does not mind which modelled answer is given (an exception then
   keeps it).  [step_closed]: then [step] establishes G in tame states. *)
Set Implicit Arguments.
Record step_pieces (cf : cfg) (G : outcome * cache -> Prop) (admissible : path -> Prop) : Prop := {
  sp_ans : forall r r' c, G (r, c) -> r' <> RUnmodelled -> G (r', c);
  sp_del : forall c l, G (ROk, c) -> G (delete_loc c l);
  sp_edit : forall c rp f, md_edit f -> G (ROk, c) -> G (ROk, with_root c (modify rp f (c_root c)));
  sp_ghost : forall c o g, G (ROk, c) -> G (ROk, with_ghost c o g);
  sp_make : forall c d p o m, admissible p -> G (ROk, c) -> G (make_node cf c d p o m);
  sp_norm : forall p, admissible p -> admissible (map (cf_fold cf) p);
  sp_setid : forall c rp o d m k,
    G (ROk, c) -> lookup rp (c_root c) = Some (Node d None m k) -> not_ghost (loc_oid c o) ->
    let c1 := snd (delete_loc c (loc_oid c o)) in
    lookup rp (c_root c1) <> None -> G (ROk, with_root c1 (modify rp (set_id o) (c_root c1)));
  sp_move : forall c rp nd q, admissible q -> G (ROk, c) -> rp <> [] -> lookup rp (c_root c) = Some nd ->
    let c1 := with_root c (cut rp (c_root c)) in
    G (insert_node cf (snd (delete_loc c1 (loc_path cf c1 q))) nd (map (cf_fold cf) q))
}.
Unset Implicit Arguments.

Section StepClosed.
  Variables (cf : cfg) (G : outcome * cache -> Prop) (admissible : path -> Prop).
  Hypothesis HG : step_pieces cf G admissible.
  Let Q c := G (ROk, c).
  Let Gans := sp_ans HG.
  Let Gdel := sp_del HG.
  Let Gedit := sp_edit HG.
  Let Gghost := sp_ghost HG.
  Let Gmake := sp_make HG.
  Let adm_norm := sp_norm HG.
  Let Gsetid := sp_setid HG.
  Let Gmove := sp_move HG.

  Definition op_admissible (x : op) : Prop :=
    match x with
    | OCreate p _ _ | OMkdir p _ _ | OSetOid p _ _ | OUpdate p _ _ _ _ | ORename _ p => admissible p
    | ODelete _ _ | OSetMeta _ _ _ => True
    end.

  Lemma G_state x : G x -> Q (snd x).
  Proof. destruct x as [r c]. intros H. apply (Gans r); [exact H|discriminate]. Qed.

  Lemma set_oid_node_closed c p o : admissible p -> Q c -> G (fst (set_oid_node cf c (map (cf_fold cf) p) o)).
  Proof.
    intros Hp H. unfold set_oid_node. set (rp := map (cf_fold cf) p).
    destruct (lookup rp (c_root c)) as [[d i m k]|] eqn:El; [|exact H]. destruct (oid_is i o); [exact H|].
    assert (Hgen : forall l, loc_oid c o = l -> not_ghost l ->
                   G (fst (set_oid_after cf (snd (delete_loc c l)) rp o d i m))).
    { intros l <- Hng. pose proof (G_state _ (Gdel c (loc_oid c o) H)) as H1. unfold set_oid_after.
      destruct i as [k0|].
      - destruct (opt_is _); [|apply (Gans ROk); [exact H1|discriminate]].
        pose proof (Gmake _ d rp (Some o) None (adm_norm p Hp) H1) as H2.
        destruct (make_node cf _ d rp (Some o) None). exact H2.
      - destruct (lookup rp (c_root (snd (delete_loc c (loc_oid c o))))) eqn:E1; simpl; [|apply Gghost, H1].
        apply (Gsetid c rp o d m k); auto. congruence. }
    destruct (loc_oid c o) eqn:Eo; [| |apply (Gans ROk); [exact H|discriminate]]; apply Hgen; congruence.
  Qed.

  Theorem step_closed c x : tame cf c = true -> op_admissible x -> Q c -> G (step cf c x).
  Proof.
    intros Ht Hx H. unfold step. rewrite Ht. cbn [negb].
    assert (Herr : forall e, G (RErr e, c)) by (intros e; apply (Gans ROk); [exact H|discriminate]).
    assert (Hdel : forall l, G (ROk, snd (delete_loc c l))) by (intros l; apply G_state, Gdel, H).
    destruct x as [p o m|p o m|p q|o p|p o d|p d o m keep|m o p]; simpl in Hx.
    1-2: (* create, mkdir *) apply Gmake; assumption.
    - unfold op_rename, loc_path. destruct (lookup _ (c_root c)) as [nd|] eqn:El; [|apply Hdel].
      destruct (map (cf_fold cf) p) as [|n rp] eqn:Ep; [apply Herr|]. rewrite El.
      apply (Gmove c (n :: rp)); auto. discriminate.
    - (* delete *) destruct (get_node cf c o p); auto.
    - unfold op_set_oid. destruct o as [o|]; [|apply Herr]. destruct d as [d|]; [|apply Herr].
      unfold loc_path. destruct (lookup _ (c_root c)); [|auto].
      pose proof (set_oid_node_closed c p o Hx H) as Hs. destruct (set_oid_node cf c _ o) as [[r c1] ft]. exact Hs.
    - unfold op_update, loc_path. destruct (md_ok cf (md_or m)); cbn [negb]; [|apply Herr].
      destruct (lookup (map (cf_fold cf) p) (c_root c)) as [nd|] eqn:El; [|auto]. rewrite El.
      destruct (Bool.eqb (n_dir nd) d); cbn [negb].
      + (* same type: _set_oid, then the metadata go to the node it left, in the tree or among the ghosts *)
        assert (Hs : G (fst (match o with Some o => set_oid_node cf c (map (cf_fold cf) p) o | None => (ROk, c, FSame) end)))
          by (destruct o; simpl; auto using set_oid_node_closed).
        destruct (match o with Some o0 => _ | None => _ end) as [[r c1] ft]. simpl fst in Hs.
        destruct r; try exact Hs. apply G_state in Hs. simpl in Hs. destruct keep.
        * destruct ft; [apply Gedit; [apply md_edit_upd|exact Hs]|exact Hs|].
          destruct o as [o|]; [destruct (aget o (c_ghosts c1)); [apply Gghost|]|]; exact Hs.
        * destruct (lookup _ (c_root c1)); try exact Hs. apply Gedit; [apply md_edit_set|exact Hs].
      + (* other type: the node is detached (not the root) and made anew *)
        apply Gmake; [exact Hx|]. destruct (map (cf_fold cf) p) as [|n rp]; [exact H|].
        apply (Hdel (LTree (n :: rp))).
    - unfold op_set_meta. destruct (negb (md_ok_opt cf m)); [apply Herr|].
      destruct (get_node cf c o p) as [[|rp|g gn]|]; [exact H|apply Gedit; [apply md_edit_set|exact H]|apply Gghost, H|apply Herr].
  Qed.
End StepClosed.

Lemma op_admissible_true x : op_admissible (fun _ => True) x.
Proof. destruct x; exact I. Qed.

Lemma inv_pieces cf : step_pieces cf (fun x => Inv (snd x)) (fun _ => True).
Proof.
  exact {| sp_ans := fun r r' c (H : Inv c) _ => H;
           sp_del := delete_loc_inv;
           sp_edit := inv_md_edit;
           sp_ghost := inv_with_ghost;
           sp_make := fun c d p o m _ => make_node_inv cf c d p o m;
           sp_norm := fun p (H : True) => H;
           sp_setid := set_id_inv;
           sp_move := fun c rp nd q _ => move_inv cf c rp nd q |}.
Qed.

Theorem step_inv cf c x : Inv c -> Inv (snd (step cf c x)).
Proof.
  intros HI. destruct (tame cf c) eqn:Ht; [|unfold step; rewrite Ht; exact HI].
  apply (step_closed cf _ _ (inv_pieces cf) c x Ht (op_admissible_true x) HI).
Qed.

Theorem exec_inv cf ops : forall c, Inv c -> Inv (exec cf c ops).
Proof. apply fold_left_invariant. intros c x _. apply step_inv. Qed.
