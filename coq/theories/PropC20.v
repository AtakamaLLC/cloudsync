(* PropC20.v — C20: on-demand sync.  Folders always mirrored, local creations always uploaded, a file that exists only
   remotely never downloaded unless requested (by path, by id, or through an auto-sync predicate), once requested
   downloaded and kept in sync in both directions, un-request uploads newer local edits then removes only the local
   copy and never the remote one, merged listing reports every local file as synced and every not-yet-downloaded
   remote file as not synced.
   (a) gate: the mechanism of cloudsync/smartsync.py; (b) specification [sstep] / [srun]: big-step outcomes for all action sequences;
   (c) monitor: what acceptance of an observation trace means between quiescent points.
   Every theorem is for an ARBITRARY auto-sync predicate [auto : path -> bool].
   [a ~~ b] is [same_tree a b = true] (SmartMonProofs.v). *)
From Coq Require Import NArith List Bool.
From CS Require Import Sx TreeModel TreePaths TreeLookup SmartModel SmartProofs SmartSpecProofs SmartMonProofs.
Import ListNotations.

Theorem C20_gate_unrequested_never_downloaded :
  forall (auto : path -> bool) (w : gworld) (st : gst) (k : N) (e : gent),
  find_ent (g_ents st) k = Some e ->
  g_oid (g_loc e) = None ->
  g_dir e = false ->
  kmem k (g_req st) = false ->
  match g_path (g_rem e) with
  | Some p => auto p = false
  | None => True
  end -> reaches_sync auto w st k = false.
Proof. exact unrequested_never_downloaded. Qed.
Print Assumptions C20_gate_unrequested_never_downloaded.

(* and the filter leaves such an entry unrequested: no later step can take it for a requested one *)
Theorem C20_gate_filter_does_not_request :
  forall (auto : path -> bool) (w : gworld) (st : gst) (k : N) (e : gent),
  find_ent (g_ents st) k = Some e ->
  g_oid (g_loc e) = None ->
  kmem k (g_req st) = false ->
  match g_path (g_rem e) with
  | Some p => auto p = false
  | None => True
  end -> kmem k (g_req (fst (changeset_filter auto w st))) = false.
Proof. intros auto w st k e Hf _ Hr Hauto. apply (filter_keeps auto w st k e (matched_false auto e Hauto) (conj Hf Hr)). Qed.
Print Assumptions C20_gate_filter_does_not_request.

Theorem C20_gate_passes :
  forall (w : gworld) (st : gst) (e : gent),
  g_discarded e = false ->
  g_dir e = true \/ kmem (g_key e) (g_req st) = true \/ local_file w e = true -> pre_sync w st e = false.
Proof.
  intros w st e Hd H. unfold pre_sync. rewrite Hd. simpl. apply negb_false_iff.
  destruct H as [H|[H|H]]; rewrite H; simpl; try reflexivity; try apply orb_true_r.
  destruct (local_file w e); reflexivity.
Qed.
Print Assumptions C20_gate_passes.

Theorem C20_gate_offered_when_pending :
  forall (auto : path -> bool) (w : gworld) (st : gst) (k : N) (e : gent),
  In k (g_changeset st) -> must_offer st k e -> In k (snd (changeset_filter auto w st)).
Proof. intros auto w st k e Hin Hm. apply filter_offered. split; [exact Hin|exact (must_offer_offered auto st k e Hm)]. Qed.
Print Assumptions C20_gate_offered_when_pending.

Theorem C20_gate_unrequest_never_deletes_remote :
  forall (w : gworld) (bp : bool) (st : gst) (e : gent) (st' : gst) (acts : list gact),
  g_unrequest w bp st e = (st', acts) ->
  (forall a : gact,
   In a acts ->
   a = GPushLocal (g_key e) \/ (exists p : path, a = GDeleteLocal p /\ g_path (g_loc e) = Some p)) /\
  (kmem (g_key e) (g_req st) = true ->
   local_leaf w e -> kmem (g_key e) (g_req st') = false /\ kmem (g_key e) (g_exc st') = true) /\
  (kmem (g_key e) (g_req st) = true ->
   local_leaf w e ->
   find_ent (g_ents st) (g_key e) = Some e ->
   g_path (g_loc e) <> None ->
   exists e' : gent,
     find_ent (g_ents st') (g_key e) = Some e' /\
     g_oid (g_loc e') = None /\
     is_local_deletion e' = false /\
     g_oid (g_rem e') = g_oid (g_rem e) /\
     g_exists (g_rem e') = g_exists (g_rem e) /\ g_path (g_rem e') = g_path (g_rem e)) /\
  (kmem (g_key e) (g_req st) = false -> g_req st' = g_req st /\ g_exc st' = g_exc st).
Proof.
  intros w bp st e st' acts H. destruct (g_unrequest_cases w bp st e st' acts H) as (push & Hpush & C).
  split; [|split; [|split]].
  - (* un-request issues no remote delete *)
    destruct (kmem (g_key e) (g_req st)); [destruct (g_path (g_loc e)) as [p|]; [destruct (_ && _)|]|].
    + destruct C as [-> _]. auto.
    + destruct C as [-> _]. intros a [Ha|Ha]%in_app_or; [auto|].
      destruct (pmem p (w_lpaths w)); [destruct Ha as [<-|[]]; eauto|destruct Ha].
    + destruct C as [-> _]. auto.
    + destruct C as [[-> | ->] _]; [intros a []|auto].
  - (* a requested entry (whose local object is not a non-empty folder) leaves the request set and is excluded *)
    intros Hr Hl. rewrite Hr in C.
    assert (G : g_req st' = kdel (g_key e) (g_req st) /\ g_exc st' = kadd (g_key e) (g_exc st)).
    { destruct (g_path (g_loc e)) as [p|] eqn:Hp; [rewrite (Hl p Hp), andb_false_r in C|]; tauto. }
    destruct G as [-> ->]. rewrite kmem_kdel, kmem_kadd, N.eqb_refl. auto.
  - (* ... and the entry left behind has a cleared local side (so the sync step cannot read it as a local deletion)
       and the remote object it had *)
    intros Hr Hl Hf Hn. rewrite Hr in C.
    destruct (g_path (g_loc e)) as [p|] eqn:Hp; [|contradiction Hn; reflexivity].
    rewrite (Hl p Hp), andb_false_r in C. destruct C as (_ & _ & _ & e' & -> & Hk & Hc & K).
    exists e'. split; [exact (find_put_key _ e' e _ Hk Hf)|].
    unfold is_local_deletion. rewrite Hc. cbn. rewrite andb_false_r. auto.
  - (* an entry that is not requested stays as unregistered as it was *)
    intros Hr. rewrite Hr in C. tauto.
Qed.
Print Assumptions C20_gate_unrequest_never_deletes_remote.

Theorem C20_gate_request_registers :
  forall (bo : bool) (w : gworld) (st : gst) (e : gent) (st0 : gst) (e0 : gent)
    (st' : gst) (plan : option (list N)),
  find_ent (g_ents st) (g_key e) = Some e ->
  fill_remote bo w st e = (st0, e0) ->
  g_dir e0 = false ->
  g_request bo w st e = (st', plan) ->
  kmem (g_key e) (g_req st') = true /\
  kmem (g_key e) (g_exc st') = false /\
  (plan = None <-> g_path (g_rem e0) = None) /\
  (forall pl : list N,
   plan = Some pl ->
   (exists pre : list N, pl = pre ++ g_key e :: nil) /\
   (exists e' : gent,
      find_ent (g_ents st') (g_key e) = Some e' /\
      g_changed (g_rem e') = true /\
      g_latest e' = false /\
      g_oid (g_rem e') = g_oid (g_rem e) /\
      (forall p : path,
       g_path (g_loc e) = Some p ->
       pmem p (w_lpaths w) = false ->
       g_oid (g_loc e') = None /\ g_sync_hash (g_rem e') = None /\ g_sync_path (g_rem e') = None))).
Proof. exact request_registers. Qed.
Print Assumptions C20_gate_request_registers.

Theorem C20_gate_request_of_folder_registers_nothing :
  forall (bo : bool) (w : gworld) (st : gst) (e : gent) (st0 : gst) (e0 : gent)
    (st' : gst) (plan : option (list N)),
  fill_remote bo w st e = (st0, e0) ->
  g_dir e0 = true -> g_request bo w st e = (st', plan) -> g_req st' = g_req st0 /\ g_exc st' = g_exc st0.
Proof. exact request_of_folder_registers_nothing. Qed.
Print Assumptions C20_gate_request_of_folder_registers_nothing.

Theorem C20_gate_request_by_id_never_raises :
  forall (w : gworld) (st : gst) (e : gent) (o : N) (i : rinfo) (st' : gst) (plan : option (list N)),
  find_ent (g_ents st) (g_key e) = Some e ->
  g_oid (g_rem e) = Some o ->
  find_robj w o = Some i -> g_request true w st e = (st', plan) -> plan <> None.
Proof. exact request_by_id_never_raises. Qed.
Print Assumptions C20_gate_request_by_id_never_raises.

(* of [g_request_legacy] (cloudsync before fc0a567) [legacy_by_id_never_raises_full] is false *)
Theorem C20_legacy_request_by_id_refuted :
  ~ legacy_by_id_never_raises_full.
Proof. intros H. eapply (H wit_w (wit_st wit_file) wit_file); reflexivity. Qed.
Print Assumptions C20_legacy_request_by_id_refuted.

(* ... and the request it raised on is in force all the same; the repaired request of the same table returns *)
Theorem C20_legacy_request_by_id_registers_then_raises :
  snd (g_request_legacy wit_w (wit_st wit_file) wit_file) = None /\
  kmem 1 (g_req (fst (g_request_legacy wit_w (wit_st wit_file) wit_file))) = true /\
  snd (g_request true wit_w (wit_st wit_file) wit_file) = Some (1%N :: nil).
Proof. vm_compute. repeat split; reflexivity. Qed.
Print Assumptions C20_legacy_request_by_id_registers_then_raises.

(* ... and (before 2277c0d) a request of a folder does register it: [legacy_folder_registers_nothing_full] is false *)
Theorem C20_legacy_folder_request_refuted :
  ~ legacy_folder_registers_nothing_full.
Proof. intros H. specialize (H wit_w (wit_st wit_dir) wit_dir _ _ eq_refl eq_refl). vm_compute in H. discriminate. Qed.
Print Assumptions C20_legacy_folder_request_refuted.

(* the consequence: the un-request that the legacy registration makes possible deletes the local FOLDER and excludes the
   entry (it is then never offered again); after the repaired request the same un-request does nothing.
   No [vm_compute] on the goal as a whole: under [exists e1] it would normalise [g_unrequest] on a variable entry. *)
Theorem C20_legacy_folder_unrequest_deletes_local_folder :
  let st1 := fst (g_request_legacy wit_w (wit_st wit_dir) wit_dir) in
  let st2 := fst (g_request false wit_w (wit_st wit_dir) wit_dir) in
  (exists e1 : gent,
     find_ent (g_ents st1) 1 = Some e1 /\
     snd (g_unrequest wit_w true st1 e1) = GDeleteLocal (1%N :: 7%N :: nil) :: nil /\
     kmem 1 (g_exc (fst (g_unrequest wit_w true st1 e1))) = true) /\
  (exists e2 : gent,
     find_ent (g_ents st2) 1 = Some e2 /\
     snd (g_unrequest wit_w true st2 e2) = nil /\ g_exc (fst (g_unrequest wit_w true st2 e2)) = nil).
Proof. split; eexists; repeat split; reflexivity. Qed.
Print Assumptions C20_legacy_folder_unrequest_deletes_local_folder.

Theorem C20_gate_parents_first :
  forall (st : gst) (e : gent) (k : N),
  In k (request_plan st e) ->
  k = g_key e \/
  (exists pc : gent, g_key pc = k /\ In pc (g_ents st) /\ pc_ok pc = true /\ g_discarded pc = false).
Proof.
  intros st e k [H|(pc & q & p & _ & Hk & Hin & _ & _ & Hok & Hd)]%request_plan_ancestors; [left; exact H|].
  right. exists pc. auto.
Qed.
Print Assumptions C20_gate_parents_first.

(* what the merged listing of one folder contains: a local object as synced; a remote entry as not synced when no
   local object has its name, no side is known to be gone, it passes the path test and reports a size or mtime *)
Theorem C20_gate_listing_law :
  forall (tl : gent -> option path) (ls : list linfo) (rs : list (N * gent)) (it : litem),
  In it (g_listdir tl ls rs) <->
  In (i_name it) (map l_name ls ++ map fst rs) /\
  rent_pass tl (find_rent rs (i_name it)) = true /\
  match find_local ls (i_name it) with
  | Some l => truthy (l_mtime l) (l_size l) = true /\ it = synced_item (i_name it) l
  | None =>
      exists e : gent,
        find_rent rs (i_name it) = Some e /\
        ex_gone (g_exists (g_loc e)) = false /\
        ex_gone (g_exists (g_rem e)) = false /\
        truthy (g_mtime (g_rem e)) (g_size (g_rem e)) = true /\ it = unsynced_item (i_name it) e
  end.
Proof. exact g_listing_law. Qed.
Print Assumptions C20_gate_listing_law.

(* every local object of the folder is reported as synced (unless a same-named entry is mid-rename, or the
   provider reports neither size nor mtime) *)
Theorem C20_gate_listing_local_synced :
  forall (tl : gent -> option path) (ls : list linfo) (rs : list (N * gent)) (l : linfo),
  find_local ls (l_name l) = Some l ->
  truthy (l_mtime l) (l_size l) = true ->
  rent_pass tl (find_rent rs (l_name l)) = true -> In (synced_item (l_name l) l) (g_listdir tl ls rs).
Proof.
  intros tl ls rs l Hl Ht Hp. apply g_listing_law. simpl. rewrite Hl. repeat split; try assumption.
  apply in_or_app. left. apply find_some in Hl. destruct Hl as [Hin _]. apply in_map. exact Hin.
Qed.
Print Assumptions C20_gate_listing_local_synced.

(* an item reported as synced has a local object *)
Theorem C20_gate_listing_never_synced_without_local :
  forall (tl : gent -> option path) (ls : list linfo) (rs : list (N * gent)) (it : litem),
  In it (g_listdir tl ls rs) ->
  i_synced it = true -> exists l : linfo, find_local ls (i_name it) = Some l.
Proof.
  intros tl ls rs it H Hs. apply g_listing_law in H. destruct H as [_ [_ H]].
  destruct (find_local ls (i_name it)) as [l|]; [exists l; reflexivity|].
  destruct H as [e [_ [_ [_ [_ Hit]]]]]. rewrite Hit in Hs. discriminate.
Qed.
Print Assumptions C20_gate_listing_never_synced_without_local.

Theorem C20_spec_invariant :
  forall (auto : path -> bool) (l : list sact) (s s' : sstate),
  sinv s -> srun auto s l = Some s' -> sinv s'.
Proof. exact sinv_srun. Qed.
Print Assumptions C20_spec_invariant.

Theorem C20_folders_always_mirrored :
  forall (auto : path -> bool) (l : list sact) (s : sstate),
  srun auto sinit l = Some s ->
  forall p : path, lookup (sR s) p = Some Dir <-> lookup (sL s) p = Some Dir.
Proof. exact folders_always_mirrored. Qed.
Print Assumptions C20_folders_always_mirrored.

Theorem C20_remote_mkdir_mirrored :
  forall (auto : path -> bool) (s : sstate) (p : path) (s' : sstate),
  sstep auto s (RMkdir p) = Some s' -> lookup (sL s') p = Some Dir /\ lookup (sR s') p = Some Dir.
Proof.
  intros auto s p s' H. apply and_comm. exact (writes_both_mirrored auto s (RMkdir p) s' p Dir eq_refl H).
Qed.
Print Assumptions C20_remote_mkdir_mirrored.

Theorem C20_local_tree_uploaded :
  forall (auto : path -> bool) (l : list sact) (s : sstate),
  srun auto sinit l = Some s ->
  forall (p : path) (n : node), lookup (sL s) p = Some n -> lookup (sR s) p = Some n.
Proof. exact local_tree_uploaded. Qed.
Print Assumptions C20_local_tree_uploaded.

Theorem C20_local_creations_uploaded :
  forall (auto : path -> bool) (s s' : sstate),
  (forall (p : path) (c : content),
   sstep auto s (LCreate p c) = Some s' ->
   lookup (sR s') p = Some (File c) /\ lookup (sL s') p = Some (File c)) /\
  (forall p : path,
   sstep auto s (LMkdir p) = Some s' -> lookup (sR s') p = Some Dir /\ lookup (sL s') p = Some Dir) /\
  (forall (p : path) (c : content),
   sstep auto s (LEdit p c) = Some s' ->
   lookup (sR s') p = Some (File c) /\ lookup (sL s') p = Some (File c)).
Proof. exact local_creations_uploaded. Qed.
Print Assumptions C20_local_creations_uploaded.

Theorem C20_never_download_unrequested :
  forall (auto : path -> bool) (l : list sact) (s : sstate) (p : path),
  srun auto sinit l = Some s ->
  is_file (sR s) p = true -> pmem p (sQ s) = false -> pmem p (sB s) = false -> lookup (sL s) p = None.
Proof. exact never_download_unrequested. Qed.
Print Assumptions C20_never_download_unrequested.

Theorem C20_downloaded_only_if_requested :
  forall (auto : path -> bool) (l : list sact) (s : sstate) (p : path) (c : content),
  srun auto sinit l = Some s ->
  lookup (sL s) p = Some (File c) ->
  In (Request p) l \/
  auto p = true /\ (exists c' : content, In (RCreate p c') l) \/
  (exists c' : content, In (LCreate p c') l).
Proof.
  intros auto l s p c H HL. destruct (i_just s (sinv_reachable auto l s H) p c HL) as [Hq|Hb].
  - (* a requested path was put there by a request or a matched remote creation *)
    destruct (srun_trace auto _ _ (fun s a s' H => proj1 (requested_or_born_origin auto s a s' p H)) l sinit s H Hq)
      as [H1|(a & Ha & [->|(Hp & c' & ->)])]; [discriminate|eauto..].
  - (* a locally born path was created locally *)
    destruct (srun_trace auto _ _ (fun s a s' H => proj2 (requested_or_born_origin auto s a s' p H)) l sinit s H Hb)
      as [H1|(a & Ha & c' & ->)]; [discriminate|eauto].
Qed.
Print Assumptions C20_downloaded_only_if_requested.

Theorem C20_requested_kept_in_sync :
  forall (auto : path -> bool) (l : list sact) (s : sstate) (p : path),
  srun auto sinit l = Some s ->
  pmem p (sQ s) = true ->
  exists c : content, lookup (sR s) p = Some (File c) /\ lookup (sL s) p = Some (File c).
Proof. exact requested_kept_in_sync. Qed.
Print Assumptions C20_requested_kept_in_sync.

Theorem C20_request_downloads :
  forall (auto : path -> bool) (s : sstate) (p : path) (c : content) (s' : sstate),
  lookup (sR s) p = Some (File c) ->
  sstep auto s (Request p) = Some s' ->
  pmem p (sQ s') = true /\ lookup (sL s') p = Some (File c) /\ sR s' = sR s.
Proof.
  intros auto s p c s' HR. simpl. rewrite HR. intros H; inversion H; subst; simpl.
  rewrite pmem_padd, lookup_set, path_eqb_refl. repeat split; reflexivity.
Qed.
Print Assumptions C20_request_downloads.

Theorem C20_requested_persists :
  forall (auto : path -> bool) (s : sstate) (a : sact) (s' : sstate) (p : path),
  sstep auto s a = Some s' ->
  pmem p (sQ s) = true ->
  a <> Unrequest p ->
  a <> RDelete p -> (forall c : content, a <> EditUnrequest p c) -> pmem p (sQ s') = true.
Proof.
  intros auto s a s' p H Hq N1 N2 N3.
  destruct a as [p0 c|p0|p0 c|p0|p0 c|p0|p0 c|p0|p0|p0 c]; simpl in H; guards H; injection H as <-;
    cbn [sQ]; rewrite ?pmem_padd, ?pmem_pdel, Hq; auto using orb_true_r.
  all: rewrite andb_true_r; apply negb_true_iff, path_eqb_neq; congruence.
Qed.
Print Assumptions C20_requested_persists.

Theorem C20_requested_edits_propagate :
  forall (auto : path -> bool) (s : sstate) (p : path) (c : content) (s' : sstate),
  sinv s ->
  pmem p (sQ s) = true ->
  sstep auto s (REdit p c) = Some s' \/ sstep auto s (LEdit p c) = Some s' ->
  lookup (sR s') p = Some (File c) /\ lookup (sL s') p = Some (File c) /\ pmem p (sQ s') = true.
Proof.
  intros auto s p c s' I Hq H. destruct (i_req s I p Hq) as [c0 [HR HL]].
  destruct H as [H|H]; simpl in H; unfold is_file in H; rewrite ?HR, ?HL in H; simpl in H;
    inversion H; subst; simpl; rewrite !lookup_set, path_eqb_refl; repeat split; try reflexivity; exact Hq.
Qed.
Print Assumptions C20_requested_edits_propagate.

Theorem C20_unrequest_keeps_remote :
  forall (auto : path -> bool) (s : sstate) (p : path) (s' : sstate),
  sstep auto s (Unrequest p) = Some s' -> sR s' = sR s.
Proof. exact unrequest_keeps_remote. Qed.
Print Assumptions C20_unrequest_keeps_remote.

Theorem C20_edit_unrequest_keeps_remote :
  forall (auto : path -> bool) (s : sstate) (p : path) (c : content) (s' : sstate),
  sstep auto s (EditUnrequest p c) = Some s' ->
  sR s' = set (sR s) p (File c) /\
  (forall q : path, lookup (sR s) q <> None -> lookup (sR s') q <> None).
Proof.
  intros auto s p c s'. simpl. destruct (is_file (sL s) p); [|discriminate].
  assert (G: forall q, lookup (sR s) q <> None -> lookup (set (sR s) p (File c)) q <> None).
  { intros q Hq. rewrite lookup_set. destruct (path_eqb p q); [discriminate|exact Hq]. }
  destruct (pmem p (sQ s) && is_file (sR s) p); intros H; inversion H; subst; simpl; split; try reflexivity; exact G.
Qed.
Print Assumptions C20_edit_unrequest_keeps_remote.

Theorem C20_unrequest_removes_local_only :
  forall (auto : path -> bool) (s : sstate) (p : path) (s' : sstate),
  sinv s ->
  pmem p (sQ s) = true ->
  sstep auto s (Unrequest p) = Some s' ->
  lookup (sL s') p = None /\
  (forall q : path, q <> p -> lookup (sL s') q = lookup (sL s) q) /\
  pmem p (sQ s') = false /\ pmem p (sX s') = true /\ is_file (sR s') p = true.
Proof.
  intros auto s p s' I Hq. destruct (i_req s I p Hq) as [c [HR HL]]. simpl. unfold is_file. rewrite Hq, HR. simpl.
  intros H; inversion H; subst; simpl. rewrite lookup_remove, pmem_pdel, pmem_padd, path_eqb_refl, HR.
  repeat split; try reflexivity.
  intros q Hne. rewrite lookup_remove. assert (E: path_eqb p q = false) by (apply path_eqb_neq; congruence).
  rewrite E. reflexivity.
Qed.
Print Assumptions C20_unrequest_removes_local_only.

Theorem C20_edit_unrequest_is_edit_then_unrequest :
  forall (auto : path -> bool) (s : sstate) (p : path) (c : content),
  sinv s ->
  sstep auto s (EditUnrequest p c) =
  match sstep auto s (LEdit p c) with
  | Some s1 => sstep auto s1 (Unrequest p)
  | None => None
  end.
Proof.
  intros auto s p c I. simpl. destruct (is_file (sL s) p) eqn:Hf; [|reflexivity]. simpl.
  apply is_file_iff in Hf. destruct Hf as [c0 HL]. pose proof (i_sub s I p c0 HL) as HR.
  unfold is_file. rewrite HR, lookup_set, path_eqb_refl. rewrite !andb_true_r.
  destruct (pmem p (sQ s)); [|reflexivity]. rewrite remove_set_same. reflexivity.
Qed.
Print Assumptions C20_edit_unrequest_is_edit_then_unrequest.

Theorem C20_unrequested_stays_remote :
  forall (auto : path -> bool) (l : list sact) (s : sstate) (p : path),
  srun auto sinit l = Some s ->
  pmem p (sX s) = true -> is_file (sR s) p = true /\ lookup (sL s) p = None /\ pmem p (sQ s) = false.
Proof. exact unrequested_stays_remote. Qed.
Print Assumptions C20_unrequested_stays_remote.

Theorem C20_listing_law :
  forall (s : sstate) (d : path) (x : N) (k : bool),
  NoDup (map fst (sL s)) ->
  NoDup (map fst (sR s)) ->
  (In {| i_name := x; i_isdir := k; i_synced := true |} (listing s d) <->
   (exists n : node, lookup (sL s) (d ++ x :: nil) = Some n /\ node_isdir n = k)) /\
  (In {| i_name := x; i_isdir := k; i_synced := false |} (listing s d) <->
   (exists n : node,
      lookup (sR s) (d ++ x :: nil) = Some n /\ node_isdir n = k /\ lookup (sL s) (d ++ x :: nil) = None)).
Proof. exact listing_law. Qed.
Print Assumptions C20_listing_law.

Theorem C20_listing_law_reachable :
  forall (auto : path -> bool) (l : list sact) (s : sstate) (d : list name),
  srun auto sinit l = Some s ->
  (forall (x : name) (n : node),
   lookup (sL s) (d ++ x :: nil) = Some n ->
   In {| i_name := x; i_isdir := node_isdir n; i_synced := true |} (listing s d)) /\
  (forall (x : name) (c : content),
   lookup (sR s) (d ++ x :: nil) = Some (File c) ->
   lookup (sL s) (d ++ x :: nil) = None ->
   In {| i_name := x; i_isdir := false; i_synced := false |} (listing s d)) /\
  (forall it : litem,
   In it (listing s d) ->
   if i_synced it
   then exists n : node, lookup (sL s) (d ++ i_name it :: nil) = Some n /\ node_isdir n = i_isdir it
   else
    i_isdir it = false /\
    is_file (sR s) (d ++ i_name it :: nil) = true /\
    lookup (sL s) (d ++ i_name it :: nil) = None /\ pmem (d ++ i_name it :: nil) (sQ s) = false).
Proof. exact listing_law_reachable. Qed.
Print Assumptions C20_listing_law_reachable.

(* for every accepted trace and every engine action on the local side in it: a file that appears locally while its
   remote file exists is requested, or matched by the predicate and not un-requested *)
Theorem C20_mon_never_download_unrequested :
  forall (auto : path -> bool) (cfg : mcfg) (l r : tree) (tr : list mobs) (m' : mst),
  mon_accept auto cfg l r tr = inl m' ->
  forall (pre : list mobs) (x : mobs) (post : list mobs) (k : N) (ts : list path),
  tr = pre ++ x :: post ->
  m_ev x = MEng false k ts ->
  exists ma : mst,
    mrun auto cfg (mon_init l r) pre ma /\
    (forall (p rel : path) (c : content),
     lookup (m_L x) p = Some (File c) ->
     lookup (mL ma) p = None ->
     relp (rootL cfg) p = Some rel ->
     is_file (mR ma) (rootR cfg ++ rel) = true ->
     pmem rel (mQ ma) = true \/ auto rel = true /\ pmem rel (mX ma) = false).
Proof.
  intros auto cfg l r tr m' Hacc pre x post k ts Heq Hev.
  destruct (accepted_split auto cfg _ _ _ _ _ _ _ Hacc Heq) as (ma & mb & Ha & Hb).
  exists ma. split; [exact Ha|]. intros p rel c HL Hold Hrel Hf.
  pose proof (download_allowed auto cfg ma x mb k ts Hev Hb p rel c HL Hold Hrel Hf) as H. unfold allowed_local in H.
  rewrite orb_true_iff, andb_true_iff, negb_true_iff in H. exact H.
Qed.
Print Assumptions C20_mon_never_download_unrequested.

Theorem C20_mon_requested_only_by_request :
  forall (auto : path -> bool) (cfg : mcfg) (m : mst) (tr : list mobs) (m' : mst),
  mrun auto cfg m tr m' ->
  forall r : path,
  pmem r (mQ m') = true -> pmem r (mQ m) = true \/ (exists x : mobs, In x tr /\ m_ev x = MReqBegin r).
Proof.
  intros auto cfg m tr m' H r. revert m tr m' H.
  exact (mrun_trace auto cfg _ _ (fun m x m' H => mon_step_Q auto cfg m x m' r H)).
Qed.
Print Assumptions C20_mon_requested_only_by_request.

(* a successful un-request call leaves its path un-requested and not requested *)
Theorem C20_mon_unrequest_end_excludes :
  forall (auto : path -> bool) (cfg : mcfg) (m : mst) (x : mobs) (m' : mst) (b : bracket),
  mon_step auto cfg m x = inl m' ->
  m_ev x = MUnreqEnd true ->
  mB m = Some b -> pmem (b_path b) (mX m') = true /\ pmem (b_path b) (mQ m') = false.
Proof.
  intros auto cfg m x m' b. unfold mon_step. intros H Hev Hb. rewrite Hev, Hb in H.
  destruct (negb _); [discriminate|]. destruct (negb (b_unreq b)); [discriminate|].
  inversion H; subst; simpl. rewrite pmem_padd, pmem_pdel, path_eqb_refl. split; reflexivity.
Qed.
Print Assumptions C20_mon_unrequest_end_excludes.

(* from a state in which r is un-requested (what C20_mon_unrequest_end_excludes establishes), and as long as r is not
   requested again and its remote object not deleted by a user, NO engine action makes r appear locally while its remote
   file exists, whatever the predicate says *)
Theorem C20_mon_unrequested_stays_remote :
  forall (auto : path -> bool) (cfg : mcfg) (m0 : mst) (seg : list mobs) (m1 : mst) (r : path),
  pmem r (mX m0) = true ->
  pmem r (mQ m0) = false ->
  mrun auto cfg m0 seg m1 ->
  forallb (fun x : mobs => negb (touches cfg r x)) seg = true ->
  forall (pre : list mobs) (x : mobs) (post : list mobs) (k : N) (ts : list path),
  seg = pre ++ x :: post ->
  m_ev x = MEng false k ts ->
  exists ma : mst,
    mrun auto cfg m0 pre ma /\
    (forall (p : path) (c : content),
     relp (rootL cfg) p = Some r ->
     lookup (mL ma) p = None ->
     is_file (mR ma) (rootR cfg ++ r) = true -> lookup (m_L x) p <> Some (File c)).
Proof.
  intros auto cfg m0 seg m1 r HX HQ Hrun Hnt pre x post k ts -> Hev.
  destruct (mrun_split auto cfg _ _ _ Hrun pre x post eq_refl) as (ma & mb & Ha & Hb).
  exists ma. split; [exact Ha|].
  rewrite forallb_app in Hnt. apply andb_true_iff in Hnt as [Hnt _].
  destruct (mrun_untouched auto cfg _ _ _ r Ha Hnt (conj HX HQ)) as [HXa HQa].
  intros p c Hrel Hold Hf HL.
  pose proof (download_allowed auto cfg ma x mb k ts Hev Hb p r c HL Hold Hrel Hf) as H. unfold allowed_local in H.
  rewrite HQa, HXa, andb_false_r in H. discriminate H.
Qed.
Print Assumptions C20_mon_unrequested_stays_remote.

Theorem C20_mon_unrequest_never_deletes_remote :
  forall (auto : path -> bool) (cfg : mcfg) (l r : tree) (tr : list mobs) (m' : mst),
  mon_accept auto cfg l r tr = inl m' ->
  forall (pre : list mobs) (x : mobs) (post : list mobs) (k : N) (ts : list path),
  tr = pre ++ x :: post ->
  m_ev x = MEng true k ts ->
  exists ma : mst,
    mrun auto cfg (mon_init l r) pre ma /\
    (forall (p : path) (c : content),
     lookup (mR ma) p = Some (File c) ->
     lookup (m_R x) p = None ->
     in_unreq ma = false /\
     (forall rel : path, relp (rootR cfg) p = Some rel -> pmem rel (mD ma) = true)).
Proof. exact mon_unrequest_never_deletes_remote. Qed.
Print Assumptions C20_mon_unrequest_never_deletes_remote.

(* in a run without any user deleting a local file (the alphabet of C20), no engine action ever removes a remote file *)
Theorem C20_mon_no_remote_delete_without_local_delete :
  forall (auto : path -> bool) (cfg : mcfg) (l r : tree) (tr : list mobs) (m' : mst),
  mon_accept auto cfg l r tr = inl m' ->
  (forall (x : mobs) (p : path), In x tr -> m_ev x <> MUser false (Delete p)) ->
  forall (pre : list mobs) (x : mobs) (post : list mobs) (k : N) (ts : list path),
  tr = pre ++ x :: post ->
  m_ev x = MEng true k ts ->
  exists ma : mst,
    mrun auto cfg (mon_init l r) pre ma /\
    (forall (p : path) (c : content) (rel : path),
     relp (rootR cfg) p = Some rel -> lookup (mR ma) p = Some (File c) -> lookup (m_R x) p <> None).
Proof.
  intros auto cfg l r tr m' Hacc Hno pre x post k ts Heq Hev.
  destruct (mon_unrequest_never_deletes_remote auto cfg l r tr m' Hacc pre x post k ts Heq Hev) as [ma [Ha H]].
  exists ma. split; [exact Ha|]. intros p c rel Hrel HR Hnone.
  destruct (H p c HR Hnone) as [_ HD].
  destruct (mrun_deleted_origin auto cfg _ _ _ rel Ha (HD rel Hrel)) as [H1|(y & q & Hy1 & Hy2 & _)]; [discriminate|].
  apply (Hno y q); [|exact Hy2]. subst tr. apply in_or_app. left. exact Hy1.
Qed.
Print Assumptions C20_mon_no_remote_delete_without_local_delete.

Theorem C20_mon_deleted_only_by_user :
  forall (auto : path -> bool) (cfg : mcfg) (m : mst) (tr : list mobs) (m' : mst),
  mrun auto cfg m tr m' ->
  forall r : path,
  pmem r (mD m') = true ->
  pmem r (mD m) = true \/
  (exists (x : mobs) (p : path),
     In x tr /\ m_ev x = MUser false (Delete p) /\ relp (rootL cfg) p = Some r).
Proof.
  intros auto cfg m tr m' H r. exact (mrun_deleted_origin auto cfg m tr m' r H).
Qed.
Print Assumptions C20_mon_deleted_only_by_user.

(* every engine action inside an un-request call of r leaves the remote tree as it was except for the content of
   r's remote file (the upload of a newer local edit), and the local tree as it was except for r's local copy *)
Theorem C20_mon_unrequest_touches_only_its_file :
  forall (auto : path -> bool) (cfg : mcfg) (l r : tree) (tr : list mobs) (m' : mst),
  mon_accept auto cfg l r tr = inl m' ->
  forall (pre : list mobs) (x : mobs) (post : list mobs) (s : side) (k : N) (ts : list path),
  tr = pre ++ x :: post ->
  m_ev x = MEng s k ts ->
  exists ma : mst,
    mrun auto cfg (mon_init l r) pre ma /\
    (forall b : bracket,
     mB ma = Some b ->
     b_unreq b = true ->
     if s
     then
      mL ma ~~ m_L x /\
      same_but (rootR cfg ++ b_path b) (mR ma) (m_R x) = true /\
      isnone (lookup (mR ma) (rootR cfg ++ b_path b)) = isnone (lookup (m_R x) (rootR cfg ++ b_path b))
     else mR ma ~~ m_R x /\ same_but (rootL cfg ++ b_path b) (mL ma) (m_L x) = true).
Proof.
  intros auto cfg l r tr m' Hacc pre x post s k ts Heq Hev.
  destruct (accepted_split auto cfg _ _ _ _ _ _ _ Hacc Heq) as (ma & mb & Ha & Hb).
  exists ma. split; [exact Ha|]. intros b HB Hu.
  pose proof (eng_step_sound auto cfg ma x mb s k ts Hev Hb) as Hok.
  destruct s.
  - exact (conj (ro_other cfg ma x Hok) (ro_unreq cfg ma x Hok b HB Hu)).
  - exact (conj (lo_other auto cfg ma x Hok) (lo_unreq auto cfg ma x Hok b HB Hu)).
Qed.
Print Assumptions C20_mon_unrequest_touches_only_its_file.

(* user operations are tied to the tree model (TreeModel.apply_op) *)
Theorem C20_mon_user_tie :
  forall (auto : path -> bool) (cfg : mcfg) (l r : tree) (tr : list mobs) (m' : mst),
  mon_accept auto cfg l r tr = inl m' ->
  forall (pre : list mobs) (x : mobs) (post : list mobs) (s : side) (o : op),
  tr = pre ++ x :: post ->
  m_ev x = MUser s o ->
  exists ma : mst,
    mrun auto cfg (mon_init l r) pre ma /\
    apply_op (if s then mR ma else mL ma) o ~~ (if s then m_R x else m_L x) /\
    (if s then mL ma ~~ m_L x else mR ma ~~ m_R x).
Proof.
  intros auto cfg l r tr m' Hacc pre x post s o Heq Hev.
  destruct (accepted_split auto cfg _ _ _ _ _ _ _ Hacc Heq) as (ma & mb & Ha & Hb).
  exists ma. split; [exact Ha|]. unfold mon_step in Hb. rewrite Hev in Hb.
  destruct (negb (isnone (mB ma))); [discriminate|].
  destruct (negb _) eqn:G; [discriminate|]. apply negb_false_iff in G. apply andb_true_iff in G.
  destruct s; exact G.
Qed.
Print Assumptions C20_mon_user_tie.

(* Examples: the hypotheses are satisfiable; the acceptor rejects the forbidden traces *)
Local Open Scope N_scope.
Definition ex_rem : gside :=
  {| g_oid := Some 10; g_path := Some [2; 7]; g_changed := true; g_exists := XExists; g_hash := Some 1;
     g_sync_hash := None; g_sync_path := None; g_size := 3; g_mtime := 5 |}.
Definition ex_ent : gent :=
  {| g_key := 1; g_loc := cleared; g_rem := ex_rem; g_dir := false; g_lfresh := true; g_rfresh := false; g_discarded := false;
     g_conflicted := false |}.
Definition ex_w : gworld := {| w_lpaths := []; w_loids := []; w_lhash := []; w_robjs := [] |}.
Definition ex_st (req exc : list N) : gst := {| g_ents := [ex_ent]; g_changeset := [1]; g_req := req; g_exc := exc |}.
(* a pending remote-only file, not requested, no predicate: offered (it needs a get_latest) but finished at the gate *)
Example ex_gate_blocks :
  In 1 (snd (changeset_filter (fun _ => false) ex_w (ex_st [] []))) /\
  reaches_sync (fun _ => false) ex_w (ex_st [] []) 1 = false.
Proof. vm_compute. split; [left; reflexivity|reflexivity]. Qed.
Example ex_gate_requested_passes : reaches_sync (fun _ => false) ex_w (ex_st [1] []) 1 = true.
Proof. vm_compute. reflexivity. Qed.
(* the predicate is consulted only once the entry is up to date (the first pass is the get_latest): two passes *)
Definition ex_ent_latest : gent :=
  {| g_key := 1; g_loc := cleared; g_rem := ex_rem; g_dir := false; g_lfresh := true; g_rfresh := true; g_discarded := false;
     g_conflicted := false |}.
Definition ex_st2 : gst := {| g_ents := [ex_ent_latest]; g_changeset := [1]; g_req := []; g_exc := [] |}.
Example ex_gate_matched_passes :
  reaches_sync (fun _ => true) ex_w (ex_st [] []) 1 = false /\ reaches_sync (fun _ => true) ex_w ex_st2 1 = true /\
  reaches_sync (fun _ => false) ex_w ex_st2 1 = false.
Proof. vm_compute. repeat split; reflexivity. Qed.
(* un-requested: not even offered, predicate or not *)
Example ex_gate_excluded_not_offered : snd (changeset_filter (fun _ => true) ex_w (ex_st [] [1])) = [].
Proof. vm_compute. reflexivity. Qed.

Definition ex_acts : list sact :=
  [RMkdir [1]; RCreate [1; 2] 7; LCreate [3] 8; Request [1; 2]; REdit [1; 2] 9; EditUnrequest [1; 2] 10].
Example ex_spec_before_request :
  exists s, srun (fun _ => false) sinit (firstn 3 ex_acts) = Some s /\
            lookup (sL s) [1; 2] = None /\ lookup (sR s) [1; 2] = Some (File 7) /\
            lookup (sL s) [1] = Some Dir /\ lookup (sR s) [3] = Some (File 8).
Proof. eexists. split; [vm_compute; reflexivity|]. vm_compute. repeat split; reflexivity. Qed.
Example ex_spec_requested :
  exists s, srun (fun _ => false) sinit (firstn 5 ex_acts) = Some s /\
            lookup (sL s) [1; 2] = Some (File 9) /\ lookup (sR s) [1; 2] = Some (File 9) /\ pmem [1; 2] (sQ s) = true.
Proof. eexists. split; [vm_compute; reflexivity|]. vm_compute. repeat split; reflexivity. Qed.
Example ex_spec_unrequested :
  exists s, srun (fun _ => false) sinit ex_acts = Some s /\
            lookup (sL s) [1; 2] = None /\ lookup (sR s) [1; 2] = Some (File 10) /\
            pmem [1; 2] (sX s) = true /\ pmem [1; 2] (sQ s) = false /\
            listing s [1] = [{| i_name := 2; i_isdir := false; i_synced := false |}].
Proof. eexists. split; [vm_compute; reflexivity|]. vm_compute. repeat split; reflexivity. Qed.
(* with a predicate that matches, the remote creation is downloaded at once *)
Example ex_spec_auto :
  exists s, srun (fun _ => true) sinit (firstn 2 ex_acts) = Some s /\ lookup (sL s) [1; 2] = Some (File 7).
Proof. eexists. split; [vm_compute; reflexivity|]. vm_compute. reflexivity. Qed.
(* outside the domain: a local creation at a path occupied remotely *)
Example ex_spec_out_of_domain : srun (fun _ => false) sinit [RCreate [2] 7; LCreate [2] 8] = None.
Proof. vm_compute. reflexivity. Qed.

Definition ex_cfg : mcfg := {| c_rootL := [1]; c_rootR := [2] |}.
Definition ex_l0 : tree := [([1], Dir)].
Definition ex_r0 : tree := [([2], Dir)].
Definition ex_l1 : tree := [([1], Dir); ([1; 3], File 7)].
Definition ex_r1 : tree := [([2], Dir); ([2; 3], File 7)].
Definition ob (e : mev) (l r : tree) : mobs := {| m_ev := e; m_L := l; m_R := r |}.
(* remote create; quiet; request -> download; quiet; un-request -> local delete only; quiet *)
Definition ex_trace : list mobs :=
  [ ob (MUser true (Create [2; 3] 7)) ex_l0 ex_r1; ob MStep ex_l0 ex_r1; ob MQuiet ex_l0 ex_r1;
    ob (MReqBegin [3]) ex_l0 ex_r1; ob (MEng false 0 [[1; 3]]) ex_l1 ex_r1; ob (MReqEnd true) ex_l1 ex_r1;
    ob MQuiet ex_l1 ex_r1;
    ob (MUnreqBegin [3]) ex_l1 ex_r1; ob (MEng false 3 [[1; 3]]) ex_l0 ex_r1; ob (MUnreqEnd true) ex_l0 ex_r1;
    ob MQuiet ex_l0 ex_r1 ].
Example ex_mon_accepted : exists m, mon_accept (fun _ => false) ex_cfg ex_l0 ex_r0 ex_trace = inl m.
Proof. eexists. vm_compute. reflexivity. Qed.
(* the download without the request is rejected *)
Example ex_mon_rejects_download :
  mon_accept (fun _ => false) ex_cfg ex_l0 ex_r0
    [ ob (MUser true (Create [2; 3] 7)) ex_l0 ex_r1; ob (MEng false 0 [[1; 3]]) ex_l1 ex_r1 ] = inr (1%nat, C_DOWNLOAD).
Proof. vm_compute. reflexivity. Qed.
(* ... and accepted when the predicate matches *)
Example ex_mon_accepts_matched : exists m,
  mon_accept (fun _ => true) ex_cfg ex_l0 ex_r0
    [ ob (MUser true (Create [2; 3] 7)) ex_l0 ex_r1; ob (MEng false 0 [[1; 3]]) ex_l1 ex_r1 ] = inl m.
Proof. eexists. vm_compute. reflexivity. Qed.
(* ... but not after an un-request, even though the predicate matches *)
Example ex_mon_rejects_redownload :
  mon_accept (fun _ => true) ex_cfg ex_l0 ex_r0 (ex_trace ++ [ob (MEng false 0 [[1; 3]]) ex_l1 ex_r1]) = inr (11%nat, C_DOWNLOAD).
Proof. vm_compute. reflexivity. Qed.
(* a remote delete inside the un-request is rejected *)
Example ex_mon_rejects_remote_delete_in_unrequest :
  mon_accept (fun _ => false) ex_cfg ex_l0 ex_r0
    (firstn 8 ex_trace ++ [ob (MEng true 3 [[2; 3]]) ex_l1 ex_r0]) = inr (8%nat, C_RDELETE_UNREQ).
Proof. vm_compute. reflexivity. Qed.
(* a remote delete that follows the un-request's own local delete (no user deleted the local copy) is rejected *)
Example ex_mon_rejects_remote_delete_after_unrequest :
  mon_accept (fun _ => false) ex_cfg ex_l0 ex_r0
    (ex_trace ++ [ob (MEng true 3 [[2; 3]]) ex_l0 ex_r0]) = inr (11%nat, C_RDELETE).
Proof. vm_compute. reflexivity. Qed.
(* a remote delete that propagates a USER's delete of the local copy is accepted *)
Example ex_mon_accepts_user_delete : exists m,
  mon_accept (fun _ => false) ex_cfg ex_l0 ex_r0
    (firstn 7 ex_trace ++ [ob (MUser false (Delete [1; 3])) ex_l0 ex_r1; ob (MEng true 3 [[2; 3]]) ex_l0 ex_r0]) = inl m.
Proof. eexists. vm_compute. reflexivity. Qed.
