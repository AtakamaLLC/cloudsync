(* TreeLookup.v — what remove / set / move / view / outside / has_children mean in terms of
   [lookup]; extensional equivalence [teq]; well-formedness [wf] = unique keys + parent-closed. *)
From Coq Require Import NArith List Bool Permutation.
From CS Require Import Sx TreeModel TreePaths.
Import ListNotations.

Definition teq (a b : tree) : Prop := forall p, lookup a p = lookup b p.

Lemma teq_refl a : teq a a.
Proof. intros p. reflexivity. Qed.
Lemma teq_sym a b : teq a b -> teq b a.
Proof. intros H p. symmetry. apply H. Qed.
Lemma teq_trans a b c : teq a b -> teq b c -> teq a c.
Proof. intros H1 H2 p. rewrite H1. apply H2. Qed.

Definition closed (t : tree) : Prop :=
  forall k, lookup t k <> None -> k <> [] /\ is_dir t (parent k) = true.

Definition wf (t : tree) : Prop := NoDup (map fst t) /\ closed t.

Lemma lookup_filter (g : path -> bool) t r :
  lookup (filter (fun e => g (fst e)) t) r = if g r then lookup t r else None.
Proof.
  induction t as [|[k n] t IH]; simpl; [destruct (g r); reflexivity|].
  destruct (path_eqb k r) eqn:E.
  - apply path_eqb_eq in E. subst k.
    destruct (g r) eqn:Hg; simpl; rewrite ?path_eqb_refl, ?Hg in *; [reflexivity|exact IH].
  - destruct (g k); simpl; rewrite ?E; exact IH.
Qed.

Lemma lookup_remove t p q : lookup (remove t p) q = if path_eqb p q then None else lookup t q.
Proof.
  unfold remove. rewrite (lookup_filter (fun k => negb (path_eqb k p))).
  rewrite (path_eqb_sym q p). destruct (path_eqb p q); reflexivity.
Qed.

Lemma lookup_outside root t r :
  lookup (outside root t) r = if strict_prefix root r then None else lookup t r.
Proof.
  unfold outside. rewrite (lookup_filter (fun k => negb (strict_prefix root k))).
  destruct (strict_prefix root r); reflexivity.
Qed.

Lemma lookup_app t u q :
  lookup (t ++ u) q = match lookup t q with Some n => Some n | None => lookup u q end.
Proof.
  induction t as [|[k n] t IH]; simpl; [reflexivity|].
  destruct (path_eqb k q); [reflexivity|exact IH].
Qed.

Lemma lookup_set t p n q : lookup (set t p n) q = if path_eqb p q then Some n else lookup t q.
Proof.
  unfold set. rewrite lookup_app, lookup_remove. simpl.
  destruct (path_eqb p q); [reflexivity|]. destruct (lookup t q); reflexivity.
Qed.

Lemma lookup_keys t k : lookup t k <> None <-> In k (map fst t).
Proof.
  induction t as [|[q n] t IH]; simpl.
  - split; [congruence|tauto].
  - destruct (path_eqb q k) eqn:E.
    + apply path_eqb_eq in E. split; [intros _; left; exact E|congruence].
    + apply path_eqb_neq in E. rewrite IH. split; [tauto|]. intros [H|H]; [congruence|exact H].
Qed.

Lemma lookup_In t k n : lookup t k = Some n -> In (k, n) t.
Proof.
  induction t as [|[q m] t IH]; simpl; [discriminate|].
  destruct (path_eqb q k) eqn:E.
  - apply path_eqb_eq in E. intros H. inversion H; subst. left. reflexivity.
  - intros H. right. apply IH. exact H.
Qed.

Lemma In_lookup t k n : NoDup (map fst t) -> In (k, n) t -> lookup t k = Some n.
Proof.
  induction t as [|[q m] t IH]; simpl; intros Hnd Hin; [tauto|].
  inversion Hnd as [|x l Hnot Hnd']; subst.
  destruct Hin as [H|H].
  - inversion H; subst. rewrite path_eqb_refl. reflexivity.
  - destruct (path_eqb q k) eqn:E.
    + apply path_eqb_eq in E. subst. exfalso. apply Hnot.
      change k with (fst (k, n)). apply in_map. exact H.
    + apply IH; assumption.
Qed.

Lemma has_children_iff t p :
  has_children t p = true <-> exists s, s <> [] /\ lookup t (p ++ s) <> None.
Proof.
  unfold has_children. rewrite existsb_exists. split.
  - intros [[k n] [Hin Hs]]. simpl in Hs. apply strict_prefix_iff in Hs as [s [Hne Hk]].
    exists s. split; [exact Hne|]. subst k. apply lookup_keys.
    change (p ++ s) with (fst (p ++ s, n)). apply in_map. exact Hin.
  - intros [s [Hne Hl]]. apply lookup_keys in Hl. apply in_map_iff in Hl as [[k n] [Hk Hin]].
    simpl in Hk. subst k. exists (p ++ s, n). split; [exact Hin|]. simpl.
    apply strict_prefix_app. exact Hne.
Qed.

Lemma has_children_false t p s :
  has_children t p = false -> s <> [] -> lookup t (p ++ s) = None.
Proof.
  intros H Hne. destruct (lookup t (p ++ s)) eqn:E; [|reflexivity].
  rewrite (proj2 (has_children_iff t p)) in H; [discriminate|]. exists s. split; [exact Hne|congruence].
Qed.

Lemma lookup_view root t r :
  lookup (view root t) r = match r with [] => None | _ => lookup t (root ++ r) end.
Proof.
  induction t as [|[k n] t IH].
  - simpl. destruct r; reflexivity.
  - unfold view in *. simpl flat_map. simpl fst. simpl snd.
    destruct (strict_prefix root k) eqn:Es.
    + apply strict_prefix_iff in Es as [u [Hu Hk]]. subst k. rewrite skipn_len_app.
      simpl app. simpl lookup. rewrite IH.
      destruct r as [|x r].
      * rewrite (path_eqb_false u [] Hu). reflexivity.
      * rewrite path_eqb_app_cancel. reflexivity.
    + simpl app. rewrite IH. destruct r as [|x r]; [reflexivity|].
      simpl lookup. rewrite path_eqb_false; [reflexivity|]. intros ->.
      rewrite strict_prefix_app in Es; discriminate.
Qed.

Lemma nodup_remove t p : NoDup (map fst t) -> NoDup (map fst (remove t p)).
Proof. apply NoDup_map_filter. Qed.

Lemma nodup_set t p n : NoDup (map fst t) -> NoDup (map fst (set t p n)).
Proof.
  intros H. unfold set. rewrite map_app. simpl.
  apply Permutation_NoDup with (l := p :: map fst (remove t p)).
  - apply Permutation_cons_append.
  - constructor; [|apply nodup_remove; exact H].
    intros Hin%lookup_keys. rewrite lookup_remove, path_eqb_refl in Hin. congruence.
Qed.

Lemma lookup_rekey (f g : path -> path) t r :
  (forall k, In k (map fst t) -> g (f k) = k) ->
  lookup (map (fun e => (f (fst e), snd e)) t) r = if path_eqb (f (g r)) r then lookup t (g r) else None.
Proof.
  induction t as [|[k n] t IH]; cbn [map lookup fst snd]; intros Hg.
  - destruct (path_eqb (f (g r)) r); reflexivity.
  - rewrite IH by (intros k' Hk'; apply Hg; right; exact Hk').
    pose proof (Hg k (or_introl eq_refl)) as Hk. destruct (path_eqb (f k) r) eqn:E.
    + apply path_eqb_eq in E. subst r. rewrite Hk, !path_eqb_refl. reflexivity.
    + destruct (path_eqb (f (g r)) r) eqn:E2; [|reflexivity].
      rewrite path_eqb_false; [reflexivity|]. intros ->. congruence.
Qed.

(* the key that [move t p q] gives to an entry stored at k, and its inverse on keys not at or below q *)
Definition mv_key (p q k : path) : path :=
  if is_prefix p k then q ++ skipn (length p) k else k.
Definition mv_back (p q r : path) : path :=
  if is_prefix q r then p ++ skipn (length q) r else r.

Definition vacant (L : path -> option node) (q : path) : Prop := forall k, pre q k -> L k = None.

Lemma move_rekey t p q : move t p q = map (fun e => (mv_key p q (fst e), snd e)) t.
Proof.
  unfold move, mv_key. apply map_ext. intros [k n]. cbn. destruct (is_prefix p k); reflexivity.
Qed.

Lemma mv_key_back p q k : ~ pre q k -> mv_back p q (mv_key p q k) = k.
Proof.
  intros Hk. unfold mv_back, mv_key. destruct (is_prefix p k) eqn:E.
  - apply is_prefix_iff in E as [u ->]. rewrite is_prefix_app, !skipn_len_app. reflexivity.
  - apply is_prefix_false_iff in Hk. rewrite Hk. reflexivity.
Qed.

(* the paths that a move fills: those at or below q, and those not at or below p *)
Lemma mv_back_key_eqb p q r :
  path_eqb (mv_key p q (mv_back p q r)) r = is_prefix q r || negb (is_prefix p r).
Proof.
  unfold mv_back, mv_key. destruct (is_prefix q r) eqn:Eq.
  - apply is_prefix_iff in Eq as [s ->]. rewrite skipn_len_app, is_prefix_app, skipn_len_app. apply path_eqb_refl.
  - destruct (is_prefix p r) eqn:Ep; cbn [orb negb]; [|apply path_eqb_refl].
    apply path_eqb_neq. intros H. rewrite <- H, is_prefix_app in Eq. discriminate.
Qed.

Lemma mv_keys_back t p q :
  vacant (lookup t) q ->
  forall k, In k (map fst t) -> mv_back p q (mv_key p q k) = k.
Proof.
  intros Hq k Hin. apply mv_key_back. intros Hpre. apply lookup_keys in Hin. apply Hin, Hq, Hpre.
Qed.

(* no unique-key assumption needed, only that nothing is stored at or below the target *)
Lemma lookup_move t p q r :
  vacant (lookup t) q ->
  lookup (move t p q) r =
    if is_prefix q r then lookup t (p ++ skipn (length q) r)
    else if is_prefix p r then None else lookup t r.
Proof.
  intros Hq. rewrite move_rekey, (lookup_rekey _ (mv_back p q)) by (apply mv_keys_back; exact Hq).
  rewrite mv_back_key_eqb. unfold mv_back.
  destruct (is_prefix q r); [reflexivity|]. destruct (is_prefix p r); reflexivity.
Qed.

Lemma nodup_move t p q :
  vacant (lookup t) q ->
  NoDup (map fst t) -> NoDup (map fst (move t p q)).
Proof.
  intros Hq Hnd. rewrite move_rekey, map_map. apply (NoDup_map_inv (mv_back p q)). rewrite map_map.
  rewrite (map_ext_in _ fst); [exact Hnd|].
  intros e Hin. apply (mv_keys_back t p q Hq), in_map, Hin.
Qed.
