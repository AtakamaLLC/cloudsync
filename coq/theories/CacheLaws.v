(* CacheLaws.v — the lemmas behind the coherence laws of C19, on top of the invariant: the id dict and the
   getters in terms of [has_id], what delete and insertion forget, where an inserted or renamed node is found. *)
From Coq Require Import NArith List Bool Lia.
From CS Require Import Sx Str CacheModel CacheProofs CacheInv.
Import ListNotations.

Lemma tame_path fold t rp nd :
  keys_ok fold t = true -> lookup rp t = Some nd -> map fold rp = rp /\ clean rp = rp.
Proof.
  intros Ht Hl. pose proof (path_names_ok fold t rp nd Ht Hl) as H. clear Hl. unfold clean.
  induction rp as [|n rp IH]; simpl in *; [auto|]. apply andb_true_iff in H as [Hn H].
  apply name_ok_iff in Hn as [Hf Hz]. destruct (IH H) as [H1 H2]. apply N.eqb_neq in Hz.
  rewrite Hf, Hz, H1. simpl. rewrite H2. auto.
Qed.

Lemma get_oid_lookup cf c p :
  get_oid cf c p = match lookup (map (cf_fold cf) p) (c_root c) with Some t => n_id t | None => None end.
Proof. unfold get_oid, loc_path. destruct (lookup _ (c_root c)) eqn:E; simpl; [rewrite E|]; reflexivity. Qed.

Lemma get_oid_spec cf c p o :
  get_oid cf c p = Some o <-> has_id (c_root c) (map (cf_fold cf) p) o.
Proof.
  rewrite get_oid_lookup. unfold has_id. destruct (lookup _ (c_root c)) as [nd|].
  - split; [intros H; exists nd; auto|intros [x [[= <-] Hi]]; exact Hi].
  - split; [discriminate|intros [x [Hx _]]; discriminate].
Qed.

(* self._oid_to_node.get(o), for an id that is no ghost *)
Lemma loc_map_tree c o rp :
  Inv c -> loc_map c o = LTree rp <-> aget o (c_ghosts c) = None /\ has_id (c_root c) rp o.
Proof.
  intros HI. rewrite <- (index_has_id _ o rp HI). unfold loc_map.
  destruct (aget o (c_ghosts c)); [split; [|intros [? _]]; discriminate|].
  destruct (aget o (index (c_root c))) as [rp'|].
  - split; [intros [= ->]; auto|intros [_ [= ->]]; reflexivity].
  - split; [|intros [_ ?]]; discriminate.
Qed.

Lemma loc_oid_map c o : loc_oid c o = if N.eqb o (rid c) then LTree [] else loc_map c o.
Proof. reflexivity. Qed.

(* full_path() of an id that is no ghost *)
Lemma get_path_spec c o rp :
  Inv c -> aget o (c_ghosts c) = None -> has_id (c_root c) rp o -> get_path c o = Some (clean rp).
Proof. intros HI Hg H. unfold get_path. rewrite (proj2 (loc_map_tree c o rp HI) (conj Hg H)). reflexivity. Qed.

Lemma get_path_none c o : Inv c -> unknown c o -> get_path c o = None.
Proof. intros HI [Hno Hg]. unfold get_path, loc_map. rewrite Hg, index_none; auto. Qed.

Theorem names_nodup c q nd : Inv c -> lookup q (c_root c) = Some nd -> NoDup (map fst (n_kids nd)).
Proof. intros HI Hl. apply nodupb_nodup, (all_nodes_here (P := PK)), (all_nodes_lookup (inv_knodup _ HI) Hl). Qed.

Lemma delete_loc_forgets c rp q o :
  Inv c -> prefixb rp q = true -> q <> [] -> has_id (c_root c) q o -> aget o (c_ghosts c) = None ->
  let c' := snd (delete_loc c (LTree rp)) in
  lookup q (c_root c') = None /\ unknown c' o.
Proof.
  intros HI Hp Hq Hh Hg c'. unfold c'. rewrite delete_loc_tree. split; [|split].
  - apply lookup_cut_below; assumption.
  - intros q' H. apply has_id_cut in H as [H1 H2].
    rewrite (inv_uniq _ HI q' q o H1 Hh) in H2. destruct H2; congruence.
  - exact Hg.
Qed.

(* the second half of __insert_node: the deletes bring nothing back, the attachment adds the node's ids only *)
Lemma insert_tail_unknown par nm nd pid c2 o' :
  unknown c2 o' -> absent nd o' -> unknown (snd (insert_tail par nm nd pid c2)) o'.
Proof.
  intros [Hno Hg] Hnd. apply (insert_tail_closed (fun c => unknown c o')).
  - intros l. split; [|rewrite delete_loc_ghosts; exact Hg].
    exact (absent_sub _ _ _ (view_sub_ids _ _ (delete_loc_view_sub c2 l)) Hno).
  - intros c3 [Hno3 Hg3]. unfold attach_node. destruct (lookup par (c_root c3)) as [P|].
    + split; [|exact Hg3]. intros q H. apply has_id_attach in H as [H|[r [_ H]]].
      * exact (Hno3 _ H).
      * exact (Hnd _ H).
    + destruct (n_id nd) as [o|] eqn:Eo; [|split; assumption]. split; [exact Hno3|]. simpl.
      rewrite aget_aset. destruct (N.eqb_spec o' o) as [->|]; [|exact Hg3].
      destruct (Hnd [] (proj2 (has_id_nil nd o) Eo)).
Qed.

(* an id keeps its path through the first half of __insert_node, and that half leaves nothing at or below the
   target *)
Lemma insert_node_forgets cf c nd raw rel o' :
  Inv c -> map (cf_fold cf) raw = raw -> rel <> [] ->
  has_id (c_root c) (raw ++ rel) o' -> aget o' (c_ghosts c) = None -> absent nd o' ->
  unknown (snd (insert_node cf c nd raw)) o'.
Proof.
  intros HI Hn Hrel Hh Hg Hnd. rewrite insert_node_eq. apply insert_tail_unknown; [|exact Hnd].
  split; [|rewrite ins_pre_ghosts; exact Hg].
  intros q H. pose proof H as [x [Hx _]]. rewrite (inv_uniq _ HI _ _ _ (ins_pre_ids_sub cf c raw _ _ H) Hh) in Hx.
  rewrite <- Hn in Hx at 1. rewrite ins_pre_vacant in Hx; [discriminate|].
  intros He. apply app_eq_nil in He as [_ He]. exact (Hrel He).
Qed.

(* __insert_node is handed normalised paths only *)
Lemma insert_node_fresh cf c nd raw :
  Inv c -> raw <> [] -> map (cf_fold cf) raw = raw ->
  (forall o, n_id nd = Some o -> o <> rid c /\ absent (c_root c) o) ->
  fst (insert_node cf c nd raw) = ROk ->
  lookup raw (c_root (snd (insert_node cf c nd raw))) = Some nd /\
  c_ghosts (snd (insert_node cf c nd raw)) = c_ghosts c.
Proof.
  intros HI Hne Hn Hfresh. rewrite insert_node_eq.
  pose proof (ins_pre_inv cf c raw HI) as HI2. pose proof (ins_pre_ghosts cf c raw) as Hg2.
  pose proof (ins_pre_ids_sub cf c raw) as Hs2. pose proof (ins_pre_info cf c raw) as Hinfo.
  destruct (ins_pre_parent cf c raw (inv_root_dir _ HI)) as (P & HP & _).
  set (c2 := ins_pre cf c raw) in *.
  destruct raw as [|a dir _] using rev_ind; [congruence|]. clear Hne.
  rewrite map_app in Hn. apply app_inj_tail in Hn as [Hdir _].
  rewrite removelast_last, last_last, Hdir in *. cbv zeta. rewrite HP. unfold insert_tail.
  assert (Hatt : lookup (dir ++ [a]) (c_root (snd (attach_node dir a nd c2))) = Some nd /\
                 c_ghosts (snd (attach_node dir a nd c2)) = c_ghosts c).
  { unfold attach_node. rewrite HP. split; [|exact Hg2]. simpl.
    rewrite lookup_modify_below, HP. destruct P. simpl. rewrite aget_aset, N.eqb_refl. reflexivity. }
  destruct (n_id nd) as [o|] eqn:Eo; [|intros _; exact Hatt].
  destruct (Hfresh o eq_refl) as [Hr Hno].
  rewrite loc_oid_map, (rid_info _ _ Hinfo). destruct (N.eqb_spec o (rid c)); [contradiction|].
  unfold loc_map. rewrite Hg2. destruct (aget o (c_ghosts c)); [simpl; discriminate|].
  rewrite index_none; [|exact HI2|exact (absent_sub _ _ _ Hs2 Hno)].
  simpl. destruct (oid_is _ o); [simpl; discriminate|]. intros _. exact Hatt.
Qed.

Lemma op_rename_moves cf c p q S :
  (forall n, cf_fold cf (cf_fold cf n) = cf_fold cf n) ->
  Inv c -> n_id (c_root c) <> None -> map (cf_fold cf) p <> [] -> q <> [] ->
  lookup (map (cf_fold cf) p) (c_root c) = Some S ->
  fst (op_rename cf c p q) = ROk ->
  lookup (map (cf_fold cf) q) (c_root (snd (op_rename cf c p q))) = Some S /\
  c_ghosts (snd (op_rename cf c p q)) = c_ghosts c.
Proof.
  intros Hidem HI Hroot Hp Hq Hl. unfold op_rename.
  replace (loc_path cf c p) with (LTree (map (cf_fold cf) p)) by (unfold loc_path; rewrite Hl; reflexivity).
  destruct (map (cf_fold cf) p) as [|n rp]; [congruence|]. rewrite Hl. cbv zeta.
  set (c1 := with_root c (remove (n :: rp) (c_root c))).
  pose proof (delete_loc_inv c (LTree (n :: rp)) HI : Inv c1) as HI1.
  pose proof (delete_loc_ghosts c1 (loc_path cf c1 q)) as Hg2. pose proof (delete_loc_view_sub c1 (loc_path cf c1 q)) as Hv2.
  pose proof (delete_loc_inv c1 (loc_path cf c1 q) HI1) as HI2.
  set (c2 := snd (delete_loc c1 (loc_path cf c1 q))) in *. intros Hok.
  destruct (insert_node_fresh cf c2 S (map (cf_fold cf) q) HI2) as [A B];
    [destruct q; [congruence|discriminate]|rewrite map_map; apply map_ext, Hidem| |exact Hok|split; [exact A|rewrite B; exact Hg2]].
  intros o Ho. apply has_id_nil in Ho. split.
  - rewrite (rid_info c c2). 2:{ rewrite (view_sub_info Hv2). apply (view_sub_info (view_sub_cut (n :: rp) _)). }
    intros ->.
    assert (H0 : has_id (c_root c) [] (rid c)).
    { apply has_id_nil. unfold rid. destruct (n_id (c_root c)); congruence. }
    discriminate (inv_uniq _ HI _ _ _ H0 (has_id_app Hl Ho)).
  - apply (detached_ids_gone c (n :: rp) S _ [] o HI); auto; discriminate.
Qed.

Theorem rename_moves_subtree cf c p q S :
  (forall n, cf_fold cf (cf_fold cf n) = cf_fold cf n) ->
  Inv c -> tame cf c = true -> n_id (c_root c) <> None ->
  map (cf_fold cf) p <> [] -> q <> [] ->
  lookup (map (cf_fold cf) p) (c_root c) = Some S ->
  fst (step cf c (ORename p q)) = ROk ->
  lookup (map (cf_fold cf) q) (c_root (snd (step cf c (ORename p q)))) = Some S /\
  c_ghosts (snd (step cf c (ORename p q))) = c_ghosts c.
Proof.
  intros Hidem HI Ht. unfold step. rewrite Ht. apply op_rename_moves; assumption.
Qed.

(* acyclic by construction: the tree is an inductive term; the weak parent pointers of the code, through which a
   cycle could be formed, are not modelled *)
Fixpoint size (t : node) : nat :=
  match t with Node _ _ _ kids => S (list_sum (map (fun nc => size (snd nc)) kids)) end.

Lemma size_kid (n : N) c (kids : list (N * node)) : In (n, c) kids -> size c <= list_sum (map (fun nc => size (snd nc)) kids).
Proof.
  induction kids as [|[n' c'] r IH]; simpl; [tauto|].
  intros [H|H]; [inversion H; subst; lia|]. specialize (IH H). lia.
Qed.

Lemma lookup_size p : forall t nd, lookup p t = Some nd -> size nd + length p <= size t.
Proof.
  induction p as [|n p IH]; intros t nd Hl; simpl in Hl; [injection Hl as <-; simpl; lia|].
  destruct (aget n (n_kids t)) as [c|] eqn:E; [|discriminate]. specialize (IH c nd Hl).
  destruct t as [d i m kids]. apply aget_in, size_kid in E. simpl in *. lia.
Qed.

Lemma no_cycle t p : lookup p t = Some t -> p = [].
Proof. intros H. apply lookup_size in H. destruct p; [reflexivity|simpl in H; lia]. Qed.
