(* EventStamps.v — change stamps: no setter moves the clock (exec_clock: neither `now` nor the last stamp handed out);
   mark_changed hands out a stamp above every earlier one, so the side an event is about carries the newest stamp (stamped,
   update_stamp).  g_get_pad and gotten_bounded (the hypothesis under which that makes the entry due for a re-read) serve
   PropC14.C14_event_forces_reread_partial, which is proved there. *)
From Coq Require Import NArith List Bool Arith Lia.
From CS Require Import Sx Str PathModel PathLaws StateModel StateProofs StatePathProofs EventModel EventProofs EventLaws.
Import ListNotations.

Lemma g_get_pad g n e sd : g_get (g_pad g n) e sd = g_get g e sd.
Proof.
  unfold g_get, g_pad. destruct (Nat.lt_ge_cases e (length g)) as [Hl|Hl].
  - rewrite nth_error_app1 by exact Hl. reflexivity.
  - rewrite nth_error_app2 by exact Hl. rewrite (proj2 (nth_error_None g e) Hl).
    destruct (nth_error (repeat (0%N, 0%N) (n - length g)) (e - length g)) as [[a b]|] eqn:En; [|reflexivity].
    apply nth_error_In, repeat_spec in En. injection En as -> ->. destruct sd; reflexivity.
Qed.

(* (time.time() as the model sees it, the last stamp handed out); no state constructor but st_now / st_lastch touches it *)
Definition clock (s : state) : N * N := (now s, lastch s).
(* in s1, side sd of entry e carries the newest stamp *)
Definition stamped (s s1 : state) (e : eid) (sd : bool) : Prop :=
  exists en' n, nth_error (ents s1) e = Some en' /\ s_chg (gs en' sd) = CNum n /\ lastch s1 = n /\ N.lt (lastch s) n.

Lemma clock_raw_side s e sd f : clock (raw_side s e sd f) = clock s.
Proof. unfold raw_side. destruct (nth_error (ents s) e); reflexivity. Qed.
Lemma clock_st_oids s sd v : clock (st_oids s sd v) = clock s. Proof. destruct sd; reflexivity. Qed.
Lemma clock_st_paths s sd v : clock (st_paths s sd v) = clock s. Proof. destruct sd; reflexivity. Qed.
Lemma clock_slot_set s sd p o e : clock (slot_set s sd p o e) = clock s. Proof. unfold slot_set. apply clock_st_paths. Qed.
Lemma clock_slot_pop s sd p k : clock (slot_pop s sd p k) = clock s.
Proof. exact (slot_pop_frame clock clock_st_paths s sd p k). Qed.

Lemma clock_dirty_add s e : clock (dirty_add s e) = clock s. Proof. reflexivity. Qed.
Lemma clock_cs_add s e : clock (cs_add s e) = clock s. Proof. reflexivity. Qed.
Lemma clock_cs_del s e : clock (cs_del s e) = clock s. Proof. reflexivity. Qed.
Global Hint Rewrite clock_raw_side clock_st_oids clock_st_paths clock_slot_set clock_slot_pop clock_dirty_add clock_cs_add
  clock_cs_del : clk.

(* the recursive calls of a setter, as the pieces of exec see them *)
Definition clock_kept (rec : cmd -> state -> res state) : Prop := forall c a b, rec c a = Ok b -> clock b = clock a.

Lemma kid_step_clock E rec e sd pp p sub s s' : clock_kept rec -> kid_step E rec e sd pp p sub s = Ok s' -> clock s' = clock s.
Proof.
  intros Hrec H. unfold kid_step in H. bind_inv H x E0.
  destruct (s_path (gs x sd)) as [sp|]; [|injection H as <-; reflexivity].
  destruct (tstr (Some sp)); [|injection H as <-; reflexivity].
  destruct (is_subpath (cvs E sd) pp sp true) as [|[|c0 rel0]]; try (injection H as <-; reflexivity).
  destruct (negb (legacy E) && Nat.eqb sub e)%bool; [injection H as <-; reflexivity|].
  cbv zeta in H. bind_inv H x0 E1.
  assert (H5: clock x0 = clock s).
  { destruct (oip E sd); [|injection E1 as <-; reflexivity].
    destruct (info E sd (join (cvs E sd) [p; c0 :: rel0])); [|injection E1 as <-; reflexivity].
    apply (Hrec _ _ _ E1). }
  bind_inv H x1 E2. apply Hrec in E2. rewrite H5 in E2. bind_inv H x2 E3.
  destruct (s_spath (gs x2 sd)) as [sy|]; [|injection H as <-; exact E2].
  destruct (tstr (Some sy)); [|injection H as <-; exact E2].
  destruct (is_subpath (cvs E sd) pp sy false) as [|[|c1 r1]]; injection H as <-; autorewrite with clk; exact E2.
Qed.
Lemma kids_loop_clock E rec e sd pp p : clock_kept rec -> forall l s s', kids_loop E rec e sd pp p l s = Ok s' -> clock s' = clock s.
Proof.
  intros Hrec. induction l as [|sub r IH]; intros s s' H; simpl in H; [injection H as <-; reflexivity|].
  bind_inv H x E0. rewrite (IH _ _ H). eapply kid_step_clock; eassumption.
Qed.

Lemma path_main_clock E rec e sd v x s s' : clock_kept rec -> path_main E rec e sd v x s = Ok s' -> clock s' = clock s.
Proof.
  intros Hrec H. unfold path_main in H. destruct (ostr_eqb (s_path x) v); [injection H as <-; reflexivity|].
  set (sa := match s_path x with
             | Some pp => if tstr (s_path x) then slot_pop s sd pp (s_oid x) else s
             | None => s end) in *.
  assert (Hsa: clock sa = clock s) by (unfold sa; destruct (s_path x) as [[|c pp]|]; cbn [tstr]; autorewrite with clk; reflexivity).
  destruct v as [p|]; [|injection H as <-; exact Hsa].
  destruct (s_oid x) as [o|]; [|injection H as <-; exact Hsa].
  destruct (tstr (Some p)); [|injection H as <-; exact Hsa].
  bind_inv H sb E0.
  assert (Hsb: clock sb = clock s).
  { destruct (slot_get sa sd p o) as [e'|]; [|injection E0 as <-; exact Hsa].
    destruct (Nat.eqb e' e); [discriminate|]. injection E0 as <-. autorewrite with clk. exact Hsa. }
  bind_inv H x0 E1. rewrite (Hrec _ _ _ H).
  set (sc := raw_side (slot_set sb sd p o e) e sd (fun y => w_path y (Some p))) in *.
  assert (Hc: clock sc = clock s) by (unfold sc; autorewrite with clk; exact Hsb).
  destruct (_ && _)%bool (* a folder whose path changed: its children are re-filed *); [|injection E1 as <-; exact Hc].
  destruct (s_path x) as [pp|]; [|injection E1 as <-; exact Hc].
  bind_inv E1 x1 E2. destruct x1 as [order s0]. rewrite (kids_loop_clock _ _ _ _ _ _ Hrec _ _ _ E1).
  unfold get_all_ordered, pop_order in E2. destruct (tape sc) as [|[b|l1] r]; try discriminate. cbn [bind] in E2.
  destruct (_ && _)%bool (* the recorded order lists exactly the live entries *); [|discriminate]. injection E2 as <- <-. exact Hc.
Qed.

Lemma exec_clock E f : forall c s s', exec E f c s = Ok s' -> clock s' = clock s.
Proof.
  induction f as [|f IH]; intros c s s' H; [discriminate|].
  destruct c as [fin e sd v|fin e sd v|fin e sd v|e v];
    [|exact (exec_oid_frame clock clock_st_oids clock_st_paths clock_cs_add clock_cs_del clock_dirty_add
               (fun s e sd v => clock_raw_side s e sd _) (fun _ _ => eq_refl) E _ _ _ _ _ _ _ H)|
     refine (exec_flag_keeps clock E clock_cs_add clock_cs_del clock_dirty_add (fun s e sd v => clock_raw_side s e sd _)
               (fun _ _ _ _ _ => eq_refl) (S f) _ s s' _ H); reflexivity..].
  rewrite exec_path_eq in H. bind_inv H x E0. cbv zeta in H.
  destruct (_ && _)%bool (* a truthy path for a side without id: EAssert *); [discriminate|]. bind_inv H x0 E1. injection H as <-.
  apply (path_main_clock _ _ _ _ _ _ _ _ IH) in E1. destruct fin; autorewrite with clk; exact E1.
Qed.

Lemma run_cmd_clock E c s s' : run_cmd E c s = Ok s' -> clock s' = clock s.
Proof. exact (exec_clock E (fuel_of s) c s s'). Qed.
Lemma set_plain_clock s e sd f s' : set_plain s e sd f = Ok s' -> clock s' = clock s.
Proof. unfold set_plain. intros H. bind_inv H x E. injection H as <-. rewrite clock_raw_side. reflexivity. Qed.
Lemma clock_lastch s s' : clock s' = clock s -> lastch s' = lastch s.
Proof. unfold clock. intros H. injection H as _ H. exact H. Qed.

Lemma set_changed_result E s e sd v s' en' : set_changed E s e sd v = Ok s' -> nth_error (ents s') e = Some en' -> s_chg (gs en' sd) = v.
Proof.
  unfold set_changed, run_cmd. rewrite fuel_of_S3, exec_chg_eq. intros H Hn. bind_inv H x E0. cbv zeta in H. bind_inv H x0 E1. injection H as <-.
  rewrite ents_raw_side in Hn. destruct (nth_error (ents (dirty_add x0 e)) e) as [en2|] eqn:E2.
  - rewrite (nth_upd_at_same _ _ _ _ E2) in Hn. injection Hn as <-. rewrite gs_ss_same. reflexivity.
  - rewrite E2 in Hn. discriminate.
Qed.

Lemma mark_changed_stamp E s e sd s' : mark_changed E s e sd = Ok s' ->
  stamped s s' e sd.
Proof.
  unfold mark_changed. intros H. bind_inv H x E0. bind_inv H x0 E1. bind_inv H x1 E2. apply get_ent_ok in E2.
  destruct (s_chg (gs x1 sd)) as [| |n] eqn:Ec; try discriminate. injection H as <-.
  exists x1, n. split; [exact E2|]. split; [exact Ec|]. split; [reflexivity|].
  pose proof (clock_lastch _ _ (run_cmd_clock _ _ _ _ E0)) as L1. cbn [lastch st_now] in L1.
  destruct (N.leb (now s + 1000) (lastch x)) eqn:El.
  - rewrite (set_changed_result _ _ _ _ _ _ _ E1 E2) in Ec. injection Ec as <-. rewrite L1. lia.
  - injection E1 as <-. rewrite (set_changed_result _ _ _ _ _ _ _ E0 E2) in Ec. injection Ec as <-.
    apply N.leb_gt in El. rewrite L1 in El. exact El.
Qed.

Lemma guarded_clock (b : bool) (r : res state) s s' :
  (forall s', r = Ok s' -> clock s' = clock s) -> (if b then Ok s else r) = Ok s' -> clock s' = clock s.
Proof. intros Hr H. destruct b; [injection H as <-; reflexivity|exact (Hr _ H)]. Qed.

(* update_entry = some writes that do not touch the clock, then mark_changed *)
Lemma update_entry_stamp E s e sd oid path h ex ot s1 :
  oip E sd = false -> update_entry E s e sd oid path h ex true ot = Ok s1 ->
  stamped s s1 e sd.
Proof.
  intros Hoip H. unfold update_entry in H. bind_inv H x E0. bind_inv H x0 E1. destruct x0 as [sa ea].
  assert (Ha: clock sa = clock s /\ ea = e).
  { destruct oid as [o|]; [|injection E1 as <- <-; split; reflexivity].
    rewrite Hoip, andb_false_r in E1. cbn [andb] in E1. bind_inv E1 x0 E2. injection E1 as <- <-.
    split; [exact (run_cmd_clock _ _ _ _ E2)|reflexivity]. }
  destruct Ha as [La ->]. bind_inv H x0 E2. bind_inv H x1 E3.
  assert (Lb: clock x1 = clock s).
  { rewrite <- La. destruct ot as [t|]; [|injection E3 as <-; reflexivity].
    exact (guarded_clock _ _ _ _ (set_plain_clock _ _ _ _) E3). }
  destruct (match ot with Some NotKnown => _ | _ => false end); [discriminate|].
  bind_inv H x2 E4.
  assert (Lc: clock x2 = clock s).
  { rewrite <- Lb. destruct path as [p|]; [|injection E4 as <-; reflexivity]. bind_inv E4 x3 E5.
    exact (guarded_clock _ _ _ _ (run_cmd_clock _ _ _) E4). }
  bind_inv H x3 E5. bind_inv H x4 E6.
  assert (Ld: clock x4 = clock s).
  { rewrite <- Lc. destruct h as [hv|]; [|injection E6 as <-; reflexivity].
    exact (guarded_clock _ _ _ _ (set_plain_clock _ _ _ _) E6). }
  bind_inv H x5 E7.
  assert (Le: clock x5 = clock s).
  { rewrite set_ex_plain in E7. rewrite <- Ld. exact (set_plain_clock _ _ _ _ _ E7). }
  bind_inv H x6 E8. destruct (_ || _)%bool (* a path or an id: the assert before mark_changed *); [|discriminate].
  destruct (mark_changed_stamp _ _ _ _ _ H) as [en' [n [A [B [C D]]]]].
  exists en', n. rewrite (clock_lastch _ _ Le) in D. auto.
Qed.

Lemma update_stamp E s sd ot (o : str) path h ex s1 :
  oip E sd = false -> update E s sd ot (Some o) path h ex None = Ok s1 ->
  stamped s s1 (upd_target s sd o) sd.
Proof.
  intros Hoip H. rewrite update_no_prior in H. unfold upd_target.
  destruct (al_get o (oids s sd)) as [e|]; [|destruct ot as [t|]; [|discriminate]];
    exact (update_entry_stamp _ _ _ _ _ _ _ _ _ _ Hoip H).
Qed.

(* an event leaves its entry due for a re-read on BOTH sides, provided no _last_gotten is ahead of the last change
   stamp.  That is not an invariant: a priority punt, or a re-read that stamps `changed = time.time()` (tick_changed,
   which does not pass through mark_changed), pushes a stamp and then _last_gotten past it; see the refutation of the
   unconditional statement (EventRefute.event_forces_reread_full, PropC14.C14_event_forces_reread_refuted) *)
Definition gotten_bounded (es : estate) : Prop := forall e sd, N.le (g_get (gotten es) e sd) (lastch (st es)).
