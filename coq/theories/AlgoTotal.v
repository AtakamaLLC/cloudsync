(* AlgoTotal.v — an engine step leaves the fragment only with one of four guard codes: the OutOfFragment reading of the run
   forms of AlgoIntake.v and AlgoStep.v, and the one fact those leave open - the target of a creation is free - from the
   uniqueness of user-made names.  (Whole runs: AlgoRun.v.) *)
From Coq Require Import NArith List Bool Arith Lia.
From CS Require Import StateModel AlgoState AlgoModel AlgoCheck AlgoProv AlgoInv AlgoQuiet AlgoIntake AlgoSyncEntry AlgoStep AlgoUser AlgoSpec.
Import ListNotations.
Local Open Scope N_scope.

Theorem intake_total g w sd : Inv g w -> exists w', intake w sd = ROk w'.
Proof. intros I. destruct (intake_run g w sd I) as (w' & E & _). eauto. Qed.

Lemma fill_one_total g w e sd : Inv g w -> (2 <= e)%nat -> set_mem e (cset (w_st w)) = true -> exists w', fill_one w e sd = ROk w'.
Proof. intros I He Hm. destruct (fill_one_run g w e sd I He Hm) as (w' & E & _). eauto. Qed.

(* SyncManager.do can leave the fragment only inside SyncManager.sync on the picked entry *)
Theorem sync_step_total_up_to_sync g w order c :
  Inv g w -> NoTmp w -> sync_step w order = OutOfFragment c ->
  exists w3 e en3, SCtx g w3 e en3 /\ e_ign en3 = INone /\ notmp w3 e /\ maxchg en3 <= now (w_st w3) /\
                   sync_entry w3 e = OutOfFragment c /\ OwnFrame g w w3.
Proof.
  intros I T H. destruct (sync_step_run g w order I T) as [(w' & E & _)|(w3 & e & en3 & SC & Hi & Hm & T3 & O & E)]; rewrite E in H; [discriminate|].
  exists w3, e, en3. destruct (sync_entry w3 e) as [[w4 cs]|c']; [discriminate|]. injection H as <-.
  exact (conj SC (conj Hi (conj (T3 e) (conj Hm (conj eq_refl O))))).
Qed.

(* the translated path of a creation is free on the other side: names of user-made objects are unique, every live
   engine-made object mirrors a user-made one of the same name, and an object has one entry *)
Lemma target_free g w e en s k ob cs n :
  SCtx g w e en -> e_ign en = INone -> Uniq g w ->
  s_oid (gs en s) = Some (ostr_k k) -> obj_at w s k = Some ob -> g_get k (g_of g s) = Some cs ->
  s_oid (gs en (negb s)) = None -> ProvModel.o_path ob = [root_name s; n] ->
  ProvModel.info_path (prov_of w (negb s)) [root_name (negb s); n] = None.
Proof.
  intros SC Hign U Ho Hob Hg Hot Hp. pose proof (sc_inv _ _ _ _ SC) as I.
  set (t := negb s) in *.
  apply (info_path_none _ _ (i_pwf I t)). intros m om Hm Hl Hq.
  pose proof (below_root_ge2 g w t m om [n] I Hm Hq ltac:(discriminate)) as Hm2.
  assert (Hlf: leaf (ProvModel.o_path om) = leaf (ProvModel.o_path ob)) by (rewrite Hq, Hp; reflexivity).
  destruct (g_get m (g_of g t)) as [c1|] eqn:Eg.
  - destruct (U t m c1 s k cs om ob Eg Hg Hm Hob Hlf) as (X & _). unfold t in X. destruct s; discriminate.
  - (* engine-made: it mirrors a user-made object of that name on side s, which is ob, so its entry is e *)
    destruct (mirror_entry g w t m om I Hm2 Hm Hl Eg) as (x & xn & k2 & ob2 & c2 & Hxn & Hox & G1 & G2 & Eg2 & G3).
    unfold t in G1, G2, Eg2. rewrite negb_involutive in G1, G2, Eg2.
    destruct (U s k2 c2 s k cs ob2 ob Eg2 Hg G2 Hob ltac:(congruence)) as (_ & ->).
    assert (x = e) by (apply (idx_unique_ent _ s _ x e xn en (i_idx I) Hxn G1 (sc_en _ _ _ _ SC) Ho)). subst x.
    rewrite (sc_en _ _ _ _ SC) in Hxn. injection Hxn as <-. congruence.
Qed.

Lemma create_err p q d pv er : PWF p -> ProvModel.verify_parent p q = None -> ProvModel.create p q d = (pv, ProvModel.Err er) -> er = ProvModel.EExists.
Proof.
  intros W Hvp H. unfold ProvModel.create in H. rewrite (no_forbidden _ q (pw_noforbid p W)) in H.
  destruct (ProvModel.info_path p q); [injection H as _ <-; reflexivity|]. rewrite Hvp in H.
  destruct (ProvModel.alloc p q ProvModel.KFile d). discriminate.
Qed.

(* the OutOfFragment answers of SyncManager.sync that are left: AlgoStep.stop_codes (the same list, convertible) under the
   name the theorems use, [G_SYNC] ([G_EMBRACE] is its body) *)
Definition G_EMBRACE : list N :=
  [X_LEVEL + 3; X_MISSING; X_PEERS; X_DELETE_OTHER].
Definition G_SYNC : list N := G_EMBRACE.

Lemma In_embrace_of l c : In c l -> (forall x, In x l -> In x G_EMBRACE) -> In c G_EMBRACE.
Proof. auto. Qed.

Theorem engine_step_guards g w a c :
  Inv g w -> NoTmp w -> Uniq g w -> algo_step w a = OutOfFragment c -> In c G_SYNC.
Proof.
  intros I T U H. destruct a as [sd o|sd clk|order clk].
  - simpl in H. discriminate.
  - simpl in H. destruct (intake_total g (at_clock w clk) sd (Inv_at_clock g w clk I)) as (w1 & E). rewrite E in H. cbn [rbind] in H. discriminate.
  - (* the stop reading of sync_step_spec, with the creation target free because user-made objects have different names;
       setting the clock touches neither the temp files nor the providers *)
    change G_SYNC with stop_codes.
    apply (answers_stop _ _ _ _ (sync_step_spec g (at_clock w clk) order (Inv_at_clock g w clk I) T) H).
    intros w1 e en1 s O SC1 Hi1 k ob cs n. apply (target_free g w1 e en1 s k ob cs n SC1 Hi1 (Uniq_frame g w w1 O U)).
Qed.
