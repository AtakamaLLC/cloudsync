(* LoopInv.v — invariants of the two-thread machine of LoopModel.v over ALL schedules (property C18): who writes what, then
   five invariants, each kept by every step of every variant.  LoopThms.v adds two more (no_raise speaks of [raisy], which is
   defined there) and bundles the seven in the record [LoopInvs]. *)
From Coq Require Import QArith List Bool NArith ZArith Lia.
From CS Require Import Sx ListFacts LoopModel.
Import ListNotations.

Definition reach (v : variant) (p : params) (s : st) : Prop := exists ls, s = exec v p init ls.

Lemma reach_ind_inv : forall v p (P : st -> Prop),
  P init -> (forall s l, P s -> P (step v p s l)) -> forall s, reach v p s -> P s.
Proof.
  intros v p P H0 Hs s [ls ->]. unfold exec. apply fold_left_invariant; [|exact H0].
  intros a l _. apply Hs.
Qed.

Lemma reach_exec : forall v p s ls, reach v p s -> reach v p (exec v p s ls).
Proof. intros v p s ls [l0 E]. exists (l0 ++ ls). unfold exec in *. rewrite fold_left_app, <- E. reflexivity. Qed.

Lemma reach_step : forall v p s l, reach v p s -> reach v p (step v p s l).
Proof. intros v p s l. exact (reach_exec v p s [l]). Qed.

Definition startish (c : cpc) : bool :=
  match c with CStartAlive1 | CStartJoin | CStartAlive2 | CStartSg | CStartT | CStartGo => true | _ => false end.

(* Which thread writes what.  The loop thread never touches the caller's pc, __shutdown or the ghosts;
   the caller never logs and moves the loop thread only by starting it. *)
Lemma lstep_frame : forall p s o u, let s' := lstep p s o u in
  cp s' = cp s /\ sd s' = sd s /\ g_live s' = g_live s /\ g_unfin s' = g_unfin s.
Proof. intros p s o u. unfold lstep. destruct (lp s); cbn; auto. Qed.

(* the statements of stop(f, w) lead on to the next one, to wait(), to a plain return or to wake()'s AttributeError *)
Inductive stop_pc (f w : bool) : cpc -> Prop :=
| stop_next n : stop_pc f w (CStopS n f w)
| stop_join : stop_pc f w (CJoinS (JStop f))
| stop_ret : stop_pc f w (CIdle (RStopped f false))
| stop_raise : stop_pc f w (CIdle (RStopRaised f)).

(* case analysis on every flag test and every option match of the goal: the step functions are cascades of these *)
Ltac match_cases :=
  repeat match goal with
         | |- context [if ?b then _ else _] => destruct b eqn:?
         | |- context [match ?x with Some _ => _ | None => _ end] => destruct x eqn:?
         end.

Lemma goto_stage_frame : forall v s stg wd f w,
  lp (goto_stage v s stg wd f w) = lp s /\ log (goto_stage v s stg wd f w) = log s /\
  g_live (goto_stage v s stg wd f w) = g_live s /\ stop_pc f w (cp (goto_stage v s stg wd f w)).
Proof.
  intros. unfold goto_stage, stop_tail. destruct (next_stage v stg wd f); [|destruct (w && tset s)];
    cbn; repeat split; constructor.
Qed.

Lemma stop_stage_frame : forall v s stg f w, let s' := stop_stage v s stg f w in
  lp s' = lp s /\ log s' = log s /\ g_live s' = g_live s /\ stop_pc f w (cp s').
Proof.
  intros. subst s'. unfold stop_stage.
  destruct stg; [| destruct (intr s); [destruct (v_wake1 v)|] | destruct (intr s) |]; try exact (goto_stage_frame v _ _ _ f w);
    cbn; repeat split; constructor.
Qed.

Lemma stop_stage_pc : forall v s stg f w, stop_pc f w (cp (stop_stage v s stg f w)).
Proof. intros. apply (stop_stage_frame v s stg f w). Qed.

Lemma stop_not_startish : forall v s stg f w, startish (cp (stop_stage v s stg f w)) = false.
Proof. intros. destruct (stop_stage_pc v s stg f w); reflexivity. Qed.

Definition is_loop (l : label) : bool := match l with LLoop _ _ => true | _ => false end.

(* one step of the caller, statement by statement: [l] is LCall or LCont and is enabled *)
Ltac caller_cases s l :=
  unfold step; destruct (enabled s l) eqn:En;
  [ destruct l as [o u | [ | f w | | t] | ];
    [discriminate | cbn [ccall] .. | unfold ccont; destruct (cp s) as [r| | | | | | |stg f w| |k|k] eqn:Ec] | ].

Lemma caller_frame : forall v p s l, is_loop l = false -> let s' := step v p s l in
  log s' = log s /\ (lp s' = lp s \/ cp s = CStartGo /\ lp s' = LR1).
Proof.
  intros v p s l Hl s'. subst s'. caller_cases s l; match_cases; cbn; auto.
  - destruct (stop_stage_frame v (mark_live s (f && pre_f4 (lp s))) (first_stage v f) f w) as [A [B _]].
    rewrite A, B. auto.
  - destruct (stop_stage_frame v s stg f w) as [A [B _]]. rewrite A, B. auto.
Qed.

Lemma g_unfin_step : forall v p s l, let s' := step v p s l in
  g_unfin s' = g_unfin s || (sd s && negb (sd s')).
Proof.
  intros v p s l s'. subst s'.
  assert (same : forall s' : st, sd s' = sd s -> g_unfin s' = g_unfin s ->
                 g_unfin s' = g_unfin s || (sd s && negb (sd s'))).
  { intros s' A B. rewrite A, B, andb_negb_r, orb_false_r. reflexivity. }
  assert (stop : forall s0 stg f w, sd s0 = sd s -> g_unfin s0 = g_unfin s ->
                 g_unfin (stop_stage v s0 stg f w) = g_unfin s || (sd s && negb (sd (stop_stage v s0 stg f w)))).
  { intros s0 stg f w A B. unfold stop_stage, goto_stage, stop_tail.
    destruct stg; match_cases; cbn; rewrite ?A, ?B; auto; apply same; cbn; auto. }
  destruct (is_loop l) eqn:Hl.
  - destruct l as [o u| |]; try discriminate. unfold step. destruct (enabled _ _); [|apply same; reflexivity].
    destruct (lstep_frame p s o u) as [_ [A [_ B]]]. apply same; assumption.
  - caller_cases s l; try (apply stop; reflexivity); match_cases; apply same; cbn; auto.
Qed.

Lemma g_unfin_mono : forall v p s l, g_unfin (step v p s l) = false -> g_unfin s = false.
Proof. intros v p s l H. rewrite g_unfin_step in H. apply orb_false_elim in H. apply H. Qed.

(* a waiting stop() / wait() returns only when the loop thread is dead *)
Definition joined_ret (c : cpc) : bool :=
  match c with CIdle (RStopped _ true) | CIdle (RWaited true) => true | _ => false end.
Definition joined_dead (s : st) : Prop := joined_ret (cp s) = true -> alive (lp s) = false.

Lemma stop_not_joined : forall v s stg f w, joined_ret (cp (stop_stage v s stg f w)) = false.
Proof. intros. destruct (stop_stage_pc v s stg f w); reflexivity. Qed.

Lemma joined_dead_step : forall v p s l, joined_dead s -> joined_dead (step v p s l).
Proof.
  intros v p s l H. unfold joined_dead in *. destruct (is_loop l) eqn:Hl.
  - (* the loop thread does not run while the caller sits at a joined return *)
    destruct l as [o u| |]; try discriminate. unfold step. destruct (enabled s (LLoop o u)) eqn:A; [cbn in A|exact H].
    destruct (lstep_frame p s o u) as [E _]. rewrite E. intro Hj. apply H in Hj. congruence.
  - caller_cases s l; match_cases; cbn; rewrite ?stop_not_joined; try discriminate; auto; rewrite Ec; exact H.
Qed.

(* an invariant that relates the caller's pc and __shutdown only is the caller's business *)
Lemma loop_keeps : forall (P : cpc -> bool -> Prop) v p s o u, let s' := step v p s (LLoop o u) in
  P (cp s) (sd s) -> P (cp s') (sd s').
Proof.
  intros P v p s o u s' H. subst s'. unfold step. destruct (enabled s (LLoop o u)); [|exact H].
  destruct (lstep_frame p s o u) as [E1 [E2 _]]. rewrite E1, E2. exact H.
Qed.

(* inside stop(True, _): __shutdown has been written iff its assignment comes first (v_swap) and the caller is past it;
   after the racy statements: always *)
Definition sd_written (v : variant) (c : cpc) : bool :=
  match c with
  | CJoinS (JStop true) | CAliveS (JStop true) | CIdle (RStopped true _) => true
  | CStopS SSd true _ => false
  | CStopS _ true _ => v_swap v
  | _ => false
  end.
(* after stop(forever=True) has assigned __shutdown it stays True until the call returns *)
Definition shutdown_held (v : variant) (s : st) : Prop := sd_written v (cp s) = true -> sd s = true.

(* a statement of stop(): the first one of a call (nothing is claimed of the state before), or a later one (shutdown_held held) *)
Lemma shutdown_held_stop : forall v s stg f w, let s' := stop_stage v s stg f w in
  stg = first_stage v f \/ (sd_written v (CStopS stg f w) = true -> sd s = true) -> shutdown_held v s'.
Proof.
  intros v s stg f w s' H. subst s'. unfold shutdown_held.
  destruct f; [|destruct (stop_stage_pc v s stg false w) as [[]| | |]; discriminate].
  (* f = true: the one statement that writes __shutdown writes True; before it sd_written is false, unless v_swap,
     and then it was the first statement *)
  unfold stop_stage, goto_stage, next_stage, after_wake, stop_tail, first_stage, has_sd in *.
  destruct v as [sw sk w1]. cbn [v_swap v_sticky v_wake1] in *.
  destruct stg, sw, sk; cbn in *; match_cases; cbn; try discriminate; intuition congruence.
Qed.

Lemma shutdown_held_step : forall v p s l, shutdown_held v s -> shutdown_held v (step v p s l).
Proof.
  intros v p s l H. unfold shutdown_held in *. destruct (is_loop l) eqn:Hl.
  - destruct l; try discriminate. apply (loop_keeps (fun c d => sd_written v c = true -> d = true)), H.
  - caller_cases s l; match_cases; cbn; try discriminate; auto; try (rewrite Ec; exact H).
    + apply shutdown_held_stop. auto.
    + apply shutdown_held_stop. auto.
    + destruct k as [[|]|]; cbn in *; auto; discriminate.
Qed.

(* inside start(), after its test of __shutdown, __shutdown is False (single caller) *)
Definition start_unshut (s : st) : Prop := startish (cp s) = true -> sd s = false.

Lemma start_unshut_step : forall v p s l, start_unshut s -> start_unshut (step v p s l).
Proof.
  intros v p s l H. unfold start_unshut in *. destruct (is_loop l) eqn:Hl.
  - destruct l; try discriminate. apply (loop_keeps (fun c d => startish c = true -> d = false)), H.
  - caller_cases s l; match_cases; cbn; rewrite ?stop_not_startish; try discriminate; auto; rewrite Ec; exact H.
Qed.

(* done() pending or executed implies __shutdown, unless it was reset *)
Definition done_shutdown (s : st) : Prop :=
  (1 <= count_done (log s))%nat \/ lp s = LF5 -> sd s = true \/ g_unfin s = true.

Lemma shutdown_kept : forall v p s l, let s' := step v p s l in
  sd s = true \/ g_unfin s = true -> sd s' = true \/ g_unfin s' = true.
Proof.
  intros v p s l s' H. subst s'. rewrite g_unfin_step.
  destruct H as [H|H]; rewrite H; [destruct (sd (step v p s l)); auto using orb_true_r | auto].
Qed.

Lemma done_shutdown_step : forall v p s l, done_shutdown s -> done_shutdown (step v p s l).
Proof.
  intros v p s l H. unfold done_shutdown in *. destruct (is_loop l) eqn:Hl.
  - destruct l as [o u| |]; try discriminate. unfold step. destruct (enabled s (LLoop o u)) eqn:A; [cbn in A|exact H].
    destruct (lstep_frame p s o u) as [_ [E1 [_ E2]]]. rewrite E1, E2. clear E1 E2.
    unfold lstep, count_done in *.
    destruct (lp s); cbn in A; try discriminate A; match_cases; cbn; intros [C|C]; try discriminate C; auto.
  - intro C. apply shutdown_kept, H. destruct (caller_frame v p s l Hl) as [E [L|[_ L]]]; rewrite E, L in C; auto.
    destruct C as [C|C]; [auto | discriminate C].
Qed.

(* cleanup at most once while __shutdown was never reset *)
Definition cleanup_once (s : st) : Prop :=
  g_unfin s = false ->
  (count_done (log s) <= 1)%nat /\ (count_done (log s) = 1%nat -> alive (lp s) = false).

(* only the last statement of run() logs a done(), and the thread is dead after it *)
Lemma lstep_done : forall p s o u,
  (lp s = LF5 /\ lp (lstep p s o u) = LDead /\ count_done (log (lstep p s o u)) = S (count_done (log s))) \/
  (lp s <> LF5 /\ count_done (log (lstep p s o u)) = count_done (log s)).
Proof.
  intros. unfold lstep, count_done. destruct (lp s); cbn; try (right; split; [discriminate|reflexivity]). left. auto.
Qed.

Lemma cleanup_once_step : forall v p s l, done_shutdown s -> start_unshut s -> cleanup_once s -> cleanup_once (step v p s l).
Proof.
  intros v p s l Hds Hsu H U. specialize (H (g_unfin_mono v p s l U)). destruct (is_loop l) eqn:Hl.
  - destruct l as [o u| |]; try discriminate. unfold step. destruct (enabled s (LLoop o u)) eqn:A; [cbn in A|exact H].
    (* the thread is alive, so no done() has been logged yet *)
    destruct H as (B & C).
    assert (Z : count_done (log s) = 0%nat)
      by (destruct (count_done (log s)) as [|[|n]]; [reflexivity | rewrite (C eq_refl) in A; discriminate A | lia]).
    destruct (lstep_done p s o u) as [(_ & L & D)|(_ & D)]; rewrite D, Z; [rewrite L|];
      repeat split; (discriminate || lia || auto).
  - destruct (caller_frame v p s l Hl) as [E [L|[C L]]]; rewrite E, L; [exact H|].
    (* start() launches a thread: no done() is logged, as __shutdown is False and was never reset *)
    unfold done_shutdown, start_unshut in *. rewrite C in Hsu. rewrite (g_unfin_mono v p s l U) in Hds.
    specialize (Hsu eq_refl).
    assert (Z : count_done (log s) = 0%nat).
    { destruct (count_done (log s)); [reflexivity|].
      destruct Hds as [X|X]; [left; lia | congruence | discriminate X]. }
    rewrite Z. repeat split; try discriminate; lia.
Qed.
