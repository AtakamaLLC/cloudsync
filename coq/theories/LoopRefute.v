(* LoopRefute.v — witnesses.  The backoff formula without 1 <= mult is false (refuted here); four full-strength statements
   about the two-thread machine are false of the [faithful] variant: here are the schedules that refute them (the four
   refutations stand in PropC18.v, next to the statements), the states they reach, and what the wake-once variant gains. *)
From Coq Require Import QArith Qminmax List Bool NArith.
From CS Require Import Sx LoopModel LoopProofs LoopInv LoopThms.
Import ListNotations.
Open Scope Q_scope.

Definition p0 : params := {| p_min := 1 # 100; p_max := 1; p_mult := 2; p_sleep := 1 # 1000 |}.
Definition lo : label := LLoop ODid false.
Fixpoint rep (n : nat) (l : label) : list label := match n with O => [] | S m => l :: rep m l end.

Lemma backoff_formula_any_mult_refuted : ~ forall p os,
  0 < p_min p -> p_min p <= p_max p -> os <> [] -> forallb is_failure os = true ->
  backoff_after p 0 os == Qmin (p_max p) (p_min p * qpow (p_mult p) (length os - 1)).
Proof.
  intro H.
  specialize (H {| p_min := 1; p_max := 8; p_mult := 1 # 2; p_sleep := 0 |} [OExc; OExc]
                ltac:(reflexivity) ltac:(discriminate) ltac:(discriminate) eq_refl).
  vm_compute in H. discriminate H.
Qed.

(* stop(forever=True) on a running service, done() never runs.
   start(); the loop runs one do(); stop(True): __stopping := True, wake(); the loop sees __stopping, runs its
   finally block and tests __shutdown (still False); stop: __shutdown := True, join returns. *)
Definition w_lost_cleanup : list label :=
  [LCall CStart; LCont; LCont; LCont] ++ rep 6 lo ++
  [LCall (CStop true true); LCont; LCont] ++ rep 5 lo ++ [LCont; LCont; LCont].

(* stop(forever=False) after a final stop makes the service startable again; done() can run twice *)
Definition w_restart_1 : list label :=
  [LCall CStart] ++ rep 4 LCont ++ [LCall (CStop true true)] ++ rep 3 LCont ++ rep 12 lo ++ rep 3 LCont.
Definition w_restart_2 : list label :=
  [LCall (CStop false true)] ++ rep 6 LCont ++ [LCall CStart] ++ rep 6 LCont.
Definition w_twice : list label :=
  w_restart_1 ++ w_restart_2 ++ rep 8 lo ++ [LCall (CStop true true)] ++ rep 3 LCont ++ rep 12 lo ++ rep 3 LCont.

(* stop() raises AttributeError: the loop thread clears __interrupt between the two reads of wake() *)
Definition w_stop_raises : list label :=
  [LCall CStart; LCont; LCont; LCont] ++ rep 6 lo ++ [LCall (CStop true true); LCont] ++ rep 5 lo ++ [LCont].

(* PropC18.stop_never_raises_full is this at [faithful] *)
Definition never_raises_stmt (v : variant) : Prop := forall p s, reach v p s -> raisy (cp s) = false.

Lemma never_raises_wake1 : forall v, v_wake1 v = true -> never_raises_stmt v.
Proof. intros v Hv p s Hr. apply (stop_wake_never_raise v p s Hv Hr). Qed.

(* the state reached by the stop-raises witness: the service is dead, not shut down, cleanup did not run *)
Lemma stop_raises_state :
  let s := exec faithful p0 init w_stop_raises in
  (alive (lp s), sd s, count_done (log s), g_live s) = (false, false, 0%nat, true).
Proof. vm_compute. reflexivity. Qed.

(* start, one do(), stop(True, wait): a clean final stop.  Under [swapped] it is the non-vacuity instance of the
   exactly-once theorem; under [faithful] this schedule happens to run done() as well (the lost cleanup needs the
   interleaving of w_lost_cleanup) *)
Definition w_swapped_ok : list label :=
  [LCall CStart] ++ rep 4 LCont ++ rep 6 lo ++ [LCall (CStop true true)] ++ rep 3 LCont ++ rep 12 lo ++ rep 3 LCont.
Lemma faithful_example :
  let s := exec faithful p0 init w_swapped_ok in
  (cp s, g_live s, g_unfin s, count_done (log s), count_do (log s)) = (CIdle (RStopped true true), true, false, 1%nat, 1%nat).
Proof. vm_compute. reflexivity. Qed.
