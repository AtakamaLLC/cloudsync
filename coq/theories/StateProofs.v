(* StateProofs.v — the index invariant IdxJ of StateModel (clauses (i), (ii) of property C11).  It reads four lookups of a
   state (obs, Idx); every intercepted write re-keys one (entry, side) in them (rekey), and Idx_rekey is the one preservation
   argument; oview describes a state whose id field is still to be written.  The setters other than path, and the operations
   made of them, keep IdxJ for every environment and without guards (apply_op_pres).  Bodies of SyncState methods are cut
   into named pieces (oid_loop, oid_finish, ...), tied to StateModel by equations proved by reflexivity.  At the end:
   SyncState.update without prior_oid by name (update_no_prior), set_changed_total, and the environments, witnesses and
   full-strength statements that PropC11.v refutes (E_id, E_old, w_*, *_full). *)
From Coq Require Import NArith List Bool Arith Lia.
From CS Require Export ListFacts.
From CS Require Import Sx Str StrLemmas PathModel StateModel.
Import ListNotations.

Definition oid_of (s : state) (e : eid) (sd : bool) : option str :=
  match nth_error (ents s) e with Some en => s_oid (gs en sd) | None => None end.
Definition path_of (s : state) (e : eid) (sd : bool) : option str :=
  match nth_error (ents s) e with Some en => s_path (gs en sd) | None => None end.

(* clauses (i)-(iv) of property C11 (properties.jsonl).
   (i) every entry that carries an id is found under it, and under (path, id) *)
Definition idx_found (s : state) : Prop :=
  forall e sd o, oid_of s e sd = Some o ->
    al_get o (oids s sd) = Some e /\
    (forall p, path_of s e sd = Some p -> p <> [] -> slot_get s sd p o = Some e).
(* (ii) every slot leads to an entry that carries that id / path *)
Definition idx_slots (s : state) : Prop :=
  (forall sd o e, al_get o (oids s sd) = Some e -> oid_of s e sd = Some o) /\
  (forall sd p o e, slot_get s sd p o = Some e -> oid_of s e sd = Some o /\ path_of s e sd = Some p /\ p <> []).
(* (iii) at most one entry owns an id per side *)
Definition idx_unique (s : state) : Prop :=
  forall e1 e2 sd o, oid_of s e1 sd = Some o -> oid_of s e2 sd = Some o -> e1 = e2.

Definition flagged (en : entry) : bool :=
  (tchg (s_chg (e_l en)) && tstr (s_oid (e_l en))) || (tchg (s_chg (e_r en)) && tstr (s_oid (e_r en))).
(* (iv), left to right: every entry with a change flag and an id is pending (nothing about it is proved in the State
   files; AlgoInv carries it as a field of its invariant) *)
Definition cs_complete (s : state) : Prop :=
  forall e en, nth_error (ents s) e = Some en -> flagged en = true -> set_mem e (cset s) = true.
(* (iv) at full strength (discarded entries excepted, as the property says) *)
Definition cs_exact (s : state) : Prop :=
  forall e en, nth_error (ents s) e = Some en -> is_discarded (e_ign en) = false ->
    (set_mem e (cset s) = true <-> flagged en = true).

(* (i) and (ii); (iii) follows: idx_found_unique *)
Definition IdxJ (s : state) : Prop := idx_found s /\ idx_slots s.

(* clause (i) for one entry and side: [idx_found s] is [forall e sd, found1 s e sd] *)
Definition found1 (s : state) (e : eid) (sd : bool) : Prop :=
  forall o, oid_of s e sd = Some o ->
    al_get o (oids s sd) = Some e /\
    (forall p, path_of s e sd = Some p -> p <> [] -> slot_get s sd p o = Some e).
Definition unindexed (s : state) (e : eid) (sd : bool) : Prop :=
  (forall o, al_get o (oids s sd) <> Some e) /\ (forall p o, slot_get s sd p o <> Some e).
(* the invariant around an entry e whose side sd is found or not indexed at all (only IdxX_J speaks of it; the proofs about
   _change_oid use oview) *)
Definition IdxX (s : state) (e : eid) (sd : bool) : Prop :=
  (forall e' sd', (e' <> e \/ sd' <> sd) -> found1 s e' sd') /\ idx_slots s /\ (found1 s e sd \/ unindexed s e sd).

Lemma idx_found_unique s : idx_found s -> idx_unique s.
Proof.
  intros H e1 e2 sd o H1 H2. apply H in H1 as [H1 _]. apply H in H2 as [H2 _]. congruence.
Qed.

(* Bool.eqb_reflx under the name its siblings str_eqb_refl, ostr_eqb_refl, Nat.eqb_refl make one expect *)
Lemma bool_eqb_refl b : Bool.eqb b b = true.
Proof. exact (Bool.eqb_reflx b). Qed.
Lemma str_eqb_neq a b : a <> b -> str_eqb a b = false.
Proof. apply (beq_false str_eqb str_eqb_eq). Qed.
Lemma ostr_eqb_eq a b : ostr_eqb a b = true <-> a = b.
Proof. exact (option_eqb_eq str_eqb str_eqb_eq a b). Qed.
Lemma ostr_eqb_refl a : ostr_eqb a a = true.
Proof. apply ostr_eqb_eq. reflexivity. Qed.
Lemma oN_eqb_refl a : oN_eqb a a = true.
Proof. destruct a; simpl; [apply N.eqb_refl|reflexivity]. Qed.
Lemma oN_eqb_eq a b : oN_eqb a b = true <-> a = b.
Proof. exact (option_eqb_eq N.eqb N.eqb_eq a b). Qed.

Section AL.
Context {V : Type}.
Implicit Types (l : list (str * V)).
Lemma al_get_set k k' v l : al_get k' (al_set k v l) = if str_eqb k' k then Some v else al_get k' l.
Proof.
  induction l as [|[k2 v2] l IH]; simpl; [destruct (str_eqb k' k); reflexivity|].
  destruct (str_eqb_spec k k2) as [->|Hn]; simpl; [destruct (str_eqb k' k2); reflexivity|].
  destruct (str_eqb_spec k' k2) as [->|]; [|exact IH].
  rewrite str_eqb_neq by (intros Hc; apply Hn; symmetry; exact Hc). reflexivity.
Qed.
Lemma al_get_del k k' l : al_get k' (al_del k l) = if str_eqb k' k then None else al_get k' l.
Proof.
  induction l as [|[k2 v2] l IH]; simpl; [destruct (str_eqb k' k); reflexivity|].
  destruct (str_eqb_spec k k2) as [->|Hn]; simpl; [rewrite IH; destruct (str_eqb k' k2); reflexivity|].
  destruct (str_eqb_spec k' k2) as [->|]; [|exact IH].
  rewrite str_eqb_neq by (intros Hc; apply Hn; symmetry; exact Hc). reflexivity.
Qed.
End AL.

Lemma idx_init : IdxJ init_state /\ cs_exact init_state.
Proof.
  split; [split|].
  - intros e sd o H. unfold oid_of in H. simpl in H. destruct e; discriminate.
  - split.
    + intros sd o e H. destruct sd; discriminate.
    + intros sd p o e H. destruct sd; discriminate.
  - intros e en H. destruct e; discriminate.
Qed.

(* the part of a state the index invariant talks about *)
Definition ekey (en : entry) := (s_oid (e_l en), s_path (e_l en), s_oid (e_r en), s_path (e_r en)).
Definition iview (s : state) := (map ekey (ents s), oidsL s, oidsR s, pathsL s, pathsR s).

Lemma ents_proj_eq {T A} (k : entry -> T) (g : sidest -> option A) s s' :
  (forall en en' sd, k en = k en' -> g (gs en sd) = g (gs en' sd)) -> map k (ents s) = map k (ents s') ->
  forall e sd, match nth_error (ents s) e with Some en => g (gs en sd) | None => None end =
               match nth_error (ents s') e with Some en => g (gs en sd) | None => None end.
Proof.
  intros Hk H e sd. pose proof (nth_error_map k e (ents s)) as Hn. rewrite H, nth_error_map in Hn.
  destruct (nth_error (ents s) e), (nth_error (ents s') e); try discriminate Hn; [|reflexivity].
  injection Hn as Hn. symmetry. exact (Hk _ _ sd Hn).
Qed.

Lemma iview_eq s s' : iview s = iview s' ->
  (forall e sd, oid_of s e sd = oid_of s' e sd /\ path_of s e sd = path_of s' e sd) /\
  (forall sd, oids s sd = oids s' sd) /\ (forall sd, paths s sd = paths s' sd).
Proof.
  unfold iview. intros H. injection H as H1 H2 H3 H4 H5.
  split; [|split; intros []; simpl; congruence].
  assert (Hk: forall en en' sd, ekey en = ekey en' ->
            s_oid (gs en sd) = s_oid (gs en' sd) /\ s_path (gs en sd) = s_path (gs en' sd)).
  { intros [] [] sd Hk. injection Hk as Ha Hb Hc Hd. destruct sd; split; assumption. }
  intros e sd. split; [apply (ents_proj_eq ekey s_oid)|apply (ents_proj_eq ekey s_path)]; try exact H1; intros en en' sd' Ek; apply Hk; exact Ek.
Qed.

(* all that the index invariant reads of a state.  A state between two writes of one operation is described by an
   observation that is not obs_of of it (oview) *)
Record obs := mkObs {
  o_oid : eid -> bool -> option str;
  o_path : eid -> bool -> option str;
  o_at : bool -> str -> option eid;
  o_slot : bool -> str -> str -> option eid }.

Definition obs_of (s : state) : obs :=
  mkObs (oid_of s) (path_of s) (fun sd k => al_get k (oids s sd)) (slot_get s).

(* IdxJ, read off an observation: `IdxJ s` is `Idx (obs_of s)`, and `Idx (oview false s e sd)`, by conversion; the proofs
   below pass from one to the other without a step *)
Definition Idx (b : obs) : Prop :=
  (forall e sd o, o_oid b e sd = Some o ->
     o_at b sd o = Some e /\ (forall p, o_path b e sd = Some p -> p <> [] -> o_slot b sd p o = Some e)) /\
  (forall sd o e, o_at b sd o = Some e -> o_oid b e sd = Some o) /\
  (forall sd p o e, o_slot b sd p o = Some e -> o_oid b e sd = Some o /\ o_path b e sd = Some p /\ p <> []).

(* iview_ext and StateUpdateProofs.obs_eq are it at two states, written out field by field *)
Definition oeq (a b : obs) : Prop :=
  (forall e sd, o_oid a e sd = o_oid b e sd) /\ (forall e sd, o_path a e sd = o_path b e sd) /\
  (forall sd k, o_at a sd k = o_at b sd k) /\ (forall sd p k, o_slot a sd p k = o_slot b sd p k).

Lemma Idx_ext a b : oeq a b -> Idx b -> Idx a.
Proof.
  intros [Ho [Hp [HO HP]]] [Hf [Hso Hsp]]. split; [|split].
  - intros e sd o H. rewrite Ho in H. apply Hf in H as [H1 H2]. split; [rewrite HO; exact H1|].
    intros p Hp1 Hp2. rewrite HP. apply H2; [rewrite <- Hp; exact Hp1|exact Hp2].
  - intros sd o e H. rewrite HO in H. rewrite Ho. apply Hso. exact H.
  - intros sd p o e H. rewrite HP in H. rewrite Ho, Hp. apply Hsp. exact H.
Qed.

Lemma oeq_trans a b c : oeq a b -> oeq b c -> oeq a c.
Proof.
  intros [A1 [A2 [A3 A4]]] [B1 [B2 [B3 B4]]]. split; [|split; [|split]]; intros.
  - rewrite A1. apply B1.
  - rewrite A2. apply B2.
  - rewrite A3. apply B3.
  - rewrite A4. apply B4.
Qed.

Definition at2 (x e : eid) (sd' sd : bool) : bool := Nat.eqb x e && Bool.eqb sd' sd.
Lemma at2_true x e sd' sd : at2 x e sd' sd = true -> x = e /\ sd' = sd.
Proof. intros H. apply andb_prop in H as [A B]. apply Nat.eqb_eq in A. apply Bool.eqb_prop in B. auto. Qed.
Lemma at2_refl e sd : at2 e e sd sd = true.
Proof. unfold at2. rewrite Nat.eqb_refl, bool_eqb_refl. reflexivity. Qed.
Lemma at2_negb x e sd : at2 x e (negb sd) sd = false.
Proof. unfold at2. destruct sd; apply andb_false_r. Qed.

(* (e, sd) gets id o1 and path p1, in the fields and in both tables: its slot under the old key goes, one under the new key
   appears; a blank path has no slot (the code tests the path before it pops or files a slot) *)
Definition rekey (b : obs) (e : eid) (sd : bool) (o1 p1 : option str) : obs :=
  mkObs (fun x sd' => if at2 x e sd' sd then o1 else o_oid b x sd')
        (fun x sd' => if at2 x e sd' sd then p1 else o_path b x sd')
        (fun sd' k => if Bool.eqb sd' sd && ostr_eqb (Some k) o1 then Some e
                      else if Bool.eqb sd' sd && ostr_eqb (Some k) (o_oid b e sd) then None else o_at b sd' k)
        (fun sd' p k => if Bool.eqb sd' sd && tstr p1 && ostr_eqb (Some p) p1 && ostr_eqb (Some k) o1 then Some e
                        else if Bool.eqb sd' sd && tstr (o_path b e sd) && ostr_eqb (Some p) (o_path b e sd) &&
                                ostr_eqb (Some k) (o_oid b e sd) then None
                        else o_slot b sd' p k).

Lemma and3_true a b c : (a && b && c)%bool = true -> a = true /\ b = true /\ c = true.
Proof. destruct a, b, c; try discriminate; auto. Qed.

(* the one preservation argument *)
Lemma Idx_rekey b e sd o1 p1 :
  Idx b -> (forall k, o1 = Some k -> o_oid b e sd = Some k \/ o_at b sd k = None) -> Idx (rekey b e sd o1 p1).
Proof.
  intros [Hf [Hso Hsp]] Hfresh.
  (* an entry other than (e, sd) that carries k: k is neither the new nor the old id of (e, sd) *)
  assert (Hoth: forall x sd' k, at2 x e sd' sd = false -> o_oid b x sd' = Some k ->
            (Bool.eqb sd' sd && ostr_eqb (Some k) o1 = false /\ Bool.eqb sd' sd && ostr_eqb (Some k) (o_oid b e sd) = false)%bool).
  { intros x sd' k Hx Hk. destruct (Bool.eqb_spec sd' sd) as [->|]; [|split; reflexivity]. cbn [andb].
    assert (Hne: x <> e) by (intros ->; rewrite at2_refl in Hx; discriminate).
    destruct (Hf _ _ _ Hk) as [Ha _]. split.
    - destruct (ostr_eqb (Some k) o1) eqn:Ek; [|reflexivity]. apply ostr_eqb_eq in Ek.
      destruct (Hfresh k (eq_sym Ek)) as [He|He]; [|congruence]. destruct (Hf _ _ _ He) as [Hb _]. congruence.
    - destruct (ostr_eqb (Some k) (o_oid b e sd)) eqn:Ek; [|reflexivity]. apply ostr_eqb_eq in Ek.
      destruct (Hf _ _ _ (eq_sym Ek)) as [Hb _]. congruence. }
  assert (Hoff: forall s t p k, (s && k = false -> s && t && p && k = false)%bool).
  { intros [] t p k; cbn [andb]; [intros ->; apply andb_false_r|reflexivity]. }
  split; [|split]; cbn [rekey o_oid o_path o_at o_slot].
  - intros x sd' k Hk. destruct (at2 x e sd' sd) eqn:Hx.
    + apply at2_true in Hx as [-> ->]. subst o1. rewrite bool_eqb_refl, ostr_eqb_refl. split; [reflexivity|].
      intros p -> Hp. rewrite ostr_eqb_refl. destruct p; [contradiction|reflexivity].
    + destruct (Hoth _ _ _ Hx Hk) as [E1 E2]. destruct (Hf _ _ _ Hk) as [Ha Hb]. rewrite E1, E2. split; [exact Ha|].
      intros p Hp Hpn. rewrite (Hoff _ _ _ _ E1), (Hoff _ _ _ _ E2). exact (Hb _ Hp Hpn).
  - intros sd' k z H. destruct (Bool.eqb sd' sd && ostr_eqb (Some k) o1)%bool eqn:E1.
    + injection H as <-. apply andb_prop in E1 as [Es Ek]. apply Bool.eqb_prop in Es. apply ostr_eqb_eq in Ek. subst sd'.
      rewrite at2_refl. symmetry. exact Ek.
    + destruct (Bool.eqb sd' sd && ostr_eqb (Some k) (o_oid b e sd))%bool eqn:E2; [discriminate|].
      pose proof (Hso _ _ _ H) as Hz. destruct (at2 z e sd' sd) eqn:Hx; [|exact Hz].
      apply at2_true in Hx as [-> ->]. rewrite Hz, bool_eqb_refl, ostr_eqb_refl in E2. discriminate.
  - intros sd' p k z H.
    destruct (Bool.eqb sd' sd && tstr p1 && ostr_eqb (Some p) p1 && ostr_eqb (Some k) o1)%bool eqn:E1.
    + injection H as <-. apply andb_prop in E1 as [E1 Ek]. apply and3_true in E1 as [Es [Et Ep]].
      apply Bool.eqb_prop in Es. apply ostr_eqb_eq in Ek, Ep. subst sd' p1. rewrite at2_refl.
      split; [symmetry; exact Ek|]. split; [reflexivity|]. destruct p; discriminate.
    + destruct (Bool.eqb sd' sd && tstr (o_path b e sd) && ostr_eqb (Some p) (o_path b e sd) && ostr_eqb (Some k) (o_oid b e sd))%bool
        eqn:E2; [discriminate|].
      pose proof (Hsp _ _ _ _ H) as Hz. destruct (at2 z e sd' sd) eqn:Hx; [|exact Hz].
      apply at2_true in Hx as [-> ->]. destruct Hz as [Ha [Hb Hc]]. rewrite Ha, Hb, bool_eqb_refl, !ostr_eqb_refl in E2.
      destruct p; [contradiction|discriminate].
Qed.

Lemma refiled s t e sd w :
  oeq (obs_of t) (rekey (obs_of s) e sd (oid_of s e sd) w) ->
  (IdxJ s -> IdxJ t) /\ (forall x sd', oid_of t x sd' = oid_of s x sd') /\
  (forall x sd', path_of t x sd' = if at2 x e sd' sd then w else path_of s x sd').
Proof.
  intros Hq. split; [|split].
  - intros HJ. apply (Idx_ext _ _ Hq). apply Idx_rekey; [exact HJ|]. intros k Hk. left. exact Hk.
  - intros x sd'. pose proof (proj1 Hq x sd') as Ho. cbn [rekey obs_of o_oid] in Ho. rewrite Ho.
    destruct (at2 x e sd' sd) eqn:Hx; [apply at2_true in Hx as [-> ->]|]; reflexivity.
  - exact (proj1 (proj2 Hq)).
Qed.

(* the observation of s with, if h, the id field of (e, sd) read as None: what s is worth to the invariant while
   _change_oid has taken (e, sd) out of the tables and the field write is still to come *)
Definition oview (h : bool) (s : state) (e : eid) (sd : bool) : obs :=
  mkObs (fun x sd' => if h && at2 x e sd' sd then None else oid_of s x sd') (path_of s) (fun sd' k => al_get k (oids s sd')) (slot_get s).

Lemma iview_ext s s' : iview s' = iview s ->
  (forall x sd, oid_of s' x sd = oid_of s x sd) /\ (forall x sd, path_of s' x sd = path_of s x sd) /\
  (forall sd k, al_get k (oids s' sd) = al_get k (oids s sd)) /\ (forall sd p k, slot_get s' sd p k = slot_get s sd p k).
Proof.
  intros H. apply iview_eq in H as [He [Ho Hp]]. repeat split; intros.
  - apply He.
  - apply He.
  - rewrite Ho. reflexivity.
  - unfold slot_get. rewrite Hp. reflexivity.
Qed.
Lemma IdxJ_view s s' : iview s' = iview s -> IdxJ s -> IdxJ s'.
Proof. intros H. exact (Idx_ext (obs_of s') (obs_of s) (iview_ext _ _ H)). Qed.
Lemma IdxJ_st_now s t : IdxJ s -> IdxJ (st_now s t).
Proof. intros H. apply (IdxJ_view s); [reflexivity|exact H]. Qed.
Lemma IdxJ_st_tape s t : IdxJ s -> IdxJ (st_tape s t).
Proof. intros H. apply (IdxJ_view s); [reflexivity|exact H]. Qed.

Lemma iview_put_ent s e en en' :
  nth_error (ents s) e = Some en -> ekey en' = ekey en -> iview (put_ent s e en') = iview s.
Proof.
  intros H Hk. unfold iview, put_ent. simpl. rewrite (map_upd_at_same ekey _ _ _ en) by assumption. reflexivity.
Qed.

Lemma oid_of_ent s e en sd : nth_error (ents s) e = Some en -> oid_of s e sd = s_oid (gs en sd).
Proof. unfold oid_of. intros ->. reflexivity. Qed.
Lemma path_of_ent s e en sd : nth_error (ents s) e = Some en -> path_of s e sd = s_path (gs en sd).
Proof. unfold path_of. intros ->. reflexivity. Qed.
Lemma iview_raw_side_at s e sd f :
  (forall en, nth_error (ents s) e = Some en ->
     s_oid (f (gs en sd)) = s_oid (gs en sd) /\ s_path (f (gs en sd)) = s_path (gs en sd)) ->
  iview (raw_side s e sd f) = iview s.
Proof.
  intros Hf. unfold raw_side. destruct (nth_error (ents s) e) as [en|] eqn:En; [|reflexivity].
  destruct (Hf en eq_refl) as [Ho Hp]. apply (iview_put_ent _ _ en); [exact En|].
  unfold ekey, ss, gs in *. destruct sd; simpl; rewrite Ho, Hp; reflexivity.
Qed.
Lemma raw_side_map {T} (k : entry -> T) s e sd f :
  (forall en, k (ss en sd (f (gs en sd))) = k en) -> map k (ents (raw_side s e sd f)) = map k (ents s).
Proof.
  intros Hk. unfold raw_side. destruct (nth_error (ents s) e) as [en|] eqn:En; [|reflexivity].
  unfold put_ent. simpl. apply (map_upd_at_same k _ _ _ _ En), Hk.
Qed.

Definition keeps_key (f : sidest -> sidest) : Prop := forall x, s_oid (f x) = s_oid x /\ s_path (f x) = s_path x.
Lemma keeps_w_otype v : keeps_key (fun y => w_otype y v). Proof. intros x. split; reflexivity. Qed.
Lemma keeps_w_hash v : keeps_key (fun y => w_hash y v). Proof. intros x. split; reflexivity. Qed.
Lemma keeps_w_spath v : keeps_key (fun y => w_spath y v). Proof. intros x. split; reflexivity. Qed.
Lemma keeps_w_shash v : keeps_key (fun y => w_shash y v). Proof. intros x. split; reflexivity. Qed.
Lemma keeps_w_ex v : keeps_key (fun y => w_ex y v). Proof. intros x. split; reflexivity. Qed.
Lemma keeps_w_chg v : keeps_key (fun y => w_chg y v). Proof. intros x. split; reflexivity. Qed.
Lemma keeps_w_force v : keeps_key (fun y => w_force y v). Proof. intros x. split; reflexivity. Qed.
(* the `exists` step of update_entry is one plain write *)
Lemma set_ex_plain s e sd cur ex :
  match cur, ex with
  | ExTrashed, Some true => set_plain s e sd (fun y => w_ex y ExLikely)
  | _, _ => set_plain s e sd (fun y => w_ex y (ex_of ex))
  end = set_plain s e sd (fun y => w_ex y match cur, ex with ExTrashed, Some true => ExLikely | _, _ => ex_of ex end).
Proof. destruct cur, ex as [[|]|]; reflexivity. Qed.
Global Hint Resolve keeps_w_otype keeps_w_hash keeps_w_spath keeps_w_shash keeps_w_ex keeps_w_chg keeps_w_force : keeps.

Lemma iview_raw_side s e sd f : keeps_key f -> iview (raw_side s e sd f) = iview s.
Proof. intros Hf. apply iview_raw_side_at. intros en _. apply Hf. Qed.
Lemma iview_raw_oid_same s e sd v : oid_of s e sd = v -> iview (raw_side s e sd (fun y => w_oid y v)) = iview s.
Proof.
  intros H. apply iview_raw_side_at. intros en En. split; [|reflexivity].
  rewrite <- (oid_of_ent _ _ _ sd En). symmetry. exact H.
Qed.
Lemma iview_raw_path_same s e sd v : path_of s e sd = v -> iview (raw_side s e sd (fun y => w_path y v)) = iview s.
Proof.
  intros H. apply iview_raw_side_at. intros en En. split; [reflexivity|].
  rewrite <- (path_of_ent _ _ _ sd En). symmetry. exact H.
Qed.

Lemma iview_dirty_add s e : iview (dirty_add s e) = iview s. Proof. reflexivity. Qed.
Lemma iview_cs_add s e : iview (cs_add s e) = iview s. Proof. reflexivity. Qed.
Lemma iview_cs_del s e : iview (cs_del s e) = iview s. Proof. reflexivity. Qed.

Definition flag_cmd (c : cmd) : bool := match c with CChg _ _ _ _ | CPrio _ _ => true | _ => false end.

Lemma get_ent_ok s e en : get_ent s e = Ok en -> nth_error (ents s) e = Some en.
Proof. unfold get_ent. destruct (nth_error (ents s) e); intros H; inversion H; reflexivity. Qed.
Lemma get_ent_nth s e en : nth_error (ents s) e = Some en -> get_ent s e = Ok en.
Proof. unfold get_ent. intros ->. reflexivity. Qed.

(* clause (i) and the first half of clause (ii) in terms of the entries *)
Lemma IdxJ_holder s e sd (o : str) en : IdxJ s -> nth_error (ents s) e = Some en -> s_oid (gs en sd) = Some o ->
  al_get o (oids s sd) = Some e.
Proof. intros [Hf _] Hn Ho. apply (Hf e sd o). rewrite (oid_of_ent _ _ _ sd Hn). exact Ho. Qed.
Lemma idx_lookup s sd o e : IdxJ s -> al_get o (oids s sd) = Some e ->
  exists en, nth_error (ents s) e = Some en /\ s_oid (gs en sd) = Some o.
Proof.
  intros [_ [Hso _]] H. apply Hso in H. unfold oid_of in H. destruct (nth_error (ents s) e) as [en|]; [|discriminate].
  exists en. split; [reflexivity|exact H].
Qed.

(* under the index invariant both indexes are functions of the entries *)
Lemma index_determined s s' : IdxJ s -> IdxJ s' ->
  (forall e sd, oid_of s e sd = oid_of s' e sd /\ path_of s e sd = path_of s' e sd) ->
  (forall sd o, al_get o (oids s sd) = al_get o (oids s' sd)) /\
  (forall sd p o, slot_get s sd p o = slot_get s' sd p o).
Proof.
  intros [Hf [Ho Hp]] [Hf' [Ho' Hp']] He. split.
  - intros sd o. destruct (al_get o (oids s sd)) as [e|] eqn:E1.
    + apply Ho in E1. rewrite (proj1 (He e sd)) in E1. symmetry. apply (Hf' _ _ _ E1).
    + destruct (al_get o (oids s' sd)) as [e|] eqn:E2; [|reflexivity].
      apply Ho' in E2. rewrite <- (proj1 (He e sd)) in E2. destruct (Hf _ _ _ E2) as [A _]. congruence.
  - intros sd p o. destruct (slot_get s sd p o) as [e|] eqn:E1.
    + destruct (Hp _ _ _ _ E1) as [A [B C]]. rewrite (proj1 (He e sd)) in A. rewrite (proj2 (He e sd)) in B.
      symmetry. apply (Hf' _ _ _ A); assumption.
    + destruct (slot_get s' sd p o) as [e|] eqn:E2; [|reflexivity].
      destruct (Hp' _ _ _ _ E2) as [A [B C]]. rewrite <- (proj1 (He e sd)) in A. rewrite <- (proj2 (He e sd)) in B.
      destruct (Hf _ _ _ A) as [_ D]. rewrite (D _ B C) in E1. discriminate.
Qed.

(* invert H : bind r f = Ok _ into r = Ok x (equation E), leaving H : f x = Ok _ *)
Ltac bind_inv H x E :=
  match type of H with
  | bind ?r _ = Ok _ => destruct r as [x|] eqn:E; cbn [bind] in H; [|discriminate]
  end.

(* the flag commands (CChg, CPrio) write nothing but the change set, the dirty set, `changed` and the priority *)
Lemma exec_flag_keeps {T} (k : state -> T) E :
  (forall s e, k (cs_add s e) = k s) -> (forall s e, k (cs_del s e) = k s) -> (forall s e, k (dirty_add s e) = k s) ->
  (forall s e sd v, k (raw_side s e sd (fun z => w_chg z v)) = k s) ->
  (forall s e en v, nth_error (ents s) e = Some en -> k (put_ent s e (mkEnt (e_l en) (e_r en) (e_ign en) v)) = k s) ->
  forall f c s s', flag_cmd c = true -> exec E f c s = Ok s' -> k s' = k s.
Proof.
  intros Ha Hd Hy Hw Hp. induction f as [|f IH]; intros c s s' Hc H; [discriminate|].
  destruct c as [fin e sd v|fin e sd v|fin e sd v|e v]; try discriminate; simpl in H.
  - bind_inv H x E0. bind_inv H x0 E1. injection H as <-.
    assert (Hx: k x0 = k s).
    { (* the entry is pending afterwards (cs_add); else it leaves the change set and, if the other side is flagged
         without an id, that flag is reset (ccb41ee: by a plain write; before, by the setter itself) *)
      destruct (_ || _)%bool; [injection E1 as <-; apply Ha|].
      destruct (_ && _)%bool; [|injection E1 as <-; apply Hd].
      destruct (legacy E); [rewrite (IH (CChg _ _ _ _) _ _ eq_refl E1)|injection E1 as <-; rewrite Hw]; apply Hd. }
    rewrite <- Hx, <- (Hy x0 e). destruct fin; [apply Hw|reflexivity].
  - bind_inv H x E0. destruct (N.eqb (e_prio x) v); [injection H as <-; reflexivity|].
    bind_inv H x0 E1.
    assert (Hx: k x0 = k s).
    { (* only a priority that rises above 0 punts the change stamps of the flagged sides *)
      destruct (_ && _)%bool; [|injection E1 as <-; reflexivity].
      bind_inv E1 x1 E2. bind_inv E1 x2 E3.
      assert (Ha1: k x1 = k s).
      { destruct (tchg (s_chg (e_l x))); [exact (IH (CChg _ _ _ _) _ _ eq_refl E2)|injection E2 as <-; reflexivity]. }
      rewrite <- Ha1. destruct (tchg (s_chg (e_r x2))); [exact (IH (CChg _ _ _ _) _ _ eq_refl E1)|injection E1 as <-; reflexivity]. }
    simpl in H. destruct (nth_error (ents x0) e) as [en2|] eqn:E3; [|discriminate]. injection H as <-.
    rewrite <- Hx, <- (Hy x0 e). exact (Hp (dirty_add x0 e) _ en2 _ E3).
Qed.
Lemma exec_flag_view E f : forall c s s', flag_cmd c = true -> exec E f c s = Ok s' -> iview s' = iview s.
Proof.
  apply (exec_flag_keeps iview); try reflexivity.
  - intros. apply iview_raw_side, keeps_w_chg.
  - intros s e en v Hn. apply (iview_put_ent _ _ en _ Hn). reflexivity.
Qed.

Lemma oids_st_oids s sd v sd' : oids (st_oids s sd v) sd' = if Bool.eqb sd' sd then v else oids s sd'.
Proof. destruct sd, sd'; reflexivity. Qed.
Lemma paths_st_oids s sd v sd' : paths (st_oids s sd v) sd' = paths s sd'.
Proof. destruct sd, sd'; reflexivity. Qed.
Lemma ents_st_oids s sd v : ents (st_oids s sd v) = ents s.
Proof. destruct sd; reflexivity. Qed.
Lemma oids_st_paths s sd v sd' : oids (st_paths s sd v) sd' = oids s sd'.
Proof. destruct sd, sd'; reflexivity. Qed.
Lemma paths_st_paths s sd v sd' : paths (st_paths s sd v) sd' = if Bool.eqb sd' sd then v else paths s sd'.
Proof. destruct sd, sd'; reflexivity. Qed.
Lemma ents_st_paths s sd v : ents (st_paths s sd v) = ents s.
Proof. destruct sd; reflexivity. Qed.

Lemma oid_of_st_oids s sd v e sd' : oid_of (st_oids s sd v) e sd' = oid_of s e sd'.
Proof. unfold oid_of. rewrite ents_st_oids. reflexivity. Qed.
Lemma path_of_st_oids s sd v e sd' : path_of (st_oids s sd v) e sd' = path_of s e sd'.
Proof. unfold path_of. rewrite ents_st_oids. reflexivity. Qed.
Lemma oid_of_st_paths s sd v e sd' : oid_of (st_paths s sd v) e sd' = oid_of s e sd'.
Proof. unfold oid_of. rewrite ents_st_paths. reflexivity. Qed.
Lemma path_of_st_paths s sd v e sd' : path_of (st_paths s sd v) e sd' = path_of s e sd'.
Proof. unfold path_of. rewrite ents_st_paths. reflexivity. Qed.
Lemma slot_get_st_oids s sd v sd' p o : slot_get (st_oids s sd v) sd' p o = slot_get s sd' p o.
Proof. unfold slot_get. rewrite paths_st_oids. reflexivity. Qed.

Lemma raw_side_dirty_add s e sd f k : raw_side (dirty_add s k) e sd f = dirty_add (raw_side s e sd f) k.
Proof. unfold raw_side, dirty_add. simpl. destruct (nth_error (ents s) e); reflexivity. Qed.
Lemma oids_raw_side s e sd f sd' : oids (raw_side s e sd f) sd' = oids s sd'.
Proof. unfold raw_side. destruct (nth_error (ents s) e); destruct sd'; reflexivity. Qed.
Lemma paths_raw_side s e sd f sd' : paths (raw_side s e sd f) sd' = paths s sd'.
Proof. unfold raw_side. destruct (nth_error (ents s) e); destruct sd'; reflexivity. Qed.
Lemma slot_get_raw_side s e sd f sd' p o : slot_get (raw_side s e sd f) sd' p o = slot_get s sd' p o.
Proof. unfold slot_get. rewrite paths_raw_side. reflexivity. Qed.

Lemma gs_ss en sd x sd' : gs (ss en sd x) sd' = if Bool.eqb sd' sd then x else gs en sd'.
Proof. destruct sd, sd'; reflexivity. Qed.
Lemma ss_gs en sd : ss en sd (gs en sd) = en.
Proof. destruct en, sd; reflexivity. Qed.
Lemma ss_ss en sd x y : ss (ss en sd x) sd y = ss en sd y.
Proof. destruct sd; reflexivity. Qed.
Lemma gs_ss_same en sd x : gs (ss en sd x) sd = x.
Proof. rewrite gs_ss, bool_eqb_refl. reflexivity. Qed.
Lemma gs_ss_other en sd x : gs (ss en sd x) (negb sd) = gs en (negb sd).
Proof. rewrite gs_ss. destruct sd; reflexivity. Qed.
Lemma ign_ss en sd x : e_ign (ss en sd x) = e_ign en.
Proof. destruct sd; reflexivity. Qed.

Lemma cset_raw_side s e sd f : cset (raw_side s e sd f) = cset s.
Proof. unfold raw_side. destruct (nth_error (ents s) e); reflexivity. Qed.
Lemma cset_st_paths s sd v : cset (st_paths s sd v) = cset s.
Proof. destruct sd; reflexivity. Qed.

Lemma ents_raw_side s e sd f :
  ents (raw_side s e sd f) =
  match nth_error (ents s) e with Some en => list_upd (ents s) e (ss en sd (f (gs en sd))) | None => ents s end.
Proof. unfold raw_side. destruct (nth_error (ents s) e); reflexivity. Qed.
Lemma set_mem_add e' e l : set_mem e' (set_add e l) = Nat.eqb e' e || set_mem e' l.
Proof.
  induction l as [|x l IH]; simpl.
  - rewrite orb_false_r. reflexivity.
  - destruct (Nat.eqb_spec e x) as [->|Hn]; simpl.
    + destruct (Nat.eqb e' x); reflexivity.
    + destruct (Nat.ltb e x); simpl.
      * reflexivity.
      * rewrite IH. destruct (Nat.eqb e' x), (Nat.eqb e' e); reflexivity.
Qed.
Lemma w_otype_same x t : s_otype x = t -> w_otype x t = x.
Proof. destruct x; simpl; intros ->; reflexivity. Qed.
Lemma w_hash_same x h : s_hash x = h -> w_hash x h = x.
Proof. destruct x; simpl; intros ->; reflexivity. Qed.
Lemma w_path_same x p : s_path x = p -> w_path x p = x.
Proof. destruct x; simpl; intros ->; reflexivity. Qed.
Lemma otype_eqb_eq a b : otype_eqb a b = true <-> a = b.
Proof. destruct a, b; simpl; split; intros H; try discriminate; reflexivity. Qed.
Lemma fuel_of_S3 s : fuel_of s = S (S (S (2 * length (ents s) + 5))).
Proof. unfold fuel_of. lia. Qed.

Lemma add_entry_pres s t : IdxJ s -> IdxJ (fst (add_entry s t)).
Proof.
  assert (Hn: nth_error (ents s) (length (ents s)) = None) by (apply nth_error_None; lia).
  apply (Idx_ext (obs_of (fst (add_entry s t))) (obs_of s)).
  repeat split; intros; try reflexivity; cbn [obs_of o_oid o_path]; unfold oid_of, path_of, add_entry; simpl; rewrite nth_error_snoc;
    (destruct (Nat.eqb_spec e (length (ents s))) as [->|]; [rewrite Hn; destruct sd|]; reflexivity).
Qed.

Lemma side_raw_side {A} (g : sidest -> option A) s e sd f e' sd' :
  match nth_error (ents (raw_side s e sd f)) e' with Some en => g (gs en sd') | None => None end =
  if at2 e' e sd' sd
  then match nth_error (ents s) e with Some en => g (f (gs en sd)) | None => None end
  else match nth_error (ents s) e' with Some en => g (gs en sd') | None => None end.
Proof.
  unfold at2, raw_side. destruct (nth_error (ents s) e) as [en|] eqn:E.
  - simpl. rewrite nth_upd_at, E. destruct (Nat.eqb_spec e' e) as [->|Hn]; simpl; [|reflexivity].
    rewrite gs_ss. destruct (Bool.eqb sd' sd); [reflexivity|rewrite E; reflexivity].
  - destruct (Nat.eqb_spec e' e) as [->|Hn]; simpl; [|reflexivity].
    rewrite E. destruct (Bool.eqb sd' sd); reflexivity.
Qed.
Lemma oid_of_raw_side s e sd f e' sd' :
  oid_of (raw_side s e sd f) e' sd' =
  if at2 e' e sd' sd
  then match nth_error (ents s) e with Some en => s_oid (f (gs en sd)) | None => None end
  else oid_of s e' sd'.
Proof. exact (side_raw_side s_oid s e sd f e' sd'). Qed.
Lemma path_of_raw_side s e sd f e' sd' :
  path_of (raw_side s e sd f) e' sd' =
  if at2 e' e sd' sd
  then match nth_error (ents s) e with Some en => s_path (f (gs en sd)) | None => None end
  else path_of s e' sd'.
Proof. exact (side_raw_side s_path s e sd f e' sd'). Qed.

Lemma side_raw_keep {A} (g : sidest -> option A) s e sd f x sd' :
  (forall y, g (f y) = g y) ->
  match nth_error (ents (raw_side s e sd f)) x with Some en => g (gs en sd') | None => None end =
  match nth_error (ents s) x with Some en => g (gs en sd') | None => None end.
Proof.
  intros Hf. rewrite side_raw_side. destruct (at2 x e sd' sd) eqn:Hx; [|reflexivity].
  apply at2_true in Hx as [-> ->]. destruct (nth_error (ents s) e); [apply Hf|reflexivity].
Qed.
Lemma oid_of_raw_keep s e sd f x sd' :
  (forall y, s_oid (f y) = s_oid y) -> oid_of (raw_side s e sd f) x sd' = oid_of s x sd'.
Proof. exact (side_raw_keep s_oid s e sd f x sd'). Qed.
Lemma path_of_raw_keep s e sd f x sd' :
  (forall y, s_path (f y) = s_path y) -> path_of (raw_side s e sd f) x sd' = path_of s x sd'.
Proof. exact (side_raw_keep s_path s e sd f x sd'). Qed.

Lemma slot_get_slot_set s sd p o e sd' p' o' :
  slot_get (slot_set s sd p o e) sd' p' o' =
  if Bool.eqb sd' sd && str_eqb p' p && str_eqb o' o then Some e else slot_get s sd' p' o'.
Proof.
  unfold slot_get, slot_set. rewrite paths_st_paths.
  destruct (Bool.eqb sd' sd) eqn:Es; simpl; [|reflexivity].
  apply Bool.eqb_prop in Es. subst sd'.
  rewrite al_get_set. destruct (str_eqb p' p) eqn:Ep; simpl; [|reflexivity].
  apply str_eqb_eq in Ep. subst p'. rewrite al_get_set.
  destruct (str_eqb o' o); [reflexivity|]. destruct (al_get p (paths s sd)); reflexivity.
Qed.
Lemma oids_slot_set s sd p o e sd' : oids (slot_set s sd p o e) sd' = oids s sd'.
Proof. unfold slot_set. apply oids_st_paths. Qed.
Lemma ents_slot_set s sd p o e : ents (slot_set s sd p o e) = ents s.
Proof. unfold slot_set. apply ents_st_paths. Qed.

(* _paths[side][pp].pop(k, None), dropping the bucket when it becomes empty *)
Lemma slot_pop_get_opt s sd pp k sd' p' o' :
  slot_get (slot_pop s sd pp k) sd' p' o' =
  if Bool.eqb sd' sd && str_eqb p' pp && ostr_eqb (Some o') k then None else slot_get s sd' p' o'.
Proof.
  unfold slot_get, slot_pop. cbv zeta.
  assert (Hc: (Bool.eqb sd' sd && str_eqb p' pp)%bool = true -> sd' = sd /\ p' = pp).
  { intros Ec. apply andb_prop in Ec as [Es Ep]. apply Bool.eqb_prop in Es. apply str_eqb_eq in Ep. split; assumption. }
  destruct (al_get pp (paths s sd)) as [d|] eqn:Ed.
  - set (d' := match k with Some k0 => al_del k0 d | None => d end).
    assert (Hd: al_get o' d' = if ostr_eqb (Some o') k then None else al_get o' d).
    { unfold d'. destruct k; [apply al_get_del|reflexivity]. }
    assert (Hp: al_get p' (paths match d' with
                                 | [] => st_paths s sd (al_del pp (paths s sd))
                                 | _ :: _ => st_paths s sd (al_set pp d' (paths s sd))
                                 end sd') =
                if Bool.eqb sd' sd && str_eqb p' pp then match d' with [] => None | _ :: _ => Some d' end
                else al_get p' (paths s sd')).
    { destruct d'; rewrite paths_st_paths; (destruct (Bool.eqb_spec sd' sd) as [->|]; [|reflexivity]);
        [apply al_get_del|apply al_get_set]. }
    rewrite Hp. destruct (Bool.eqb sd' sd && str_eqb p' pp)%bool eqn:Ec; [|reflexivity].
    destruct (Hc eq_refl) as [-> ->]. cbn [andb]. rewrite Ed, <- Hd. destruct d'; reflexivity.
  - destruct (Bool.eqb sd' sd && str_eqb p' pp)%bool eqn:Ec; [|reflexivity].
    destruct (Hc eq_refl) as [-> ->]. cbn [andb]. rewrite Ed. destruct (ostr_eqb (Some o') k); reflexivity.
Qed.
(* slot_pop is the identity or one st_paths *)
Lemma slot_pop_frame {T} (k : state -> T) : (forall s sd v, k (st_paths s sd v) = k s) ->
  forall s sd p o, k (slot_pop s sd p o) = k s.
Proof.
  intros Hk s sd p o. unfold slot_pop. destruct (al_get p (paths s sd)) as [d|]; [|reflexivity].
  destruct (match o with Some k0 => al_del k0 d | None => d end); apply Hk.
Qed.
Lemma oids_slot_pop s sd p k sd' : oids (slot_pop s sd p k) sd' = oids s sd'.
Proof. exact (slot_pop_frame (fun t => oids t sd') (fun t a v => oids_st_paths t a v sd') s sd p k). Qed.
Lemma ents_slot_pop s sd p k : ents (slot_pop s sd p k) = ents s.
Proof. exact (slot_pop_frame ents ents_st_paths s sd p k). Qed.

Lemma IdxX_J s e sd : IdxX s e sd -> found1 s e sd -> IdxJ s.
Proof.
  intros [H1 [Hs _]] Hf. split; [|exact Hs]. intros e' sd' o.
  destruct (Nat.eq_dec e' e) as [->|Hn]; [destruct (Bool.bool_dec sd' sd) as [->|Hn]|]; [apply Hf|apply H1; right; exact Hn|apply H1; left; exact Hn].
Qed.

(* SyncState._change_oid: the loop `for remove_oid in set([ent[side].oid, oid])` and what follows it, by name *)
Definition oid_loop (rec : cmd -> state -> res state) (e : eid) (sd : bool) (old v : option str) (s : state) : res state :=
  let step := oid_step rec e sd in
  if ostr_eqb old v then step old s
  else
    y <- pop_swap s ;;
    let '(sw, s0) := y in
    if sw then (sx <- step v s0 ;; step old sx) else (sx <- step old s0 ;; step v sx).
Definition oid_finish (fin : bool) (e : eid) (sd : bool) (v : option str) (s1 : state) : res state :=
  en1 <- get_ent s1 e ;;
  let s2 := match v with
            | Some o =>
              let sa := st_oids (raw_side s1 e sd (fun y => w_oid y (Some o))) sd (al_set o e (oids s1 sd)) in
              let sb := match s_path (gs en1 sd) with
                        | Some pp => if tstr (Some pp) then slot_set sa sd pp o e else sa
                        | None => sa
                        end in
              if tchg (s_chg (gs en1 sd)) || tchg (s_chg (gs en1 (negb sd))) then cs_add sb e else sb
            | None =>
              if tchg (s_chg (gs en1 sd)) && negb (tchg (s_chg (gs en1 (negb sd)))) then cs_del s1 e else s1
            end in
  let s3 := dirty_add s2 e in
  Ok (if fin then raw_side s3 e sd (fun y => w_oid y v) else s3).
Lemma exec_oid_eq E f fin e sd v s :
  exec E (S f) (COid fin e sd v) s =
  (en <- get_ent s e ;; s1 <- oid_loop (exec E f) e sd (s_oid (gs en sd)) v s ;; oid_finish fin e sd v s1).
Proof. reflexivity. Qed.

(* the id command (COid) writes both indexes, the change set, the dirty set, the tape and the field `oid`: a projection that
   none of these shows in is kept.  Its one nested call is a COid again, so the induction stays within the id command *)
Section OidFrame.
Context {T : Type} (k : state -> T).
Hypothesis Ho : forall s sd v, k (st_oids s sd v) = k s.
Hypothesis Hp : forall s sd v, k (st_paths s sd v) = k s.
Hypothesis Ha : forall s e, k (cs_add s e) = k s.
Hypothesis Hd : forall s e, k (cs_del s e) = k s.
Hypothesis Hy : forall s e, k (dirty_add s e) = k s.
Hypothesis Hw : forall s e sd v, k (raw_side s e sd (fun y => w_oid y v)) = k s.
Hypothesis Ht : forall s t, k (st_tape s t) = k s.
Let Hs s sd p o e : k (slot_set s sd p o e) = k s := Hp s sd _.
Let Hq : forall s sd p o, k (slot_pop s sd p o) = k s := slot_pop_frame k Hp.
Ltac kept := repeat first [rewrite Ho|rewrite Hs|rewrite Hq|rewrite Ha|rewrite Hd|rewrite Hy|rewrite Hw|rewrite Ht].

Lemma exec_oid_frame E f : forall fin e sd v s s', exec E f (COid fin e sd v) s = Ok s' -> k s' = k s.
Proof.
  induction f as [|f IH]; intros fin e sd v s s' H; [discriminate|].
  assert (Hst: forall r a b, oid_step (exec E f) e sd r a = Ok b -> k b = k a).
  { intros r a b K. unfold oid_step in K. destruct r as [ro|]; [|injection K as <-; reflexivity].
    destruct (al_get ro (oids a sd)) as [pe|]; [|injection K as <-; reflexivity].
    bind_inv K x E0. destruct (Nat.eqb pe e); [injection K as <-|apply IH in K; rewrite K];
      destruct (s_path (gs x sd)) as [[|c pp]|]; cbn [tstr]; kept; reflexivity. }
  rewrite exec_oid_eq in H. bind_inv H x E0. bind_inv H x0 E1.
  transitivity (k x0).
  - unfold oid_finish in H. bind_inv H x1 E2. injection H as <-.
    destruct fin, v as [o|]; kept.
    (* a new id: is either side flagged (then the entry becomes pending), and is there a path to file it under *)
    all: try (destruct (_ || _)%bool; destruct (s_path (gs x1 sd)) as [[|c p]|]; cbn [tstr]; kept; reflexivity).
    (* the id is taken away: is this side the only flagged one (then the entry stops being pending) *)
    all: destruct (_ && _)%bool; kept; reflexivity.
  - unfold oid_loop in E1. destruct (ostr_eqb (s_oid (gs x sd)) v); [exact (Hst _ _ _ E1)|].
    unfold pop_swap in E1. destruct (tape s) as [|[b|l] r]; try discriminate. cbn [bind] in E1.
    destruct b; bind_inv E1 x1 E2; rewrite (Hst _ _ _ E1), (Hst _ _ _ E2); apply Ht.
Qed.
End OidFrame.

Lemma side_some_ent {A} (g : sidest -> option A) s e sd a :
  match nth_error (ents s) e with Some en => g (gs en sd) | None => None end = Some a ->
  exists en, get_ent s e = Ok en /\ g (gs en sd) = Some a.
Proof. unfold get_ent. destruct (nth_error (ents s) e) as [en|]; [|discriminate]. intros H. exists en. split; [reflexivity|exact H]. Qed.

(* the tail of _change_oid for oid = None *)
Lemma oid_finish_none fin e sd s1 s' : oid_finish fin e sd None s1 = Ok s' -> oeq (obs_of s') (oview fin s1 e sd).
Proof.
  unfold oid_finish. intros H. bind_inv H x E. injection H as <-. apply get_ent_ok in E.
  set (s2 := if (tchg (s_chg (gs x sd)) && negb (tchg (s_chg (gs x (negb sd)))))%bool then cs_del s1 e else s1).
  assert (Hv: iview (dirty_add s2 e) = iview s1) by (unfold s2; destruct (_ && _)%bool; reflexivity).
  pose proof (iview_ext _ _ Hv) as Hq. destruct fin; [|exact Hq]. destruct Hq as [Ho [Hp [HO HP]]].
  assert (Hn: nth_error (ents (dirty_add s2 e)) e = Some x) by (unfold s2; destruct (_ && _)%bool; exact E).
  split; [|split; [|split]]; cbn [obs_of oview o_oid o_path o_at o_slot andb]; intros.
  - rewrite oid_of_raw_side, Hn. destruct (at2 e0 e sd0 sd); [reflexivity|apply Ho].
  - rewrite path_of_raw_keep by reflexivity. apply Hp.
  - rewrite oids_raw_side. apply HO.
  - rewrite slot_get_raw_side. apply HP.
Qed.

Lemma oid_step_none rec e sd s : oid_step rec e sd None s = Ok s.
Proof. reflexivity. Qed.
Lemma oid_step_absent rec e sd ro s : al_get ro (oids s sd) = None -> oid_step rec e sd (Some ro) s = Ok s.
Proof. intros H. unfold oid_step. rewrite H. reflexivity. Qed.

Lemma oid_loop_none rec e sd ro s s1 : oid_loop rec e sd (Some ro) None s = Ok s1 ->
  exists r, oid_step rec e sd (Some ro) (st_tape s r) = Ok s1.
Proof.
  unfold oid_loop, pop_swap. cbv zeta. cbn [ostr_eqb]. destruct (tape s) as [|[b|l] r]; try discriminate. cbn [bind].
  intros H. exists r. destruct b; [exact H|].
  destruct (oid_step rec e sd (Some ro) (st_tape s r)); [exact H|discriminate].
Qed.

Lemma exec_oid_none_unindexed E fuel s pe sd ro s' :
  al_get ro (oids s sd) = None -> oid_of s pe sd = Some ro ->
  exec E fuel (COid true pe sd None) s = Ok s' -> oeq (obs_of s') (oview true s pe sd).
Proof.
  intros Habs Ho H. destruct fuel as [|f]; [discriminate|].
  rewrite exec_oid_eq in H. destruct (side_some_ent s_oid _ _ _ _ Ho) as [en [Hen Hoe]].
  rewrite Hen in H. cbn [bind] in H. rewrite Hoe in H. bind_inv H x E0.
  apply oid_loop_none in E0 as [r E0]. rewrite oid_step_absent in E0 by exact Habs. injection E0 as <-.
  exact (oid_finish_none _ _ _ _ _ H).
Qed.

(* one round of the removal loop when ro is held by pe: (pe, sd) leaves both tables; unless pe is the entry being
   re-indexed, it also loses the id field, through the nested write *)
Lemma oid_step_holder E f e sd ro pe s s' :
  al_get ro (oids s sd) = Some pe -> oid_of s pe sd = Some ro ->
  oid_step (exec E f) e sd (Some ro) s = Ok s' ->
  oeq (oview true s' pe sd) (rekey (obs_of s) pe sd None (path_of s pe sd)) /\
  oid_of s' pe sd = if Nat.eqb pe e then Some ro else None.
Proof.
  intros Hpe Ho H. unfold oid_step in H. rewrite Hpe in H.
  destruct (side_some_ent s_oid _ _ _ _ Ho) as [pn [Hpn _]].
  set (s1 := st_oids s sd (al_del ro (oids s sd))) in *.
  assert (Hpn1: get_ent s1 pe = Ok pn) by (unfold get_ent in *; unfold s1; rewrite ents_st_oids; exact Hpn).
  rewrite Hpn1 in H. cbn [bind] in H. apply get_ent_ok in Hpn.
  set (s2 := match s_path (gs pn sd) with
             | Some pp => if tstr (Some pp) then slot_pop s1 sd pp (Some ro) else s1
             | None => s1 end) in *.
  assert (Hpp: path_of s pe sd = s_path (gs pn sd)) by (unfold path_of; rewrite Hpn; reflexivity).
  assert (He2: ents s2 = ents s).
  { unfold s2. destruct (s_path (gs pn sd)) as [[|c pp]|]; [|cbn [tstr]; rewrite ents_slot_pop|]; apply ents_st_oids. }
  assert (Ho2: oid_of s2 pe sd = Some ro) by (unfold oid_of; rewrite He2; exact Ho).
  assert (H2: oeq (oview true s2 pe sd) (rekey (obs_of s) pe sd None (path_of s pe sd))).
  { split; [|split; [|split]]; cbn [oview rekey obs_of o_oid o_path o_at o_slot andb].
    - intros x sd'. unfold oid_of. rewrite He2. reflexivity.
    - intros x sd'. unfold path_of at 1. rewrite He2. fold (path_of s x sd').
      destruct (at2 x pe sd' sd) eqn:Hx; [apply at2_true in Hx as [-> ->]|]; reflexivity.
    - intros sd' k. rewrite Ho. change (ostr_eqb (Some k) None) with false. rewrite andb_false_r.
      assert (Hx: oids s2 sd' = oids s1 sd').
      { unfold s2. destruct (s_path (gs pn sd)) as [[|c pp]|]; [|apply oids_slot_pop|]; reflexivity. }
      rewrite Hx. unfold s1. rewrite oids_st_oids. destruct (Bool.eqb_spec sd' sd) as [->|]; [apply al_get_del|reflexivity].
    - intros sd' p k. rewrite Ho, Hpp. change (tstr None) with false. rewrite andb_false_r. cbn [andb].
      unfold s2, s1. destruct (s_path (gs pn sd)) as [[|c pp]|]; cbn [tstr ostr_eqb].
      + rewrite andb_false_r. apply slot_get_st_oids.
      + rewrite slot_pop_get_opt, slot_get_st_oids, andb_true_r. reflexivity.
      + rewrite andb_false_r. apply slot_get_st_oids. }
  assert (K: oeq (oview true s' pe sd) (oview true s2 pe sd) /\ oid_of s' pe sd = if Nat.eqb pe e then Some ro else None).
  { destruct (Nat.eqb_spec pe e) as [->|Hne].
    - injection H as <-. split; [repeat split|exact Ho2].
    - pose proof (proj1 (proj2 (proj2 H2)) sd ro) as Habs. cbn [oview rekey obs_of o_at o_oid] in Habs.
      rewrite Ho, bool_eqb_refl, ostr_eqb_refl in Habs.
      destruct (exec_oid_none_unindexed _ _ _ _ _ _ _ Habs Ho2 H) as [Hn1 [Hn2 [Hn3 Hn4]]].
      cbn [oview obs_of o_oid o_path o_at o_slot andb] in Hn1, Hn2, Hn3, Hn4. split.
      + split; [|split; [|split]]; cbn [oview o_oid o_path o_at o_slot andb]; [|exact Hn2|exact Hn3|exact Hn4].
        intros x sd'. rewrite Hn1. destruct (at2 x pe sd' sd); reflexivity.
      + rewrite Hn1, at2_refl. reflexivity. }
  destruct K as [K1 K2]. split; [exact (oeq_trans _ _ _ K1 H2)|exact K2].
Qed.

Lemma oview_noid h h' t e sd : oid_of t e sd = None -> oeq (oview h' t e sd) (oview h t e sd).
Proof.
  intros Ho. split; [|repeat split]. intros x sd'. cbn [oview o_oid].
  destruct (at2 x e sd' sd) eqn:Hx; [apply at2_true in Hx as [-> ->]; rewrite Ho|]; destruct h, h'; reflexivity.
Qed.

(* one removal round, seen through the observation in which the id field of (e, sd) may already be read as None.
   h : the round for e's own id has been run (so e is out of both tables); the round whose id r is e's own raises it *)
Lemma oid_step_view E f e sd r s s' h :
  Idx (oview h s e sd) -> oid_step (exec E f) e sd r s = Ok s' ->
  Idx (oview (h || ostr_eqb r (oid_of s e sd)) s' e sd) /\
  (forall ro, r = Some ro -> al_get ro (oids s' sd) = None) /\
  (forall k, al_get k (oids s sd) = None -> al_get k (oids s' sd) = None) /\
  oid_of s' e sd = oid_of s e sd.
Proof.
  intros HI H.
  (* under h = false the observation is that of s: e's own id leads to e *)
  assert (Hown: forall ro, h = false -> oid_of s e sd = Some ro -> al_get ro (oids s sd) = Some e).
  { intros ro -> Ho. exact (proj1 (proj1 HI e sd ro Ho)). }
  destruct r as [ro|]; [destruct (al_get ro (oids s sd)) as [pe|] eqn:Epe|].
  - pose proof (proj1 (proj2 HI) sd ro pe Epe) as Hope. cbn [oview o_oid] in Hope.
    assert (Hpe: oid_of s pe sd = Some ro /\ (h = true -> pe <> e)).
    { destruct h; cbn [andb] in Hope; [|split; [exact Hope|discriminate]].
      destruct (at2 pe e sd sd) eqn:Hx; [discriminate|]. split; [exact Hope|]. intros _ ->. rewrite at2_refl in Hx. discriminate. }
    destruct Hpe as [Hope' Hne].
    assert (Hb: (h || ostr_eqb (Some ro) (oid_of s e sd) = h || Nat.eqb pe e)%bool).
    { destruct h; [reflexivity|]. cbn [orb]. destruct (Nat.eqb_spec pe e) as [->|Hn]; [rewrite Hope'; apply ostr_eqb_refl|].
      destruct (ostr_eqb (Some ro) (oid_of s e sd)) eqn:Eo; [|reflexivity]. apply ostr_eqb_eq in Eo.
      rewrite (Hown ro eq_refl (eq_sym Eo)) in Epe. congruence. }
    rewrite Hb.
    destruct (oid_step_holder _ _ _ _ _ _ _ _ Epe Hope' H) as [[Qo [Qp [QO QP]]] Hf].
    cbn [oview rekey obs_of o_oid o_path o_at o_slot andb] in Qo, Qp, QO, QP. rewrite Hope' in QO, QP.
    split; [|split; [|split]].
    + apply (Idx_ext _ (rekey (oview h s e sd) pe sd None (path_of s pe sd))); [|apply Idx_rekey; [exact HI|discriminate]].
      split; [|split; [|split]]; cbn [oview rekey o_oid o_path o_at o_slot]; [|exact Qp|rewrite Hope; exact QO|rewrite Hope; exact QP].
      intros x sd'. destruct (at2 x pe sd' sd) eqn:Hx.
      * apply at2_true in Hx as [-> ->]. rewrite Hf. unfold at2. rewrite bool_eqb_refl, andb_true_r.
        destruct (Nat.eqb pe e), h; reflexivity.
      * specialize (Qo x sd'). rewrite Hx in Qo. rewrite Qo. destruct (Nat.eqb_spec pe e) as [->|_]; [|rewrite orb_false_r; reflexivity].
        rewrite Hx, !andb_false_r. reflexivity.
    + intros ro' [= <-]. rewrite QO, bool_eqb_refl, ostr_eqb_refl. reflexivity.
    + intros k Hk. rewrite QO, Hk. change (ostr_eqb (Some k) None) with false. rewrite andb_false_r.
      destruct (Bool.eqb sd sd && ostr_eqb (Some k) (Some ro))%bool; reflexivity.
    + destruct (Nat.eqb_spec pe e) as [->|Hn]; [rewrite Hf; symmetry; exact Hope'|].
      specialize (Qo e sd). unfold at2 in Qo. destruct (Nat.eqb_spec e pe); [congruence|]. exact Qo.
  - rewrite oid_step_absent in H by exact Epe. injection H as <-.
    split; [|split; [intros ro' [= <-]; exact Epe|split; auto]].
    destruct h; [exact HI|]. cbn [orb]. destruct (ostr_eqb (Some ro) (oid_of s e sd)) eqn:Eo; [|exact HI].
    apply ostr_eqb_eq in Eo. rewrite (Hown ro eq_refl (eq_sym Eo)) in Epe. discriminate.
  - injection H as <-. split; [|split; [discriminate|split; auto]].
    destruct (oid_of s e sd) eqn:Eo; [cbn [ostr_eqb]; rewrite orb_false_r; exact HI|].
    exact (Idx_ext _ _ (oview_noid h _ s e sd Eo) HI).
Qed.

Lemma oid_loop_view E f e sd old v s s1 :
  IdxJ s -> oid_of s e sd = old -> oid_loop (exec E f) e sd old v s = Ok s1 ->
  Idx (oview true s1 e sd) /\ (forall o, v = Some o -> al_get o (oids s1 sd) = None).
Proof.
  intros HJ Hold H. unfold oid_loop in H. destruct (ostr_eqb old v) eqn:Eq.
  - apply ostr_eqb_eq in Eq. subst v.
    destruct (oid_step_view _ _ _ _ _ _ _ false HJ H) as (HI & C & _). rewrite Hold, ostr_eqb_refl in HI.
    split; [exact HI|exact C].
  - bind_inv H y E0. destruct y as [sw s0]. unfold pop_swap in E0.
    destruct (tape s) as [|[b|l] r]; try discriminate. injection E0 as <- <-.
    (* reading the swap item off the tape does not show in anything the invariant reads *)
    assert (HJ0: Idx (oview false (st_tape s r) e sd)) by exact HJ.
    assert (Hold0: oid_of (st_tape s r) e sd = old) by exact Hold.
    destruct b; bind_inv H sm E0;
      destruct (oid_step_view _ _ _ _ _ _ _ _ HJ0 E0) as (HI1 & C1 & _ & D1);
      destruct (oid_step_view _ _ _ _ _ _ _ _ HI1 H) as (HI2 & C2 & F2 & _).
    + rewrite D1, Hold0, ostr_eqb_refl, orb_true_r in HI2. split; [exact HI2|intros o Hv; exact (F2 _ (C1 _ Hv))].
    + rewrite Hold0, ostr_eqb_refl in HI2. split; [exact HI2|exact C2].
Qed.

Lemma oid_finish_some fin e sd o s1 s' : oid_finish fin e sd (Some o) s1 = Ok s' ->
  oeq (obs_of s') (rekey (oview true s1 e sd) e sd (Some o) (path_of s1 e sd)).
Proof.
  unfold oid_finish. intros H. destruct (get_ent s1 e) as [x|] eqn:E; cbn [bind] in H; [|discriminate].
  cbv beta zeta iota in H. injection H as <-. apply get_ent_ok in E.
  set (sr := raw_side s1 e sd (fun y => w_oid y (Some o))).
  set (sa := st_oids sr sd (al_set o e (oids s1 sd))).
  set (sb := match s_path (gs x sd) with
             | Some pp => if match pp with [] => false | _ :: _ => true end then slot_set sa sd pp o e else sa
             | None => sa end).
  set (sc := if (tchg (s_chg (gs x sd)) || tchg (s_chg (gs x (negb sd))))%bool then cs_add sb e else sb).
  assert (Hpx: path_of s1 e sd = s_path (gs x sd)) by (unfold path_of; rewrite E; reflexivity).
  assert (Hentsb: ents sb = ents sr).
  { unfold sb. destruct (s_path (gs x sd)) as [[|c pp]|]; [|rewrite ents_slot_set|]; apply ents_st_oids. }
  assert (Hoidb: forall e' sd', oid_of sb e' sd' = if at2 e' e sd' sd then Some o else oid_of s1 e' sd').
  { intros e' sd'. unfold oid_of at 1. rewrite Hentsb. fold (oid_of sr e' sd'). unfold sr. rewrite oid_of_raw_side, E. reflexivity. }
  (* the change set, the dirty mark and the repeated field write do not show *)
  assert (Hv: iview (if fin then raw_side (dirty_add sc e) e sd (fun y => w_oid y (Some o)) else dirty_add sc e) = iview sb).
  { assert (Hc: iview (dirty_add sc e) = iview sb) by (unfold sc; destruct (_ || _)%bool; reflexivity).
    destruct fin; [|exact Hc]. rewrite <- Hc. apply iview_raw_oid_same.
    destruct (iview_ext _ _ Hc) as [Ho _]. rewrite Ho, Hoidb, at2_refl. reflexivity. }
  destruct (iview_ext _ _ Hv) as [Ho' [Hp' [HO' HP']]].
  split; [|split; [|split]]; cbn [obs_of rekey oview o_oid o_path o_at o_slot andb].
  - intros x0 sd'. rewrite Ho', Hoidb. destruct (at2 x0 e sd' sd); reflexivity.
  - intros x0 sd'. rewrite Hp'. unfold path_of at 1. rewrite Hentsb. fold (path_of sr x0 sd'). unfold sr.
    rewrite path_of_raw_keep by reflexivity. destruct (at2 x0 e sd' sd) eqn:Hx; [apply at2_true in Hx as [-> ->]|]; reflexivity.
  - intros sd' k. rewrite HO', at2_refl. change (ostr_eqb (Some k) None) with false. rewrite andb_false_r.
    assert (Hx: oids sb sd' = oids sa sd').
    { unfold sb. destruct (s_path (gs x sd)) as [[|c pp]|]; [|apply oids_slot_set|]; reflexivity. }
    rewrite Hx. unfold sa. rewrite oids_st_oids. destruct (Bool.eqb_spec sd' sd) as [->|]; [apply al_get_set|].
    unfold sr. rewrite oids_raw_side. reflexivity.
  - intros sd' p k. rewrite HP', at2_refl, Hpx. change (ostr_eqb (Some k) None) with false. rewrite andb_false_r.
    unfold sb. destruct (s_path (gs x sd)) as [[|c pp]|]; cbn [tstr ostr_eqb];
      [rewrite andb_false_r|rewrite slot_get_slot_set, andb_true_r|rewrite andb_false_r];
      unfold sa, sr; rewrite slot_get_st_oids, slot_get_raw_side; reflexivity.
Qed.

(* updated(side, "oid", v) keeps the index invariant when it is followed by the field write (the intercepted
   setter), and also without it when v is an id: then _change_oid writes the field itself *)
Lemma exec_oid_pres E f fin e sd v s s' :
  (v = None -> fin = true) -> IdxJ s -> exec E f (COid fin e sd v) s = Ok s' -> IdxJ s'.
Proof.
  intros Hfin HJ H. destruct f as [|f]; [discriminate|]. rewrite exec_oid_eq in H. bind_inv H en E0. bind_inv H x0 E1.
  apply get_ent_ok in E0.
  destruct (oid_loop_view _ _ _ _ _ _ _ _ HJ (oid_of_ent _ _ _ sd E0) E1) as [HH Hv]. change (Idx (obs_of s')).
  destruct v as [o|].
  - (* the tail of _change_oid re-keys (e, sd) from no id to o, which the removal rounds have freed *)
    apply (Idx_ext _ _ (oid_finish_some _ _ _ _ _ _ H)), Idx_rekey; [exact HH|]. intros k [= <-]. right. exact (Hv _ eq_refl).
  - rewrite (Hfin eq_refl) in H. exact (Idx_ext _ _ (oid_finish_none _ _ _ _ _ H) HH).
Qed.

Lemma set_oid_pres E s e sd v s' : IdxJ s -> set_oid E s e sd v = Ok s' -> IdxJ s'.
Proof. unfold set_oid, run_cmd. apply exec_oid_pres. reflexivity. Qed.

Lemma run_flag_pres E c s s' : flag_cmd c = true -> IdxJ s -> run_cmd E c s = Ok s' -> IdxJ s'.
Proof.
  intros Hc HJ H. unfold run_cmd in H. apply exec_flag_view in H; [|exact Hc].
  exact (IdxJ_view s s' H HJ).
Qed.
Lemma set_changed_pres E s e sd v s' : IdxJ s -> set_changed E s e sd v = Ok s' -> IdxJ s'.
Proof. intros HJ H. eapply (run_flag_pres E (CChg true e sd v)); [reflexivity|exact HJ|exact H]. Qed.
Lemma set_priority_pres E s e v s' : IdxJ s -> set_priority E s e v = Ok s' -> IdxJ s'.
Proof. intros HJ H. eapply (run_flag_pres E (CPrio e v)); [reflexivity|exact HJ|exact H]. Qed.

Lemma set_plain_view s e sd f s' : keeps_key f -> set_plain s e sd f = Ok s' -> iview s' = iview s.
Proof.
  intros Hf H. unfold set_plain in H. bind_inv H en E0. injection H as <-. rewrite iview_raw_side; [reflexivity|exact Hf].
Qed.
Lemma set_plain_pres s e sd f s' : keeps_key f -> IdxJ s -> set_plain s e sd f = Ok s' -> IdxJ s'.
Proof. intros Hf HJ H. exact (IdxJ_view s s' (set_plain_view _ _ _ _ _ Hf H) HJ). Qed.

Lemma set_ignored_view s e v s' : set_ignored s e v = Ok s' -> iview s' = iview s.
Proof.
  unfold set_ignored. intros H. bind_inv H x E. destruct (ign_eqb (e_ign x) v); [injection H as <-; reflexivity|].
  destruct v; simpl in H;
    match type of H with
    | match nth_error ?l e with _ => _ end = _ => destruct (nth_error l e) as [en2|] eqn:E2; [|discriminate]
    end;
    injection H as <-; (rewrite (iview_put_ent _ _ en2); [|exact E2|reflexivity]); try reflexivity.
  transitivity (iview (raw_side (raw_side s e false (fun y => w_chg y CFalse)) e true (fun y => w_chg y CFalse))); [reflexivity|].
  rewrite !iview_raw_side; [reflexivity| |]; apply keeps_w_chg.
Qed.
Lemma set_ignored_pres s e v s' : IdxJ s -> set_ignored s e v = Ok s' -> IdxJ s'.
Proof. intros HJ H. exact (IdxJ_view s s' (set_ignored_view _ _ _ _ H) HJ). Qed.

Lemma mark_changed_pres E s e sd s' : IdxJ s -> mark_changed E s e sd = Ok s' -> IdxJ s'.
Proof.
  intros HJ H. unfold mark_changed in H. bind_inv H x E0. bind_inv H x0 E1. bind_inv H x1 E2.
  assert (H0: IdxJ (st_now s (now s + 1000)%N)) by exact HJ.
  pose proof (set_changed_pres _ _ _ _ _ _ H0 E0) as H1.
  assert (H2: IdxJ x0).
  { destruct (N.leb (now s + 1000) (lastch x)); [eapply set_changed_pres; eassumption|injection E1 as <-; exact H1]. }
  destruct (s_chg (gs x1 sd)); try discriminate. injection H as <-.
  exact H2.
Qed.

Lemma finished_pres E s e s' : IdxJ s -> finished E s e = Ok s' -> IdxJ s'.
Proof.
  intros HJ H. unfold finished in H. bind_inv H x E0. bind_inv H x0 E1. bind_inv H x1 E2.
  assert (H1: IdxJ x0).
  { destruct (tchg (s_chg (e_l x))); [injection E1 as <-; exact HJ|].
    eapply set_plain_pres; [apply keeps_w_force|exact HJ|exact E1]. }
  assert (H2: IdxJ x1).
  { destruct (tchg (s_chg (e_r x))); [injection E2 as <-; exact H1|].
    eapply set_plain_pres; [apply keeps_w_force|exact H1|exact E2]. }
  destruct (tchg (s_chg (e_l x)) || tchg (s_chg (e_r x)))%bool; [injection H as <-; exact H2|]. simpl in H.
  match type of H with
  | ?f ?L ?S = Ok _ =>
    assert (H3: IdxJ S) by exact H2;
    revert H H3; generalize S; generalize L
  end.
  intros l. induction l as [|a l IH]; intros s0 H H3.
  - simpl in H. injection H as <-. exact H3.
  - simpl in H. bind_inv H x2 E3. bind_inv H x3 E4. bind_inv H x4 E5. apply (IH x4); [exact H|].
    destruct (N.ltb 0 (e_prio x2) && is_related E x3 x2)%bool; [eapply set_priority_pres; eassumption|injection E5 as <-; exact H3].
Qed.

Definition fieldw_covered (w : fieldw) : bool := match w with FPath _ => false | _ => true end.
(* operations that keep IdxJ without a guard and for every E, legacy included (apply_op_pres); the whole alphabet,
   under guards: StateUpdateProofs.apply_op_guarded_pres *)
Definition op_covered (o : op) : bool :=
  match o with
  | OSet _ _ w => fieldw_covered w
  | OIgn _ _ | OPrio _ _ | OFinished _ | OMark _ _ | ODiscard _ => true
  | _ => false
  end.

Lemma apply_op_pres E s o s' : op_covered o = true -> IdxJ s -> apply_op E s o = Ok s' -> IdxJ s'.
Proof.
  intros Hc HJ H. destruct o; try discriminate; simpl in H.
  - (* oid, changed; the other fields are plain writes *)
    destruct w; try discriminate; [eapply set_oid_pres; eassumption|eapply set_changed_pres; eassumption|..];
      (eapply set_plain_pres; [|exact HJ|exact H]; auto with keeps).
  - eapply set_ignored_pres; eassumption.
  - eapply set_priority_pres; eassumption.
  - eapply finished_pres; eassumption.
  - eapply mark_changed_pres; eassumption.
  - eapply set_ignored_pres; eassumption.
Qed.

Lemma step_pres E s ot s' : op_covered (fst ot) = true -> IdxJ s -> step E s ot = Ok s' -> IdxJ s'.
Proof.
  intros Hc HJ H. unfold step in H. bind_inv H x E0. destruct (tape x); [|discriminate]. injection H as <-.
  eapply apply_op_pres; [exact Hc| |exact E0]. exact HJ.
Qed.

Lemma idx_run_partial E : forall ops s s',
  forallb (fun ot => op_covered (fst ot)) ops = true -> IdxJ s -> run_ops E s ops = Ok s' -> IdxJ s'.
Proof.
  induction ops as [|o ops IH]; intros s s' Hc HJ H; simpl in H.
  - injection H as <-. exact HJ.
  - simpl in Hc. apply andb_prop in Hc as [Hc1 Hc2]. bind_inv H x E0.
    apply (IH x _ Hc2); [|exact H]. eapply step_pres; eassumption.
Qed.

Lemma tchg_pos n : n <> 0%N -> tchg (CNum n) = true.
Proof. intros H. apply negb_true_iff, N.eqb_neq, H. Qed.

(* SyncState.update for an event without prior_oid: look the id up (or make the entry), one clock tick, update_entry *)
Lemma update_no_prior E s sd ot (o : str) path h ex :
  update E s sd ot (Some o) path h ex None =
  match al_get o (oids s sd), ot with
  | Some e, _ => update_entry E (st_now s (now s + 1000)) e sd (Some o) path h ex true ot
  | None, Some t => update_entry E (st_now (st_ents s (ents s ++ [new_entry t])) (now s + 1000)) (length (ents s)) sd (Some o) path h ex true ot
  | None, None => Err EAssert
  end.
Proof. unfold update, lookup_oid. cbn [tstr andb bind]. destruct (al_get o (oids s sd)); [|destruct ot]; reflexivity. Qed.

(* ccb41ee: with legacy E = false the write of `changed` makes no nested call: one unit of fuel suffices *)
Lemma set_changed_total E f fin e sd v s :
  legacy E = false -> e < length (ents s) -> exists s', exec E (S f) (CChg fin e sd v) s = Ok s'.
Proof.
  intros Hl He. simpl. unfold get_ent. destruct (nth_error (ents s) e) as [en|] eqn:En.
  2:{ apply nth_error_None in En. lia. }
  simpl. rewrite Hl.
  destruct ((tchg v && tstr (s_oid (gs en sd)) || tchg (s_chg (gs en (negb sd))) && tstr (s_oid (gs en (negb sd))))%bool);
    [simpl; eexists; reflexivity|].
  destruct (tchg (s_chg (gs en (negb sd))) && negb (tstr (s_oid (gs en (negb sd)))))%bool; simpl; eexists; reflexivity.
Qed.

(* refutation witnesses, each replayed on the real code (the file under corpus/C11 is named at each) *)
Definition E_id : env := mkEnv (fun _ => false) (fun _ => mk_conv true) (fun _ => 1000%N) (fun _ _ => None) false.
(* the same providers, code as it was before /repo commits 029c8f6 and ccb41ee *)
Definition E_old : env := mkEnv (fun _ => false) (fun _ => mk_conv true) (fun _ => 1000%N) (fun _ _ => None) true.
Definition w_o1 : str := [111;49]%N.
Definition w_o2 : str := [111;50]%N.
Definition w_pb : str := [47;98]%N.
Definition w_pbx : str := [47;98;47;120]%N.
Definition w_pa : str := [47;97]%N.
Definition w_pab : str := [47;97;47;98]%N.
Definition w_pabx : str := [47;97;47;98;47;120]%N.

(* w1_changeset_extra: update(LOCAL, FILE, 'o1', '/b/x'); ent[LOCAL].oid = None; ent[REMOTE].oid = 'o2' *)
Definition w_changeset : list (op * list titem) :=
  [ (OUpdate false (Some File) (Some w_o1) (Some w_pbx) None (Some true) None, [TSwap false]);
    (OSet 0 false (FOid None), [TSwap false]);
    (OSet 0 true (FOid (Some w_o2)), [TSwap false]) ].
(* w2_update_kids_recursion: update(LOCAL, DIRECTORY, 'o1', '/b'); update(LOCAL, DIRECTORY, 'o1', '/b/x') *)
Definition w_kids (n : nat) : list (op * list titem) :=
  [ (OUpdate false (Some Dir) (Some w_o1) (Some w_pb) None (Some true) None, [TSwap false]);
    (OUpdate false (Some Dir) (Some w_o1) (Some w_pbx) None (Some true) None, repeat (TOrder [0]) n) ].
(* w3_changed_recursion: both sides flagged, both ids removed, then `changed` is written *)
Definition w_changed : list (op * list titem) :=
  [ (OUpdate false (Some File) (Some w_o1) (Some w_pbx) None (Some true) None, [TSwap false]);
    (OSet 0 true (FOid (Some w_o2)), [TSwap false]);
    (OMark 0 true, []);
    (OSet 0 false (FOid None), [TSwap false]);
    (OSet 0 true (FOid None), [TSwap false]);
    (OSet 0 true (FChg (CNum 0)), []) ].

Definition changeset_exact_full : Prop :=
  forall E ops s, run_ops E init_state ops = Ok s -> cs_exact s.
Definition legacy_setters_terminate_full : Prop :=
  forall E ops, legacy E = true -> run_ops E init_state ops <> Err ERecursion.
Definition setters_terminate_full : Prop :=
  forall E ops, legacy E = false -> run_ops E init_state ops <> Err ERecursion.
(* w4_nested_folders_recursion: update(LOCAL, DIRECTORY, 'o2', '/a/b'); update(LOCAL, DIRECTORY, 'o1', '/a'); update(LOCAL, DIRECTORY, 'o1', '/a/b/x'):
   folder /a lands below its own child folder /a/b; each of the two is then a child of the other's move *)
Definition w_kids2 (n : nat) : list (op * list titem) :=
  [ (OUpdate false (Some Dir) (Some w_o2) (Some w_pab) None (Some true) None, [TSwap false]);
    (OUpdate false (Some Dir) (Some w_o1) (Some w_pa) None (Some true) None, [TSwap false]);
    (OUpdate false (Some Dir) (Some w_o1) (Some w_pabx) None (Some true) None, repeat (TOrder [0; 1]) n) ].
