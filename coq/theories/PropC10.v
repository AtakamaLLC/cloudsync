(* PropC10.v — property theorems for C10 (transient provider faults: survive, report, retry, still converge), from the
   lemmas of FaultProofs.v / FaultSched.v / FaultGenEq.v, of LoopProofs (C18) and of MonitorProofs (C01/C02); refuted
   full-strength statements stay visible.  The class table is finite: a statement about it is closed by case analysis
   on the known base of the class.

   Reading guide.  [cls] = an exception class: one of the 14 of cloudsync/exceptions.py, Exception itself, or any class
   derived from one of them by single inheritance ([Sub]); [isinst c k] = isinstance(e, k) for e of class c.
   [notify] = NotificationManager.notify_from_exception as an if/elif chain.  [smgr_step] / [emgr_step] = what one
   call of SyncManager.do / EventManager.do does, given what happened inside (sres / einput); their handler tables,
   the chain and the class order are regenerated from the current source on every run (GenNotify.v) and proved equal
   to the model here.  [outcome], [after_do], [seq_loop], [lstep] are LoopModel's (C18); [pick_sorted], [punt],
   [eligible] are SchedModel's (C17); [accept] is the Monitor (C01/C02). *)
From Coq Require Import QArith Qminmax Qround List Bool NArith ZArith Lia Lqa.
From CS Require Import Sx TreeModel Monitor MonitorProofs LoopModel LoopProofs SchedModel SchedProofs
  FaultModel FaultProofs FaultSched GenNotify FaultGenEq.
From CS Require TreeCanon.
Import ListNotations.
Open Scope Q_scope.

(* every subclass of each reportable class maps to its kind; temporary covers what is not out-of-space *)
Theorem C10_notify_kind_matches : forall c,
  (isinst c KDisconnected = true -> notify c = Some NDisconnected) /\
  (isinst c KOutOfSpace = true -> notify c = Some NOutOfSpace) /\
  (isinst c KFileName = true -> notify c = Some NFileName) /\
  (isinst c KNamespace = true -> notify c = Some NNamespace) /\
  (isinst c KRootMissing = true -> notify c = Some NRootMissing) /\
  (isinst c KTemporary = true -> isinst c KOutOfSpace = false -> notify c = Some NTemporary).
Proof.
  intros c. rewrite notify_base, !(isinst_base c). destruct (kbase c); vm_compute; repeat split; congruence.
Qed.
Print Assumptions C10_notify_kind_matches.

(* CloudOutOfSpaceError IS a CloudTemporaryError and is still reported as out of space: not shadowed *)
Theorem C10_out_of_space_not_shadowed : forall c,
  isinst c KOutOfSpace = true -> isinst c KTemporary = true /\ notify c = Some NOutOfSpace.
Proof.
  intros c. rewrite notify_base, !(isinst_base c). destruct (kbase c); vm_compute; split; congruence.
Qed.
Print Assumptions C10_out_of_space_not_shadowed.

(* the order of the chain is what makes that true: with the temporary test first it is shadowed *)
Example C10_temporary_first_would_shadow :
  notify_chain ((KTemporary, NTemporary) :: chain) (K KOutOfSpace) = Some NTemporary /\
  notify (K KOutOfSpace) = Some NOutOfSpace.
Proof. split; reflexivity. Qed.

Theorem C10_notify_table : forall c,
  notify c = match kbase c with
             | KDisconnected => Some NDisconnected
             | KOutOfSpace => Some NOutOfSpace
             | KFileName => Some NFileName
             | KNamespace => Some NNamespace
             | KRootMissing => Some NRootMissing
             | KTemporary | KResourceModified => Some NTemporary
             | _ => None
             end.
Proof. intros c. rewrite notify_base. destruct (kbase c); reflexivity. Qed.
Print Assumptions C10_notify_table.

(* no branch of the chain is dead: the class a branch tests for gets that branch's kind *)
Theorem C10_chain_no_dead_branch : forall p, In p chain -> notify (K (fst p)) = Some (snd p).
Proof. intros p Hin. repeat (destruct Hin as [<-|Hin]; [reflexivity|]). destruct Hin. Qed.
Print Assumptions C10_chain_no_dead_branch.

Theorem C10_not_reported_iff : forall c,
  notify c = None <->
  isinst c KDisconnected = false /\ isinst c KFileName = false /\ isinst c KNamespace = false /\
  isinst c KRootMissing = false /\ isinst c KTemporary = false.
Proof.
  intros c. rewrite notify_base, !(isinst_base c). destruct (kbase c); vm_compute; intuition congruence.
Qed.
Print Assumptions C10_not_reported_iff.

(* four laws of isinstance: reflexive on the known classes, [Sub] is transparent, Exception is the top, transitive *)
Theorem C10_isinstance_laws : forall c a b,
  isinst (K a) a = true /\ isinst (Sub c) a = isinst c a /\ isinst c KException = true /\
  (isinst c a = true -> isinst (K a) b = true -> isinst c b = true).
Proof.
  intros c a b. split; [destruct a; reflexivity|]. split; [reflexivity|]. split; [apply isinst_exception|].
  rewrite !isinst_in_mro. intros Ha Hb. exact (kmro_closed _ _ Ha _ Hb).
Qed.
Print Assumptions C10_isinstance_laws.

(* what the translator regenerated from the CURRENT source equals the model (the other tie runs the extracted model
   against the real code: harness/checks/c10.py) *)
Theorem C10_gen_class_order_is_model : forall k,
  gen_kparent k = kparent k /\ gen_kmro k = kmro k /\
  gen_kmro k = k :: match gen_kparent k with Some p => gen_kmro p | None => [] end.
Proof. exact (fun k => conj (gen_kparent_eq k) (conj (gen_kmro_eq k) (gen_kmro_unfolds k))). Qed.
Print Assumptions C10_gen_class_order_is_model.

Theorem C10_gen_chain_is_model : gen_chain = chain.
Proof. exact gen_chain_eq. Qed.
Print Assumptions C10_gen_chain_is_model.

Theorem C10_gen_handlers_are_model :
  gen_smgr_handlers = smgr_handlers /\ gen_roots_handlers = roots_handlers /\ gen_emgr_handlers = emgr_handlers /\
  gen_change_handlers = change_handlers.
Proof. exact (conj gen_smgr_handlers_eq (conj gen_roots_handlers_eq (conj gen_emgr_handlers_eq gen_change_handlers_eq))). Qed.
Print Assumptions C10_gen_handlers_are_model.

(* every exception class raised by pre_sync/sync is caught by one of the two clauses *)
Theorem C10_smgr_every_exception_caught : forall c,
  dispatch smgr_handlers c = Some (if isany c transient then [ANotify; APunt; ABackoff]
                                   else [ANotifyIfCloud; APunt; ACommit; ABackoff]).
Proof. exact smgr_dispatch_total. Qed.
Print Assumptions C10_smgr_every_exception_caught.

(* ... with this effect, for EVERY class: reported per the chain, entry punted, backoff requested *)
Theorem C10_smgr_raise_effect : forall c,
  let s := smgr_step (SRaise c) in
  s_out s = OBackoff /\ f_punt (s_eff s) = true /\ f_note (s_eff s) = notify c /\
  f_commit (s_eff s) = negb (isany c transient) /\ f_auth (s_eff s) = false /\ f_cursor (s_eff s) = false.
Proof. exact smgr_raise_effect. Qed.
Print Assumptions C10_smgr_raise_effect.

Theorem C10_smgr_reports_matching_kind : forall c,
  let e := s_eff (smgr_step (SRaise c)) in
  (isinst c KDisconnected = true -> f_note e = Some NDisconnected) /\
  (isinst c KOutOfSpace = true -> f_note e = Some NOutOfSpace) /\
  (isinst c KFileName = true -> f_note e = Some NFileName) /\
  (isinst c KNamespace = true -> f_note e = Some NNamespace) /\
  (isinst c KRootMissing = true -> f_note e = Some NRootMissing) /\
  (isinst c KTemporary = true -> isinst c KOutOfSpace = false -> f_note e = Some NTemporary).
Proof.
  intros c. cbv zeta. destruct (smgr_raise_effect c) as (_ & _ & -> & _). apply C10_notify_kind_matches.
Qed.
Print Assumptions C10_smgr_reports_matching_kind.

Theorem C10_smgr_roots_effect : forall c,
  let s := smgr_step (SRoots c) in
  s_out s = OBackoff /\ f_punt (s_eff s) = false /\ f_note (s_eff s) = notify c /\ f_commit (s_eff s) = false.
Proof. exact smgr_roots_effect. Qed.
Print Assumptions C10_smgr_roots_effect.

(* how do() ends, by what happened inside: a plain Exception leaves do() only when state.change() raised something
   that is not a CloudException *)
Theorem C10_smgr_outcome_classes : forall r,
  match r with
  | SIdle | SDone false => s_out (smgr_step r) = ONoop
  | SDone true => s_out (smgr_step r) = ODid
  | SRaise _ | SRoots _ => s_out (smgr_step r) = OBackoff
  | SChange c => s_out (smgr_step r) = if isinst c KCloud then OBackoff else OExc
  end.
Proof. exact smgr_outcome_classes. Qed.
Print Assumptions C10_smgr_outcome_classes.

Theorem C10_smgr_change_effect : forall c,
  let s := smgr_step (SChange c) in
  s_out s = (if isinst c KCloud then OBackoff else OExc) /\ f_punt (s_eff s) = false /\ f_commit (s_eff s) = false /\
  f_note (s_eff s) = notify c.
Proof. exact smgr_change_effect. Qed.
Print Assumptions C10_smgr_change_effect.

(* every temporary / disconnected / invalid-name condition raised anywhere in a sync step — pre_sync/sync, root
   validation, state.change() (guarded by `except ex.CloudException`, [change_handlers]) — is reported with the kind the chain gives *)
Theorem C10_smgr_every_fault_notified : forall r c,
  raised r c ->
  isinst c KTemporary = true \/ isinst c KDisconnected = true \/ isinst c KFileName = true ->
  f_note (s_eff (smgr_step r)) = notify c /\ notify c <> None.
Proof.
  intros r c Hr Hc. split; [exact (smgr_raised_notified r c Hr)|].
  rewrite C10_not_reported_iff. intros (A & B & _ & _ & E). destruct Hc as [Hc|[Hc|Hc]]; congruence.
Qed.
Print Assumptions C10_smgr_every_fault_notified.

Theorem C10_emgr_reportable_notified : forall auth i c,
  emgr_exc auth i = RRaise c -> isany c emgr_reported = true ->
  let x := emgr_step auth i in
  x_out x = OBackoff /\ f_note (x_eff x) = notify c /\ notify c <> None /\ f_auth (x_eff x) = false.
Proof.
  intros auth i c He Hc. cbv zeta. pose proof (emgr_raise_table auth i c He) as H. cbv zeta in H.
  unfold isany, emgr_reported in Hc. cbn [existsb] in Hc. rewrite !(isinst_base c) in Hc.
  destruct (kbase c) eqn:B; try discriminate Hc; destruct H as (-> & ->); cbn;
    rewrite C10_notify_table, B; repeat split; discriminate.
Qed.
Print Assumptions C10_emgr_reportable_notified.

Theorem C10_emgr_token_sets_need_auth : forall auth i c,
  emgr_exc auth i = RRaise c -> isinst c KToken = true ->
  let x := emgr_step auth i in x_out x = OBackoff /\ x_auth x = true /\ f_note (x_eff x) = None.
Proof.
  intros auth i c He Hc. cbv zeta. pose proof (emgr_raise_table auth i c He) as H. cbv zeta in H.
  rewrite (isinst_base c) in Hc.
  destruct (kbase c); try discriminate Hc. destruct H as (-> & -> & ->). repeat split.
Qed.
Print Assumptions C10_emgr_token_sets_need_auth.

(* re-authentication: with need_auth set and the provider disconnected the next call reconnects, and when the
   provider refuses the stored credentials (CloudTokenError) it calls the re-authentication callback *)
Theorem C10_emgr_reauthenticates : forall i c,
  i_conn i = false -> i_reconnect i = RRaise c -> isinst c KToken = true ->
  let x := emgr_step true i in
  x_reconnect x = true /\ x_reauth x = true /\
  (i_reauth i = Some ROk -> x_auth x = (match i_body i with RRaise c2 => isinst c2 KToken | ROk => false end)) /\
  (i_reauth i = None -> x_out x = OBackoff /\ x_auth x = true).
Proof.
  intros i c Hc Hr Ht. cbv zeta. unfold emgr_step, reconnect_phase. rewrite Hc, Hr, Ht.
  (* reauthenticate() returns (then the body runs: returns, or raises c3), raises c2, or is not implemented *)
  destruct (i_reauth i) as [[|c2]|];
    [destruct (i_body i) as [|c3]; [|rewrite emgr_dispatch_table, (isinst_base c3); destruct (kbase c3)]
    |destruct (dispatch emgr_handlers c2)|];
    repeat split; try discriminate; reflexivity.
Qed.
Print Assumptions C10_emgr_reauthenticates.

(* without need_auth a disconnected provider is simply reconnected; a connected one is left alone *)
Theorem C10_emgr_reconnects : forall auth i,
  (i_conn i = true -> x_reconnect (emgr_step auth i) = false /\ x_reauth (emgr_step auth i) = false) /\
  (i_conn i = false -> x_reconnect (emgr_step auth i) = true).
Proof.
  intros auth i. destruct (emgr_step_calls auth i) as [-> ->]. unfold reconnect_phase.
  split; intros ->; [split; reflexivity|].
  destruct auth, (i_reconnect i) as [|c]; try destruct (isinst c KToken); try destruct (i_reauth i) as [[|]|]; reflexivity.
Qed.
Print Assumptions C10_emgr_reconnects.

Theorem C10_emgr_cursor_resets : forall auth i c,
  emgr_exc auth i = RRaise c -> isinst c KCursor = true ->
  let x := emgr_step auth i in x_out x = OBackoff /\ f_cursor (x_eff x) = true /\ f_note (x_eff x) = None.
Proof.
  intros auth i c He Hc. cbv zeta. pose proof (emgr_raise_table auth i c He) as H. cbv zeta in H.
  rewrite (isinst_base c) in Hc.
  destruct (kbase c); try discriminate Hc. destruct H as (-> & ->). repeat split.
Qed.
Print Assumptions C10_emgr_cursor_resets.

(* which classes the event loop's own clauses take; everything else leaves do() as a plain Exception *)
Theorem C10_emgr_dispatch_table : forall c,
  dispatch emgr_handlers c =
  match kbase c with
  | KTemporary | KOutOfSpace | KResourceModified | KDisconnected | KNamespace => Some [ANotify; ABackoff]
  | KCursor => Some [ACursorReset; ABackoff]
  | KToken => Some [ANeedAuth; ABackoff]
  | _ => None
  end.
Proof. exact emgr_dispatch_table. Qed.
Print Assumptions C10_emgr_dispatch_table.

Theorem C10_emgr_escapes : forall auth i c,
  emgr_exc auth i = RRaise c -> dispatch emgr_handlers c = None ->
  let x := emgr_step auth i in x_out x = OExc /\ f_note (x_eff x) = None.
Proof.
  intros auth i c He Hd. cbv zeta. pose proof (emgr_step_raise auth i c He) as H. rewrite Hd in H.
  destruct H as [-> ->]. split; reflexivity.
Qed.
Print Assumptions C10_emgr_escapes.

(* full strength "every kind the chain knows is reported by the event loop": false (root-missing and file-name leave
   do() un-notified; see the comment of emgr_all_kinds_notified_full in FaultProofs.v) *)
Theorem C10_emgr_all_kinds_notified_refuted : ~ emgr_all_kinds_notified_full.
Proof.
  intros H.
  specialize (H false {| i_conn := true; i_reconnect := ROk; i_reauth := None; i_body := RRaise (K KRootMissing) |}
                (K KRootMissing) eq_refl).
  vm_compute in H. specialize (H ltac:(discriminate)). discriminate.
Qed.
Print Assumptions C10_emgr_all_kinds_notified_refuted.

(* any finite sequence of step results, any exception classes: do() is called once per step, the final backoff is
   LoopModel's fold — nothing a provider raises ends a loop *)
Theorem C10_loops_survive : forall p b,
  (forall rs, count_do (fst (seq_loop p b (plain (smgr_outs rs)))) = length rs /\
              snd (seq_loop p b (plain (smgr_outs rs))) = backoff_after p b (smgr_outs rs)) /\
  (forall auth is, count_do (fst (seq_loop p b (plain (emgr_outs auth is)))) = length is /\
                   snd (seq_loop p b (plain (emgr_outs auth is))) = backoff_after p b (emgr_outs auth is)).
Proof.
  intros p b. split; [intros rs|intros auth is]; rewrite seq_loop_plain; cbn [fst snd]; rewrite seq_evs_calls;
    [rewrite smgr_outs_length|rewrite emgr_outs_length]; split; reflexivity.
Qed.
Print Assumptions C10_loops_survive.

(* in C18's two-thread machine: after ANY manager step the loop thread proceeds to its flag tests (it can only
   leave the loop through a stop flag or until(): C18_loop_exit_only_by_flags) *)
Theorem C10_manager_step_continues : forall p s u,
  lp s = LDoRet ->
  (forall r, lp (lstep p s (s_out (smgr_step r)) u) = LC1) /\
  (forall auth i, lp (lstep p s (x_out (emgr_step auth i)) u) = LC1).
Proof. intros p s u H. split; intros; apply do_outcome_continues; exact H. Qed.
Print Assumptions C10_manager_step_continues.

(* k consecutive faulty sync steps from "not in backoff" wait min(max, min * mult^(k-1)) *)
Theorem C10_backoff_under_faults : forall p rs,
  1 <= p_mult p -> 0 < p_min p -> p_min p <= p_max p -> rs <> [] -> all_faulty rs ->
  backoff_after p 0 (smgr_outs rs) == Qmin (p_max p) (p_min p * qpow (p_mult p) (length rs - 1)).
Proof.
  intros p rs Hm H0 Hle Hne Hf. rewrite <- (smgr_outs_length rs). apply backoff_formula; auto.
  - destruct rs; [congruence|discriminate].
  - apply all_faulty_failures. exact Hf.
Qed.
Print Assumptions C10_backoff_under_faults.

Example C10_backoff_under_faults_nonvacuous :
  all_faulty [SRaise (K KTemporary); SChange (Sub (K KDisconnected)); SRoots (K KToken)] /\
  smgr_outs [SRaise (K KTemporary); SChange (Sub (K KDisconnected)); SRoots (K KToken)] = [OBackoff; OBackoff; OBackoff].
Proof.
  split; [|reflexivity]. intros r [<-|[<-|[<-|[]]]]; eexists; [left|right; right|right; left]; reflexivity.
Qed.

(* the first step that gets something done after the faults stopped resets the backoff (both loops) *)
Theorem C10_backoff_resets_after_faults : forall p b,
  0 <= b ->
  after_do p b (s_out (smgr_step (SDone true))) == 0 /\
  sleep_of p (after_do p b (s_out (smgr_step (SDone true)))) = p_sleep p /\
  (forall auth i, emgr_exc auth i = ROk ->
     after_do p b (x_out (emgr_step auth i)) == 0 /\ sleep_of p (after_do p b (x_out (emgr_step auth i))) = p_sleep p).
Proof.
  intros p b Hb. split; [apply backoff_reset_value; exact Hb|]. split; [apply backoff_reset|].
  intros auth i He. pose proof (emgr_outcome_classes auth i) as H. rewrite He in H. rewrite H.
  split; [apply backoff_reset_value; exact Hb|apply backoff_reset].
Qed.
Print Assumptions C10_backoff_resets_after_faults.

(* full strength "it resets as soon as the faults stop": false for the sync loop (an idle step keeps it) *)
Theorem C10_backoff_resets_when_idle_refuted : ~ smgr_backoff_resets_when_idle_full.
Proof.
  intros H. specialize (H {| p_min := 1 # 100; p_max := 1; p_mult := 2; p_sleep := 1 # 1000 |} 1 ltac:(lra)).
  vm_compute in H. discriminate.
Qed.
Print Assumptions C10_backoff_resets_when_idle_refuted.

Theorem C10_idle_keeps_backoff : forall p b,
  after_do p b (s_out (smgr_step SIdle)) = b /\ after_do p b (s_out (smgr_step (SDone false))) = b.
Proof. split; reflexivity. Qed.
Print Assumptions C10_idle_keeps_backoff.

(* every table, every set of failing entries, every sequence of clock readings: a good entry that stays eligible
   is picked within budget + 1 calls of change(); budget = for every other entry, how often it can go first
   (a failing entry with priority q <= ph: floor(ph - q) + 1 times, it is punted each time; a good one: once) *)
Theorem C10_good_entry_served : forall c failing, exact c ->
  forall ets l h eh,
  NoDup (tags l) -> In (h, eh) l -> failing h = false ->
  (forall et, In et ets -> eligible et eh = true) ->
  (budget failing h (pri eh) l < length ets)%nat ->
  In (PGood h) (fst (sched_run c failing ets l)).
Proof. exact good_entry_served. Qed.
Print Assumptions C10_good_entry_served.

(* default priorities (0 for new work): served within |change set| calls, however many entries fail for ever *)
Theorem C10_good_entry_served_default : forall c failing ets l h eh, exact c ->
  NoDup (tags l) -> In (h, eh) l -> failing h = false -> pri eh == 0 ->
  (forall x, In x l -> 0 <= pri (snd x)) ->
  (forall et, In et ets -> eligible et eh = true) ->
  (length l <= length ets)%nat ->
  In (PGood h) (fst (sched_run c failing ets l)).
Proof.
  intros c failing ets l h eh Hx Hnd Hin Hg Hp Hall Hel Hlen. apply (good_entry_served c failing Hx ets l h eh); auto.
  destruct (budget_default failing h (pri eh) l Hp Hall) as [_ H]. specialize (H (in_tags _ _ _ Hin)). lia.
Qed.
Print Assumptions C10_good_entry_served_default.

Example C10_good_entry_served_nonvacuous :
  exact (cfg_exact (1 # 1000) (1 # 1000)) /\ NoDup (tags demo_table) /\
  fst (sched_run (cfg_exact (1 # 1000) (1 # 1000)) (fun i => Nat.eqb i 0) [20; 20; 20; 20] demo_table)
  = [PFail 0; PGood 1; PGood 2; PFail 0]%nat.
Proof.
  split; [exact (exact_cfg_exact _ _)|]. split; [apply nodup_tags_number|vm_compute; reflexivity].
Qed.

(* = C17_smaller_priority_first: whatever has a larger priority value than an eligible entry is not picked; a
   punted failing entry in particular *)
Theorem C10_failing_behind_good : forall et (l : table) i e h eh,
  In (h, eh) l -> eligible et eh = true -> pri eh < pri e -> pick_sorted et l <> Some (i, e).
Proof. intros et l i e h eh Hin Hel Hlt P. exact (smaller_priority_first et l (i, e) (h, eh) P Hin Hel Hlt). Qed.
Print Assumptions C10_failing_behind_good.

(* once it stops failing: after k punts it is eligible again as soon as stamp + k * punt_secs + age <= now
   (= C17_punt_bounded_delay) ... *)
Theorem C10_eligible_again_after_punt_delay : forall c k e s now age, exact c -> 0 <= c_pL c -> 0 <= c_pR c ->
  healthy e -> 0 <= pri e -> truthy (ch s e) = true ->
  orz (ch s e) + inject_Z (Z.of_nat k) * c_punt c s + age <= now ->
  exists e', punts c k e = Ok e' /\ pri e' == pri e + inject_Z (Z.of_nat k) /\
    orz (ch s e') == orz (ch s e) + inject_Z (Z.of_nat k) * c_punt c s /\
    eligible (earlier_than c now age) e' = true.
Proof. exact punt_bounded_delay. Qed.
Print Assumptions C10_eligible_again_after_punt_delay.

(* ... and it is then picked as soon as nothing eligible has a smaller key (= C17_picked_when_smallest) *)
Theorem C10_picked_when_smallest : forall et l x, In x l -> eligible et (snd x) = true ->
  (forall y, In y l -> y <> x -> eligible et (snd y) = true -> key_lt (snd x) (snd y)) ->
  NoDup l -> pick_sorted et l = Some x.
Proof. exact picked_when_smallest. Qed.
Print Assumptions C10_picked_when_smallest.

(* the scheduler machine never reports the impossible result: punt is total *)
Theorem C10_sched_run_no_bad : forall c failing ets l, ~ In PBad (fst (sched_run c failing ets l)).
Proof. exact sched_run_no_bad. Qed.
Print Assumptions C10_sched_run_no_bad.

(* the acceptor does not see faults at all, so what it guarantees of every accepted run (the C01/C02 theorems,
   restated below) holds of runs with faults.  A failed provider call changes neither tree: for the acceptor it is
   a stutter *)
Theorem C10_failed_action_is_stutter : forall cfg m s ts,
  forallb (is_prefix (root_of cfg s)) ts = true -> existsb (has_declined cfg) ts = false -> quiet m = false ->
  (cov_every_step cfg = true -> all_live (cov m) (tL m) (tR m) = true) ->
  mstep cfg m {| o_ev := EEng s ts; o_L := tL m; o_R := tR m |} =
  inl {| tL := tL m; tR := tR m; spec := spec m; cov := cov m; Monitor.steps := Monitor.steps m; quiet := quiet m |}.
Proof.
  intros cfg m s ts Hp Hd Hq Hc. unfold mstep. cbn [o_ev o_L o_R]. rewrite Hp. cbn [negb]. rewrite Hd.
  assert (Ec : cov_every_step cfg && negb (all_live (cov m) (tL m) (tR m)) = false).
  { destruct (cov_every_step cfg); [rewrite (Hc eq_refl)|]; reflexivity. }
  unfold tree_of. destruct s; destruct (origin cfg) as [[|]|];
    rewrite ?TreeCanon.same_tree_refl; cbn [andb negb side_eqb Bool.eqb]; rewrite ?TreeCanon.same_tree_refl; cbn [andb negb];
    rewrite Hq, Ec; reflexivity.
Qed.
Print Assumptions C10_failed_action_is_stutter.

(* hence, for an accepted run with faults: at every quiet report after the faults stopped the sides have converged
   (= C01_quiet_converged) *)
Theorem C10_converged_after_faults : forall cfg l r tr m',
  accept cfg l r tr = inl m' ->
  forall pre x post, tr = pre ++ x :: post -> o_ev x = EQuiet ->
    same_tree (strip_conflicted cfg (view (rootL cfg) (o_L x))) (strip_conflicted cfg (view (rootR cfg) (o_R x))) = true.
Proof. exact quiet_converged. Qed.
Print Assumptions C10_converged_after_faults.

(* ... no version written by a user and not since overwritten/deleted by a user is missing at a quiet report
   (= C02_quiet_nothing_lost, C07_nothing_lost) ... *)
Theorem C10_nothing_lost_after_faults : forall cfg l r tr m',
  accept cfg l r tr = inl m' ->
  forall pre x post, tr = pre ++ x :: post -> o_ev x = EQuiet ->
    exists ma, run_of cfg (init_state cfg l r) pre ma /\
      forall c, In c (cov ma) -> In c (contents (o_L x)) \/ In c (contents (o_R x)).
Proof. exact quiet_nothing_lost. Qed.
Print Assumptions C10_nothing_lost_after_faults.

(* ... nor after any single engine action in between (a step torn by a fault included) *)
Theorem C10_faulty_step_loses_nothing : forall cfg l r tr m',
  cov_every_step cfg = true -> accept cfg l r tr = inl m' ->
  forall pre x post s ts, tr = pre ++ x :: post -> o_ev x = EEng s ts ->
    exists ma, run_of cfg (init_state cfg l r) pre ma /\
      forall c, In c (cov ma) -> In c (contents (o_L x)) \/ In c (contents (o_R x)).
Proof. exact step_nothing_lost. Qed.
Print Assumptions C10_faulty_step_loses_nothing.

(* and, for one-sided/disjoint histories, both views equal the history applied to the base tree: the outcome with
   faults is the outcome without (= C03_mirror_at_quiet, C06_restart_transparent, C07_crash_transparent) *)
Theorem C10_faults_transparent : forall cfg l r tr m',
  check_spec cfg = true -> accept cfg l r tr = inl m' ->
  forall pre x post, tr = pre ++ x :: post -> o_ev x = EQuiet ->
    same_tree (view (rootL cfg) (o_L x)) (apply_ops (view (rootL cfg) l) (rel_user_ops cfg pre)) = true /\
    same_tree (view (rootR cfg) (o_R x)) (apply_ops (view (rootL cfg) l) (rel_user_ops cfg pre)) = true.
Proof. exact quiet_views_are_history. Qed.
Print Assumptions C10_faults_transparent.
