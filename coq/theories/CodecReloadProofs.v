(* CodecReloadProofs.v — C08: loading a committed store gives back the live entries (normalised),
   hence the same oid / path lookups and the same pending set. *)
From Coq Require Import NArith ZArith List Bool Lia.
From CS Require Import Sx Str CodecModel CodecProofs CodecCommitProofs.
Import ListNotations.
Local Open Scope N_scope.
Local Arguments ser_entry : simpl never.
Local Arguments tuplify : simpl never.
Local Arguments load_row : simpl never.

Lemma load_rows_all : forall rs, (forall i w, In (i, w) rs -> load_row i w <> None) ->
  snd (load_rows rs) = [].
Proof.
  intros rs H. rewrite load_rows_eq. cbn [snd]. rewrite ListFacts.filter_nil; [reflexivity|].
  intros [i w] Hin. unfold unloadable. cbn [fst snd]. specialize (H i w Hin). now destruct (load_row i w).
Qed.

Lemma insert_row_in : forall x y l, In y (insert_row x l) <-> x = y \/ In y l.
Proof.
  induction l as [|z l IH]; simpl; [tauto|].
  destruct (N.leb (fst x) (fst z)); simpl; [reflexivity|]. rewrite IH. tauto.
Qed.

Lemma sort_rows_in : forall l y, In y (sort_rows l) <-> In y l.
Proof.
  induction l as [|x l IH]; intros y; simpl; [tauto|]. rewrite insert_row_in, IH. tauto.
Qed.

Lemma read_all_in : forall st y, In y (read_all st) <-> In y (rows st).
Proof. intros st y. unfold read_all. destruct (pol st); [apply sort_rows_in|tauto]. Qed.

(* the live entries have field shapes that survive the codec unchanged (wf_entry) *)
Definition live_wf (ps : pstate) : Prop :=
  forall e, In e (ents ps) -> is_trash e = false -> wf_entry e = true.

Lemma load_packed : forall i e w, wf_entry e = true -> pack (ser_entry e) = Some w ->
  load_row i w = Some (norm_entry i e).
Proof.
  intros i e w Hw Hp. pose proof (roundtrip_char i e) as Hr. unfold roundtrip in Hr.
  rewrite Hp, (proj1 (wf_entry_survives i e Hw)) in Hr. exact Hr.
Qed.

Lemma reload_entries : forall ps, exact ps -> live_wf ps ->
  (forall e', In e' (fst (load (sto ps))) <->
     exists e i, In e (ents ps) /\ is_trash e = false /\ e_sid e = Some i /\ e' = norm_entry i e) /\
  snd (load (sto ps)) = sto ps.
Proof.
  intros ps [_ [Hrows _]] Hwf.
  assert (Hload : forall i w, In (i, w) (read_all (sto ps)) ->
            exists e, In e (ents ps) /\ is_trash e = false /\ e_sid e = Some i /\
                      load_row i w = Some (norm_entry i e)).
  { intros i w Hin. apply read_all_in, Hrows in Hin. destruct Hin as [n [e [En [Ht [Hs Hp]]]]].
    apply nth_error_In in En. exists e. repeat split; try assumption. apply load_packed; auto. }
  pose proof (load_rows_in (read_all (sto ps))) as Hin. pose proof (load_rows_all (read_all (sto ps))) as Hall.
  unfold load. destruct (load_rows (read_all (sto ps))) as [es bad]. cbn [fst snd] in *.
  split.
  - intros e'. rewrite Hin. split.
    + intros [i [w [Hiw Hl]]]. destruct (Hload i w Hiw) as [e [Hine [Ht [Hs Hl']]]].
      exists e, i. repeat split; try assumption. congruence.
    + intros [e [i [Hine [Ht [Hs ->]]]]].
      pose proof (pack_ok _ (wf_entry_ints e (Hwf e Hine Ht))) as Hp.
      exists i, (tuplify (ser_entry e)). split; [|apply load_packed; auto].
      apply read_all_in, Hrows. apply In_nth_error in Hine as [n En]. exists n, e. auto.
  - rewrite Hall; [reflexivity|].
    intros i w Hiw. destruct (Hload i w Hiw) as [e [_ [_ [_ Hl]]]]. congruence.
Qed.

(* Every index the restarted state builds is a filter of the loaded entries read through their storage
   ids; a filter that is blind to the normalisation selects the same ids as on the live entries. *)
Lemma reload_filter : forall ps (f : entry -> bool), exact ps -> live_wf ps ->
  (forall i e, wf_entry e = true -> f (norm_entry i e) = f e) ->
  forall x, In x (map e_sid (filter f (fst (load (sto ps))))) <-> In x (map e_sid (filter f (live (ents ps)))).
Proof.
  intros ps f Hex Hwf Hf x.
  destruct (reload_entries ps Hex Hwf) as [Hin _]. destruct Hex as [_ [_ [Hsid _]]].
  unfold live. rewrite !in_map_iff. split.
  - intros [e' [Hx He']]. apply filter_In in He' as [He' Hfe'].
    apply Hin in He' as [e [i [Hine [Ht [Hs ->]]]]].
    exists e. split; [cbn in Hx; congruence|]. rewrite !filter_In, Ht, <- (Hf i e (Hwf e Hine Ht)). auto.
  - intros [e [Hx He]]. rewrite !filter_In, negb_true_iff in He. destruct He as [[Hine Ht] Hfe].
    destruct (e_sid e) as [i|] eqn:Hs.
    + exists (norm_entry i e). split; [exact Hx|]. apply filter_In. split.
      * apply Hin. exists e, i. auto.
      * now rewrite (Hf i e (Hwf e Hine Ht)).
    + apply In_nth_error in Hine as [n En]. destruct (Hsid n e En Ht Hs).
Qed.

Lemma norm_keeps_oid_path_pending : forall i e, wf_entry e = true ->
  (forall sd, s_oid (side_of sd (norm_entry i e)) = s_oid (side_of sd e)) /\
  (forall sd, s_path (side_of sd (norm_entry i e)) = s_path (side_of sd e)) /\
  pending (norm_entry i e) = pending e.
Proof.
  intros i e Hwf. destruct (wf_entry_survives i e Hwf) as [_ [S0 [S1 _]]].
  destruct (same_side_path_oid _ _ S0) as [P0 O0], (same_side_path_oid _ _ S1) as [P1 O1].
  repeat split; [intros [|]; symmetry; assumption .. | apply norm_trash_pending].
Qed.
