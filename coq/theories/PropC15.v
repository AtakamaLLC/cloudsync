(* PropC15.v — C15: the sync state is only touched under its lock; threaded runs are serialisable.

   Vocabulary (ThreadModel.v): a trace is the global order of  Acq t | Rel t | Mut t x | Read t x | Tau t x
   over any number of threads and ONE re-entrant lock (owner + depth).  [well_locked]: every Acq/Rel is one the
   lock allows.  [disciplined]: every Mut/Read of thread t happens while t owns the lock.  [serial]: while the
   lock is held only its holder acts (critical sections run one after another).  The semantics of Mut
   ([apply]), of Read ([observe]), the state type and the key type X are arbitrary.
   The harness records exactly this vocabulary on the real engine (lock wrapper, SyncState.updated, attribute
   setters, index containers) and judges it with the extracted [lock_errors]/[violations]. *)
From Coq Require Import Arith NArith List Bool.
From CS Require Import Sx ThreadModel ThreadProofs.
Import ListNotations.

(* main theorem: all traces, any number of threads, any state, any transformer semantics.
   The witness is computed by [serialise] (extracted; the harness can ask for it) *)
Theorem C15_serialise_correct :
  forall (X state value : Type) (apply : state -> thread -> X -> state) (observe : state -> thread -> X -> value)
         (tr : list (event X)),
    well_locked tr -> disciplined tr ->
    serial (serialise tr) /\ well_locked (serialise tr) /\ disciplined (serialise tr) /\
    equiv apply observe tr (serialise tr).
Proof.
  intros X state value apply observe tr HW HD.
  pose proof (ser_legal X tr None [] HW HD (sec_inv_nil X)) as G. apply all_from_legal in G.
  destruct G as (G1 & G2 & G3). auto using serialise_equiv.
Qed.
Print Assumptions C15_serialise_correct.

Theorem C15_disciplined_serialisable :
  forall (X state value : Type) (apply : state -> thread -> X -> state) (observe : state -> thread -> X -> value)
         (tr : list (event X)),
    well_locked tr -> disciplined tr ->
    exists tr', serial tr' /\ well_locked tr' /\ disciplined tr' /\ equiv apply observe tr tr'.
Proof. intros X state value apply observe tr HW HD. exists (serialise tr). apply C15_serialise_correct; assumption. Qed.
Print Assumptions C15_disciplined_serialisable.

(* "equivalent to some sequential interleaving of atomic steps": for a run that ends with the lock free the
   serial witness is a list of steps, each by one thread, each starting and ending with the lock free (a single
   lock-free event, or a whole outermost Acq..Rel section), and the run's effect is the fold of their effects
   (the first conjunct holds by the definition of serialise) *)
Theorem C15_serial_atomic_steps :
  forall (X state : Type) (apply : state -> thread -> X -> state) (tr : list (event X)),
    well_locked tr -> disciplined tr -> lock_after None tr = None ->
    serialise tr = concat (atomic_steps tr) /\
    Forall (fun b => b <> [] /\ single_thread b /\ closed b) (atomic_steps tr) /\
    forall s, exec apply s tr = fold_left (fun s b => exec apply s b) (atomic_steps tr) s.
Proof.
  intros X state apply tr HW HD Hend. split; [reflexivity|]. split.
  - apply ser_blocks_steps; auto using sec_inv_nil.
  - intros s. rewrite <- exec_concat. symmetry. apply serialise_exec; assumption.
Qed.
Print Assumptions C15_serial_atomic_steps.

(* every invariant that each atomic step preserves (C11's IdxJ, the Monitor invariants, ...) holds at every
   point of the INTERLEAVED run at which no thread owns the lock; the guard [closed b] exempts the one unfinished
   section at the end of a tr that ends with the lock held *)
Theorem C15_invariant_at_lock_free_points :
  forall (X state : Type) (apply : state -> thread -> X -> state) (Inv : state -> Prop)
         (tr : list (event X)) (s0 : state),
    well_locked tr -> disciplined tr -> Inv s0 ->
    (forall b, In b (atomic_steps tr) -> closed b -> step_preserves apply Inv b) ->
    forall p q, tr = p ++ q -> lock_after None p = None -> Inv (exec apply s0 p).
Proof.
  intros X state apply Inv tr s0 HW HD Hi Hb p q -> Hend.
  apply all_from_prefix in HW, HD.
  unfold atomic_steps in Hb. rewrite (ser_blocks_app X p q None [] HW HD (sec_inv_nil X) Hend) in Hb.
  destruct (C15_serial_atomic_steps X state apply p HW HD Hend) as (_ & Hst & ->).
  apply steps_preserve; [|exact Hi].
  rewrite Forall_forall in *. intros b Hin. apply Hb; [apply in_or_app; left; exact Hin | apply Hst; exact Hin].
Qed.
Print Assumptions C15_invariant_at_lock_free_points.

(* the acceptors the harness runs are exactly the predicates (reflection: sound and complete) *)
Theorem C15_check_trace_decides_disciplined :
  forall (X : Type) (tr : list (event X)), check_trace tr = None <-> disciplined tr.
Proof.
  intros X tr. unfold check_trace, violations. rewrite violations_from_positions. apply positions_none, bad_disc_false.
Qed.
Print Assumptions C15_check_trace_decides_disciplined.

Theorem C15_check_trace_first :
  forall (X : Type) (tr : list (event X)) (i : N), check_trace tr = Some i ->
    exists p e q, tr = p ++ e :: q /\ N.of_nat (length p) = i /\ disciplined p /\
                  is_access e = true /\ owns (lock_after None p) (tid e) = false.
Proof.
  intros X tr i H. unfold check_trace, violations in H. rewrite violations_from_positions in H.
  apply (positions_first X _ _ (bad_disc_false X)) in H.
  destruct H as (p & e & q & Htr & Hi & Hp & Hb%bad_disc_true). exists p, e, q. auto.
Qed.
Print Assumptions C15_check_trace_first.

Theorem C15_violations_exact :
  forall (X : Type) (tr : list (event X)) (i : N),
    In i (violations tr) <->
    exists p e q, tr = p ++ e :: q /\ N.of_nat (length p) = i /\
                  is_access e = true /\ owns (lock_after None p) (tid e) = false.
Proof.
  intros X tr i. unfold violations. rewrite violations_from_positions.
  exact (positions_spec X _ _ (bad_disc_true X) tr None 0%N i).
Qed.
Print Assumptions C15_violations_exact.

Theorem C15_check_locked_decides_well_locked :
  forall (X : Type) (tr : list (event X)), check_locked tr = None <-> well_locked tr.
Proof.
  intros X tr. unfold check_locked, lock_errors. rewrite lock_errors_from_positions. apply positions_none. intros l e. apply negb_false_iff.
Qed.
Print Assumptions C15_check_locked_decides_well_locked.

Theorem C15_lock_errors_exact :
  forall (X : Type) (tr : list (event X)) (i : N),
    In i (lock_errors tr) <->
    exists p e q, tr = p ++ e :: q /\ N.of_nat (length p) = i /\ lock_ok (lock_after None p) e = false.
Proof.
  intros X tr i. unfold lock_errors. rewrite lock_errors_from_positions.
  exact (positions_spec X _ _ (fun l e => negb_true_iff (lock_ok l e)) tr None 0%N i).
Qed.
Print Assumptions C15_lock_errors_exact.

(* the discipline hypothesis is what matters: without it the statement is false.  Thread 1 increments a counter
   under the lock (load, store), thread 2 increments it without taking the lock in between: the update of thread 2
   is lost, and no serial trace with the same per-thread events reaches that state.  (The statement with the hypothesis
   is C15_disciplined_serialisable; the refuted one is defined in ThreadProofs.v next to its witness.) *)
Theorem C15_undisciplined_refuted : ~ serialisable_without_discipline.
Proof.
  intros H. assert (HW : well_locked tr_unlocked) by (apply C15_check_locked_decides_well_locked; reflexivity).
  destruct (H N rstate N rapply robserve tr_unlocked HW) as (tr' & Hser & _ & Hproj & Hexec & _).
  exact (unlocked_not_serialisable tr' Hser Hproj (Hexec rinit)).
Qed.
Print Assumptions C15_undisciplined_refuted.

Theorem C15_lost_update :
  fst (exec rapply rinit tr_lost) = 1%N /\ fst (exec rapply rinit tr_atomic) = 2%N /\ check_trace tr_lost = Some 0%N.
Proof. vm_compute. repeat split. Qed.
Print Assumptions C15_lost_update.

(* non-vacuity.  An interleaved run: thread 1 holds the lock re-entrantly and mutates; threads 2 and 3 do lock-free things
   meanwhile; then thread 2 takes the lock.  It is well locked and disciplined but NOT serial; its
   serialisation is, and has the same accesses in the same order. *)
Definition ex_tr : list (event N) :=
  [Tau 2 7; Acq 1; Read 1 0; Tau 2 8; Acq 1; Mut 1 1; Tau 3 9; Rel 1; Mut 1 2; Rel 1; Tau 3 9; Acq 2; Mut 2 3; Rel 2]%N.

Example ex_accepted : check_locked ex_tr = None /\ check_trace ex_tr = None.
Proof. vm_compute. split; reflexivity. Qed.

Example ex_hypotheses_hold : well_locked ex_tr /\ disciplined ex_tr.
Proof.
  split; [apply C15_check_locked_decides_well_locked | apply C15_check_trace_decides_disciplined]; vm_compute; reflexivity.
Qed.

Example ex_not_serial : ~ serial ex_tr.
Proof. intros H. apply serial_iff in H. discriminate H. Qed.

Example ex_serialised :
  serialise ex_tr =
  [Tau 2 7; Tau 2 8; Tau 3 9; Acq 1; Read 1 0; Acq 1; Mut 1 1; Rel 1; Mut 1 2; Rel 1; Tau 3 9; Acq 2; Mut 2 3; Rel 2]%N
  /\ atomic_steps ex_tr =
  [[Tau 2 7]; [Tau 2 8]; [Tau 3 9]; [Acq 1; Read 1 0; Acq 1; Mut 1 1; Rel 1; Mut 1 2; Rel 1]; [Tau 3 9];
   [Acq 2; Mut 2 3; Rel 2]]%N.
Proof. vm_compute. split; reflexivity. Qed.

(* the acceptors reject: accesses by a thread that does not own the lock (positions 3 and 5); an acquisition while
   another thread holds the lock (1), a release by a non-owner (2), a release of the free lock (4) *)
Example ex_rejected_access : violations [Acq 1; Mut 1 0; Rel 1; Mut 1 0; Acq 2; Read 1 5; Rel 2]%N = [3; 5]%N.
Proof. vm_compute. reflexivity. Qed.
Example ex_rejected_lock : lock_errors ([Acq 1; Acq 2; Rel 2; Rel 1; Rel 1] : list (event N))%N = [1; 2; 4]%N.
Proof. vm_compute. reflexivity. Qed.

(* the refutation's witness is well locked, and the acceptor points at thread 2's unlocked increment *)
Example ex_unlocked_witness : check_locked tr_unlocked = None /\ check_trace tr_unlocked = Some 2%N /\
  fst (exec rapply rinit tr_unlocked) = 1%N.
Proof. vm_compute. repeat split; reflexivity. Qed.
