(* StrLemmas.v — lemmas about the Python str primitives of Str.v, plus the proof-side notion of
   "components of a path" ([comps]) that the path laws are stated through.
   Convention: "s has no trailing c" is written [rstrip c s = s] throughout, here and in PathLaws.v.
   Facts about lengths go through app_inv_head and the like; no arithmetic procedure is used. *)
From Coq Require Import NArith List Bool Arith.
From CS Require Export ListFacts.
From CS Require Import Str.
Import ListNotations.

Lemma firstn_len_app {T} (a b : list T) : firstn (length a) (a ++ b) = a.
Proof. induction a as [|x a IH]; simpl; [reflexivity|]. f_equal. exact IH. Qed.

Lemma skipn_S_len_app {T} (a b : list T) x : skipn (S (length a)) (a ++ x :: b) = b.
Proof. induction a as [|y a IH]; simpl; [reflexivity|exact IH]. Qed.

Lemma firstn_min_len {T} n (s : list T) : firstn (Nat.min n (length s)) s = firstn n s.
Proof. rewrite <- firstn_firstn, firstn_all. reflexivity. Qed.

Lemma skipn_min_len {T} n (s : list T) : skipn (Nat.min n (length s)) s = skipn n s.
Proof.
  destruct (Nat.le_ge_cases n (length s)) as [H|H].
  - rewrite Nat.min_l by exact H. reflexivity.
  - rewrite Nat.min_r by exact H. rewrite skipn_all. symmetry. apply skipn_all2. exact H.
Qed.

Lemma str_eqb_eq a b : str_eqb a b = true <-> a = b.
Proof. exact (list_eqb_eq N.eqb N.eqb_eq a b). Qed.

Lemma str_eqb_refl a : str_eqb a a = true.
Proof. exact (beq_refl str_eqb str_eqb_eq a). Qed.

Lemma str_eqb_spec a b : reflect (a = b) (str_eqb a b).
Proof. exact (beq_spec str_eqb str_eqb_eq a b). Qed.

Lemma str_eqb_sym a b : str_eqb a b = str_eqb b a.
Proof. exact (beq_sym str_eqb str_eqb_eq a b). Qed.

Lemma lstrip_idem c s : lstrip c (lstrip c s) = lstrip c s.
Proof.
  induction s as [|x s IH]; simpl; [reflexivity|].
  destruct (N.eqb x c) eqn:E; [exact IH|]. simpl. rewrite E. reflexivity.
Qed.

Lemma lstrip_incl c s : incl (lstrip c s) s.
Proof.
  induction s as [|x s IH]; simpl; [apply incl_refl|].
  destruct (N.eqb x c); [apply incl_tl; exact IH|apply incl_refl].
Qed.

Lemma lstrip_app_keep c a b : lstrip c a <> [] -> lstrip c (a ++ b) = lstrip c a ++ b.
Proof.
  induction a as [|x a IH]; simpl; [contradiction|].
  destruct (N.eqb x c); [exact IH|reflexivity].
Qed.

Lemma lstrip_app_drop c a b : lstrip c a = [] -> lstrip c (a ++ b) = lstrip c b.
Proof.
  induction a as [|x a IH]; simpl; [reflexivity|].
  destruct (N.eqb x c); [exact IH|discriminate].
Qed.

Lemma rstrip_app_keep c a b : rstrip c b <> [] -> rstrip c (a ++ b) = a ++ rstrip c b.
Proof.
  intros H. unfold rstrip. rewrite rev_app_distr, lstrip_app_keep, rev_app_distr, rev_involutive; [reflexivity|].
  intros E. apply H. unfold rstrip. rewrite E. reflexivity.
Qed.

Lemma rstrip_app_drop c a b : rstrip c b = [] -> rstrip c (a ++ b) = rstrip c a.
Proof.
  unfold rstrip. intros H. rewrite rev_app_distr, lstrip_app_drop; [reflexivity|].
  apply (f_equal (@rev N)) in H. rewrite rev_involutive in H. exact H.
Qed.

Lemma rstrip_cons c x r :
  rstrip c (x :: r) =
  match rstrip c r with [] => if N.eqb x c then [] else [x] | _ => x :: rstrip c r end.
Proof.
  change (x :: r) with ([x] ++ r). destruct (rstrip c r) eqn:E.
  - rewrite (rstrip_app_drop c [x] r E). unfold rstrip. simpl. destruct (N.eqb x c); reflexivity.
  - rewrite (rstrip_app_keep c [x] r), E; [reflexivity|rewrite E; discriminate].
Qed.

Lemma rstrip_app_fix c a b : b <> [] -> rstrip c b = b -> rstrip c (a ++ b) = a ++ b.
Proof. intros Hne H. rewrite rstrip_app_keep, H; [reflexivity|rewrite H; exact Hne]. Qed.

Lemma rstrip_idem c s : rstrip c (rstrip c s) = rstrip c s.
Proof. unfold rstrip. rewrite rev_involutive, lstrip_idem. reflexivity. Qed.

Lemma rstrip_incl c s : incl (rstrip c s) s.
Proof.
  unfold rstrip. intros x Hx. apply in_rev in Hx. apply lstrip_incl in Hx. apply in_rev in Hx. exact Hx.
Qed.

Lemma strip_incl c s : incl (strip c s) s.
Proof. unfold strip. intros x Hx. apply rstrip_incl in Hx. apply lstrip_incl in Hx. exact Hx. Qed.

Lemma lstrip_no c s : ~ In c s -> lstrip c s = s.
Proof.
  destruct s as [|x s]; simpl; intros H; [reflexivity|].
  destruct (N.eqb_spec x c) as [->|]; [exfalso; apply H; auto|reflexivity].
Qed.

Lemma rstrip_no c s : ~ In c s -> rstrip c s = s.
Proof.
  intros H. unfold rstrip. rewrite lstrip_no, rev_involutive; [reflexivity|].
  intros Hx. apply in_rev in Hx. contradiction.
Qed.

Lemma strip_no c s : ~ In c s -> strip c s = s.
Proof.
  intros H. unfold strip. rewrite lstrip_no by exact H. apply rstrip_no. exact H.
Qed.

Lemma rstrip_decomp c s : exists n, s = rstrip c s ++ repeat c n.
Proof.
  induction s as [|x s [n IH]].
  - exists 0. reflexivity.
  - rewrite rstrip_cons. destruct (rstrip c s) as [|y r] eqn:E.
    + destruct (N.eqb_spec x c) as [->|Hne].
      * exists (S n). simpl. simpl in IH. rewrite IH at 1. reflexivity.
      * exists n. simpl. simpl in IH. rewrite IH at 1. reflexivity.
    + exists n. simpl. f_equal. exact IH.
Qed.

Lemma rstrip_suffix_fix c a b : rstrip c (a ++ b) = a ++ b -> rstrip c b = b.
Proof.
  intros H. destruct (rstrip c b) eqn:E.
  - rewrite rstrip_app_drop in H by exact E. destruct (rstrip_decomp c a) as [n Hn].
    rewrite H, <- app_assoc, <- (app_nil_r a) in Hn at 1. apply app_inv_head in Hn.
    symmetry in Hn. apply app_eq_nil in Hn as [Hn _]. symmetry. exact Hn.
  - rewrite rstrip_app_keep in H by (rewrite E; discriminate). apply app_inv_head in H. congruence.
Qed.

Lemma rstrip_length_le c s : length (rstrip c s) <= length s.
Proof.
  destruct (rstrip_decomp c s) as [n H]. rewrite H at 2. rewrite app_length. apply Nat.le_add_r.
Qed.

Lemma rstrip_repeat c n : rstrip c (repeat c n) = [].
Proof.
  induction n as [|n IH]; [reflexivity|]. simpl. rewrite rstrip_cons, IH, N.eqb_refl. reflexivity.
Qed.

Lemma rstrip_single c : rstrip c [c] = [].
Proof. apply (rstrip_repeat c 1). Qed.

Lemma rstrip_last_keep c a x : x <> c -> rstrip c (a ++ [x]) = a ++ [x].
Proof.
  intros Hx. apply rstrip_app_fix; [discriminate|]. apply rstrip_no. intros [E|[]]. exact (Hx E).
Qed.

Lemma rstrip_head c x s : x <> c -> rstrip c (x :: s) = x :: rstrip c s.
Proof.
  intros Hx. rewrite rstrip_cons. destruct (rstrip c s); [|reflexivity].
  destruct (N.eqb_spec x c); [contradiction|reflexivity].
Qed.

Lemma lstrip_head_ne c s x t : lstrip c s = x :: t -> x <> c.
Proof.
  induction s as [|y s IH]; simpl; [discriminate|].
  destruct (N.eqb_spec y c) as [|Hne]; [exact IH|]. intros E. injection E as <- _. exact Hne.
Qed.

Lemma strip_head_ne c s x t : strip c s = x :: t -> x <> c.
Proof.
  unfold strip. destruct (lstrip c s) as [|y u] eqn:E; [discriminate|]. apply lstrip_head_ne in E.
  rewrite rstrip_head by exact E. intros E'. injection E' as <- _. exact E.
Qed.

Lemma replace_char_idem a b s : replace_char a b (replace_char a b s) = replace_char a b s.
Proof.
  unfold replace_char. rewrite map_map. apply map_ext. intros x.
  destruct (N.eqb x a) eqn:E; [|rewrite E; reflexivity].
  destruct (N.eqb b a) eqn:E2; reflexivity.
Qed.

Lemma replace_char_no a b s : ~ In a s -> replace_char a b s = s.
Proof.
  induction s as [|x s IH]; simpl; intros H; [reflexivity|].
  destruct (N.eqb_spec x a) as [->|Hne]; [exfalso; apply H; auto|].
  f_equal. apply IH. intros Hin. apply H. auto.
Qed.

Lemma replace_char_same a s : replace_char a a s = s.
Proof.
  unfold replace_char. rewrite map_ext with (g := fun x => x); [apply map_id|].
  intros z. destruct (N.eqb_spec z a); auto.
Qed.

Lemma replace_char_out a b s : a <> b -> ~ In a (replace_char a b s).
Proof.
  intros Hab Hin. unfold replace_char in Hin. apply in_map_iff in Hin as [z [Hz _]].
  destruct (N.eqb_spec z a); subst; auto.
Qed.

Lemma startswith_firstn s p : startswith s p = true <-> firstn (length p) s = p.
Proof.
  revert s. induction p as [|y p IH]; intros [|x s]; simpl; try (split; (reflexivity || discriminate)).
  rewrite andb_true_iff, N.eqb_eq, IH. split; [intros [-> ->]; reflexivity|intros E; injection E; auto].
Qed.

Lemma startswith_app a b : startswith (a ++ b) a = true.
Proof. apply startswith_firstn, firstn_len_app. Qed.

Lemma rfind_from_no c s i acc : ~ In c s -> rfind_from c s i acc = acc.
Proof.
  revert i acc. induction s as [|x s IH]; intros i acc H; simpl; [reflexivity|].
  destruct (N.eqb_spec x c) as [->|Hne]; [exfalso; apply H; left; reflexivity|].
  apply IH. intros Hin. apply H. right. exact Hin.
Qed.

Lemma rfind_from_last c a b i acc :
  ~ In c b -> rfind_from c (a ++ c :: b) i acc = Some (i + length a).
Proof.
  intros Hb. revert i acc. induction a as [|x a IH]; intros i acc; simpl.
  - rewrite N.eqb_refl. rewrite rfind_from_no by exact Hb. rewrite Nat.add_0_r. reflexivity.
  - rewrite IH. simpl. rewrite Nat.add_succ_r. reflexivity.
Qed.

Lemma rfind_none c s : ~ In c s -> rfind c s = None.
Proof. intros H. unfold rfind. apply rfind_from_no. exact H. Qed.

Lemma rfind_last c a b : ~ In c b -> rfind c (a ++ c :: b) = Some (length a).
Proof. intros H. unfold rfind. rewrite rfind_from_last by exact H. reflexivity. Qed.

Lemma last_occurrence (c : N) s : In c s -> exists a b, s = a ++ c :: b /\ ~ In c b.
Proof.
  induction s as [|x s IH]; intros H; [destruct H|].
  destruct (in_dec N.eq_dec c s) as [Hin|Hnin].
  - destruct (IH Hin) as [a [b [E Hb]]]. exists (x :: a), b. subst. split; [reflexivity|exact Hb].
  - destruct H as [->|H]; [|contradiction]. exists [], s. split; [reflexivity|exact Hnin].
Qed.

Lemma intercalate_cons c p r :
  intercalate c (p :: r) = match r with [] => p | _ => p ++ c :: intercalate c r end.
Proof. destruct r; reflexivity. Qed.

Lemma intercalate_flat c p r : intercalate c (p :: r) = p ++ flat_map (cons c) r.
Proof.
  revert p. induction r as [|q r IH]; intros p; [symmetry; apply app_nil_r|].
  rewrite intercalate_cons, IH. reflexivity.
Qed.

Lemma intercalate_snoc c l b : l <> [] -> intercalate c (l ++ [b]) = intercalate c l ++ c :: b.
Proof.
  destruct l as [|p l]; [contradiction|]. intros _. cbn [app].
  rewrite !intercalate_flat, flat_map_app, app_assoc. cbn [flat_map]. rewrite app_nil_r. reflexivity.
Qed.

Lemma intercalate_map c f l : map f (intercalate c l) = intercalate (f c) (map (map f) l).
Proof.
  destruct l as [|p l]; [reflexivity|]. cbn [map]. rewrite !intercalate_flat, map_app. f_equal.
  induction l as [|q l IH]; [reflexivity|]. cbn [map flat_map]. rewrite <- IH. apply (map_app f (c :: q)).
Qed.

Definition starts_comp (c : N) (r : str) : bool :=
  match r with [] => false | y :: _ => negb (N.eqb y c) end.

(* the non-empty maximal c-free pieces of s, in order; the look-ahead [starts_comp] decides whether x opens a
   component of its own (the next character is a separator or the end) or joins the first component of the rest.
   The proofs use it through comps_app_sep and comps_piece / comps_nosep (with comps c [] = []). *)
Fixpoint comps (c : N) (s : str) : list str :=
  match s with
  | [] => []
  | x :: r =>
    if N.eqb x c then comps c r
    else if starts_comp c r
         then match comps c r with h :: t => (x :: h) :: t | [] => [[x]] end
         else [x] :: comps c r
  end.

(* [good c p]: p can be a component *)
Definition good (c : N) (p : str) : Prop := p <> [] /\ ~ In c p.

Lemma comps_starts c r : starts_comp c r = true -> comps c r <> [].
Proof.
  destruct r as [|y r]; simpl; [discriminate|]. intros H.
  destruct (N.eqb y c); [discriminate|].
  destruct (starts_comp c r); [destruct (comps c r)|]; discriminate.
Qed.

Lemma comps_nosep c s : s <> [] -> ~ In c s -> comps c s = [s].
Proof.
  induction s as [|x s IH]; intros Hne Hc; [contradiction|].
  simpl. destruct (N.eqb_spec x c) as [->|Hx]; [exfalso; apply Hc; left; reflexivity|].
  destruct s as [|y s]; [reflexivity|].
  assert (Hy : y <> c) by (intros ->; apply Hc; right; left; reflexivity).
  assert (Hs : starts_comp c (y :: s) = true) by (simpl; destruct (N.eqb_spec y c); [contradiction|reflexivity]).
  rewrite Hs. rewrite IH; [reflexivity|discriminate|]. intros Hin. apply Hc. right. exact Hin.
Qed.

Lemma comps_app_sep c a b : comps c (a ++ c :: b) = comps c a ++ comps c b.
Proof.
  induction a as [|x a IH]; simpl.
  - rewrite N.eqb_refl. reflexivity.
  - destruct (N.eqb x c) eqn:Ex; [exact IH|].
    assert (Hs : starts_comp c (a ++ c :: b) = starts_comp c a).
    { destruct a; simpl; [rewrite N.eqb_refl; reflexivity|reflexivity]. }
    rewrite Hs, IH. destruct (starts_comp c a) eqn:Es; [|reflexivity].
    apply comps_starts in Es. destruct (comps c a); [contradiction|reflexivity].
Qed.

Lemma comps_snoc_sep c a : comps c (a ++ [c]) = comps c a.
Proof. rewrite comps_app_sep. simpl. apply app_nil_r. Qed.

Lemma comps_cons_sep c a : comps c (c :: a) = comps c a.
Proof. simpl. rewrite N.eqb_refl. reflexivity. Qed.

Lemma comps_app_repeat c a n : comps c (a ++ repeat c n) = comps c a.
Proof.
  induction n as [|n IH]; [rewrite app_nil_r; reflexivity|].
  cbn [repeat]. rewrite repeat_cons, app_assoc, comps_snoc_sep. exact IH.
Qed.

Lemma comps_rstrip c s : comps c (rstrip c s) = comps c s.
Proof.
  destruct (rstrip_decomp c s) as [n H]. rewrite H at 2. rewrite comps_app_repeat. reflexivity.
Qed.

Lemma comps_lstrip c s : comps c (lstrip c s) = comps c s.
Proof.
  induction s as [|x s IH]; [reflexivity|]. simpl.
  destruct (N.eqb x c) eqn:E; [exact IH|]. simpl. rewrite E. reflexivity.
Qed.

Lemma comps_strip c s : comps c (strip c s) = comps c s.
Proof. unfold strip. rewrite comps_rstrip, comps_lstrip. reflexivity. Qed.

Lemma comps_good c s : Forall (good c) (comps c s).
Proof.
  induction s as [|x s IH]; simpl; [constructor|].
  destruct (N.eqb_spec x c) as [->|Hx]; [exact IH|].
  assert (Hg : good c [x]) by (split; [discriminate|intros [H|[]]; congruence]).
  destruct (starts_comp c s).
  - destruct (comps c s) as [|h t]; [constructor; [exact Hg|constructor]|].
    inversion IH as [|h' t' [Hh1 Hh2] Ht]; subst. constructor; [|exact Ht].
    split; [discriminate|]. intros [H|H]; [congruence|contradiction].
  - constructor; assumption.
Qed.

Lemma comps_intercalate c l : comps c (intercalate c l) = concat (map (comps c) l).
Proof.
  induction l as [|p l IH]; [reflexivity|].
  rewrite intercalate_cons. destruct l as [|q l].
  - simpl. rewrite app_nil_r. reflexivity.
  - rewrite comps_app_sep, IH. reflexivity.
Qed.

Lemma comps_intercalate_good c l : Forall (good c) l -> comps c (intercalate c l) = l.
Proof.
  intros H. rewrite comps_intercalate. induction H as [|p l [Hp1 Hp2] Hl IH]; [reflexivity|].
  simpl. rewrite comps_nosep by assumption. simpl. f_equal. exact IH.
Qed.

Lemma filter_nonempty_comps c (L : list str) :
  concat (map (comps c) (filter nonempty L)) = concat (map (comps c) L).
Proof.
  induction L as [|p L IH]; [reflexivity|]. simpl.
  destruct p as [|x p]; simpl; [exact IH|]. rewrite IH. reflexivity.
Qed.

Lemma intercalate_good_fix c L : Forall (good c) L -> L <> [] ->
  rstrip c (intercalate c L) = intercalate c L /\ intercalate c L <> [].
Proof.
  induction 1 as [|p l [Hp1 Hp2] Hl IH]; intros Hne; [contradiction|].
  rewrite intercalate_cons. destruct l as [|q l].
  - split; [apply rstrip_no; exact Hp2|exact Hp1].
  - destruct IH as [IH1 IH2]; [discriminate|]. split; [|destruct p; discriminate].
    apply rstrip_app_fix; [discriminate|]. apply (rstrip_app_fix c [c]); assumption.
Qed.

Lemma intercalate_good_head c L : Forall (good c) L -> L <> [] ->
  exists x j, intercalate c L = x :: j /\ x <> c.
Proof.
  intros [|[|x p] l [Hp1 Hp2] _] Hne; try contradiction. exists x. rewrite intercalate_cons.
  destruct l; eexists; (split; [reflexivity|]); intros ->; apply Hp2; left; reflexivity.
Qed.

(* the clauses fo_sep / fo_alt / fo_colon of PathLaws.fold_ok are used through this *)
Lemma eqb_exactly_fixed (f : N -> N) c : (forall x, f x = c <-> x = c) -> forall x, N.eqb (f x) c = N.eqb x c.
Proof.
  intros H x. destruct (N.eqb_spec x c) as [E|E]; [apply N.eqb_eq|apply N.eqb_neq; intros E'].
  - apply H. exact E.
  - apply (proj1 (H x)) in E'. contradiction.
Qed.

Lemma comps_map c f s : (forall x, f x = c <-> x = c) ->
  comps c (map f s) = map (map f) (comps c s).
Proof.
  intros Hf. induction s as [|x s IH]; [reflexivity|]. simpl.
  rewrite (eqb_exactly_fixed f c Hf). destruct (N.eqb x c); [exact IH|].
  assert (Hs : starts_comp c (map f s) = starts_comp c s)
    by (destruct s; simpl; rewrite ?(eqb_exactly_fixed f c Hf); reflexivity).
  rewrite Hs, IH. destruct (starts_comp c s); [|reflexivity].
  destruct (comps c s); reflexivity.
Qed.

Lemma concat_comps c s : concat (comps c s) = filter (fun x => negb (N.eqb x c)) s.
Proof.
  induction s as [|x s IH]; [reflexivity|]. simpl. destruct (N.eqb x c); [exact IH|]. simpl. rewrite <- IH.
  destruct (starts_comp c s); [destruct (comps c s)|]; reflexivity.
Qed.

Lemma comps_incl c s q : In q (comps c s) -> incl q s.
Proof.
  intros Hq x Hx. assert (H : In x (concat (comps c s))) by (apply in_concat; eauto).
  rewrite concat_comps in H. apply filter_In in H. apply H.
Qed.

Lemma comps_piece c p : ~ In c p -> comps c p = filter nonempty [p].
Proof.
  intros H. destruct p as [|x p]; [reflexivity|].
  rewrite comps_nosep; [reflexivity|discriminate|exact H].
Qed.

Lemma split_runs_aux_comps c s cur b :
  (b = true -> cur = []) -> ~ In c cur ->
  filter nonempty (split_runs_aux c s cur b) = comps c (rev cur ++ s).
Proof.
  revert cur b. induction s as [|x s IH]; intros cur b Hb Hc.
  - rewrite app_nil_r. rewrite comps_piece; [reflexivity|].
    intros Hin. apply in_rev in Hin. contradiction.
  - cbn [split_runs_aux]. destruct (N.eqb_spec x c) as [->|Hx].
    + destruct b.
      * rewrite (Hb eq_refl). rewrite IH; [|reflexivity|intros []]. simpl. rewrite N.eqb_refl. reflexivity.
      * rewrite comps_app_sep. rewrite comps_piece by (intros Hin; apply in_rev in Hin; contradiction).
        change (rev cur :: split_runs_aux c s [] true) with ([rev cur] ++ split_runs_aux c s [] true).
        rewrite filter_app. rewrite IH; [reflexivity|reflexivity|intros []].
    + rewrite IH; [|discriminate|].
      * simpl. rewrite <- app_assoc. reflexivity.
      * intros [H|H]; [congruence|contradiction].
Qed.

Lemma split_runs_comps c s : filter nonempty (split_runs c s) = comps c s.
Proof. unfold split_runs. rewrite split_runs_aux_comps; [reflexivity|discriminate|intros []]. Qed.

Lemma fold_std_cases c :
  fold_std c = c \/ fold_std c = (c + 32)%N /\ ((65 <= c <= 90)%N \/ (192 <= c <= 222)%N).
Proof.
  unfold fold_std. destruct (N.leb 65 c && N.leb c 90)%bool eqn:E1.
  - right. apply andb_true_iff in E1 as [A B]. apply N.leb_le in A, B. auto.
  - destruct (N.leb 192 c && N.leb c 222 && negb (N.eqb c 215))%bool eqn:E2; [right|left; reflexivity].
    apply andb_true_iff in E2 as [E2 _]. apply andb_true_iff in E2 as [A B]. apply N.leb_le in A, B. auto.
Qed.
