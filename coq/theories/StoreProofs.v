(* StoreProofs.v — lemmas about StoreModel: dict laws, the specification map and [sp_ok]; Section Sim (a one-step forward
   simulation lifts to call sequences) with its two instances, the SqliteStorage model (what each SQL statement does to
   the abstract map, [sq_step_refines]) with the facts behind its corollaries in PropC09.v, and the MockStorage model
   ([m_step_refines]); then the facts behind C09_mock_tag_isolation and C09_serial_no_lost_write. *)
From Coq Require Import NArith List Bool Permutation.
From CS Require Import Sx Str StrLemmas StoreModel.
Import ListNotations.

Lemma key_eqb_eq a b : key_eqb a b = true <-> a = b.
Proof.
  destruct a as [t i], b as [t' i']. unfold key_eqb; simpl. rewrite andb_true_iff, N.eqb_eq, str_eqb_eq.
  split; [intros [-> ->]; reflexivity | intros H; inversion H; auto].
Qed.

Lemma key_eqb_rfl k : key_eqb k k = true.
Proof. exact (beq_refl key_eqb key_eqb_eq k). Qed.

Lemma key_eqb_neq a b : key_eqb a b = false <-> a <> b.
Proof. exact (beq_false key_eqb key_eqb_eq a b). Qed.

Lemma NoDup_app_r {X} (l1 l2 : list X) : NoDup (l1 ++ l2) -> NoDup l2.
Proof. induction l1; simpl; intros H; [exact H | inversion H; auto]. Qed.

Lemma filter_sub {X} (p q : X -> bool) l : (forall x, p x = true -> q x = true) -> filter p (filter q l) = filter p l.
Proof.
  intros H. induction l as [|x l IH]; simpl; [reflexivity|].
  destruct (q x) eqn:Eq; simpl; [rewrite IH; reflexivity|].
  destruct (p x) eqn:Ep; [apply H in Ep; congruence | exact IH].
Qed.

Lemma filter_map_fix {X} (p : X -> bool) f l :
  (forall x, f x = x \/ (p (f x) = false /\ p x = false)) -> filter p (map f l) = filter p l.
Proof.
  intros H. induction l as [|x l IH]; simpl; [reflexivity|].
  destruct (H x) as [->|[-> ->]]; rewrite IH; reflexivity.
Qed.

Lemma dict_set_forall {K V} eqb (P : V -> Prop) (k : K) v d :
  Forall (fun e => P (snd e)) d -> P v -> Forall (fun e => P (snd e)) (dict_set eqb k v d).
Proof.
  induction d as [|[k0 v0] r IH]; simpl; intros HF Hv.
  - constructor; [exact Hv | constructor].
  - inversion HF; subst. destruct (eqb k0 k); constructor; auto.
Qed.

Section DictLaws.
  Context {K V : Type} (eqb : K -> K -> bool).
  Hypothesis eqb_ok : forall a b, eqb a b = true <-> a = b.

  Lemma dict_get_set k v k' (d : list (K * V)) :
    dict_get eqb k' (dict_set eqb k v d) = if eqb k k' then Some v else dict_get eqb k' d.
  Proof.
    induction d as [|[k0 v0] r IH]; simpl; [reflexivity|].
    destruct (eqb k0 k) eqn:E0; simpl.
    - apply eqb_ok in E0; subst k0. destruct (eqb k k'); reflexivity.
    - rewrite IH. destruct (eqb k k') eqn:E; [|reflexivity].
      apply eqb_ok in E; subst k'. rewrite E0. reflexivity.
  Qed.

  Lemma dict_get_del k k' (d : list (K * V)) :
    dict_get eqb k' (dict_del eqb k d) = if eqb k k' then None else dict_get eqb k' d.
  Proof.
    unfold dict_del. induction d as [|[k0 v0] r IH]; simpl; [destruct (eqb k k'); reflexivity|].
    destruct (eqb k0 k) eqn:E0; simpl; rewrite IH.
    - apply eqb_ok in E0; subst k0. destruct (eqb k k'); reflexivity.
    - destruct (eqb k k') eqn:E; [|reflexivity].
      apply eqb_ok in E; subst k'. rewrite E0. reflexivity.
  Qed.

  Lemma dict_get_none k (d : list (K * V)) : dict_get eqb k d = None <-> ~ In k (map fst d).
  Proof.
    induction d as [|[k0 v0] r IH]; simpl; [tauto|].
    destruct (eqb k0 k) eqn:E.
    - apply eqb_ok in E. split; [discriminate | intros H; exfalso; apply H; auto].
    - apply (beq_false eqb eqb_ok) in E. rewrite IH. tauto.
  Qed.

  Lemma dict_get_in k v (d : list (K * V)) : is_dict d -> (dict_get eqb k d = Some v <-> In (k, v) d).
  Proof.
    unfold is_dict. induction d as [|[k0 v0] r IH]; simpl; intros ND; [split; [discriminate | tauto]|].
    inversion ND as [|? ? Hni ND']; subst. destruct (eqb k0 k) eqn:E.
    - apply eqb_ok in E; subst k0. split; [intros [= ->]; auto|].
      intros [[= ->]|H]; [reflexivity|]. destruct Hni. apply (in_map fst _ _ H).
    - apply (beq_false eqb eqb_ok) in E. rewrite (IH ND'). split; [auto|]. intros [[= -> ->]|H]; [congruence | exact H].
  Qed.

  Lemma dict_set_absent k v (d : list (K * V)) : dict_get eqb k d = None -> dict_set eqb k v d = d ++ [(k, v)].
  Proof.
    induction d as [|[k0 v0] r IH]; simpl; [reflexivity|].
    destruct (eqb k0 k); [discriminate|]. intros H. rewrite (IH H). reflexivity.
  Qed.

  Lemma dict_set_keys k v (d : list (K * V)) :
    map fst (dict_set eqb k v d) = match dict_get eqb k d with Some _ => map fst d | None => map fst d ++ [k] end.
  Proof.
    induction d as [|[k0 v0] r IH]; simpl; [reflexivity|].
    destruct (eqb k0 k) eqn:E; simpl; [reflexivity|].
    rewrite IH. destruct (dict_get eqb k r); reflexivity.
  Qed.

  Lemma is_dict_set k v (d : list (K * V)) : is_dict d -> is_dict (dict_set eqb k v d).
  Proof.
    unfold is_dict. intros ND. rewrite dict_set_keys. destruct (dict_get eqb k d) eqn:E; [exact ND|].
    apply dict_get_none in E. apply nodup_snoc; assumption.
  Qed.

  Lemma dict_del_del k (d : list (K * V)) : dict_del eqb k (dict_del eqb k d) = dict_del eqb k d.
  Proof. apply filter_sub. auto. Qed.
End DictLaws.

Lemma sp_get_set k b k' s : sp_get (sp_set k b s) k' = if key_eqb k k' then Some b else sp_get s k'.
Proof. apply dict_get_set, key_eqb_eq. Qed.

Lemma sp_get_del k k' s : sp_get (sp_del k s) k' = if key_eqb k k' then None else sp_get s k'.
Proof. apply dict_get_del, key_eqb_eq. Qed.

Lemma sp_equiv_refl s : sp_equiv s s.
Proof. intros k. reflexivity. Qed.

Lemma sp_equiv_sym s1 s2 : sp_equiv s1 s2 -> sp_equiv s2 s1.
Proof. intros H k. symmetry. apply H. Qed.

Lemma sp_equiv_trans s1 s2 s3 : sp_equiv s1 s2 -> sp_equiv s2 s3 -> sp_equiv s1 s3.
Proof. intros H1 H2 k. rewrite H1. apply H2. Qed.

Lemma sp_set_equiv s1 s2 k b : sp_equiv s1 s2 -> sp_equiv (sp_set k b s1) (sp_set k b s2).
Proof. intros H k'. rewrite !sp_get_set, H. reflexivity. Qed.

Lemma sp_del_equiv s1 s2 k : sp_equiv s1 s2 -> sp_equiv (sp_del k s1) (sp_del k s2).
Proof. intros H k'. rewrite !sp_get_del, H. reflexivity. Qed.

(* the specification only looks at a state through sp_get: every premise of [sp_ok] transfers along
   the equivalence, and set / delete respect it *)
Lemma sp_ok_equiv s1 s2 o r s1' :
  sp_equiv s1 s2 -> sp_ok s1 o r s1' -> exists s2', sp_ok s2 o r s2' /\ sp_equiv s1' s2'.
Proof.
  intros E H. inversion H; subst; eexists; (split; [econstructor; intros; rewrite <- ?E; eauto|]);
    auto using sp_set_equiv, sp_del_equiv.
Qed.

Lemma sp_trace_equiv tr : forall s1 s2 s1',
  sp_equiv s1 s2 -> sp_trace s1 tr s1' -> exists s2', sp_trace s2 tr s2' /\ sp_equiv s1' s2'.
Proof.
  intros s1 s2 s1' E H. revert s2 E. induction H as [s|s o r s1 tr s2' Hok _ IH]; intros s2 E.
  - exists s2. split; [constructor | exact E].
  - destruct (sp_ok_equiv _ _ _ _ _ E Hok) as [m2 [Hok2 Em]]. destruct (IH _ Em) as [s' [Htr E']].
    exists s'. split; [econstructor; eassumption | exact E'].
Qed.

Lemma sp_trace_app tr1 : forall s tr2 s1 s2,
  sp_trace s tr1 s1 -> sp_trace s1 tr2 s2 -> sp_trace s (tr1 ++ tr2) s2.
Proof. intros s tr2 s1 s2 H1 H2. induction H1; simpl; [exact H2 | econstructor; eauto]. Qed.

Lemma sp_ok_untouched s o r s' k b :
  sp_ok s o r s' -> touches k o = false -> sp_get s k = Some b -> sp_get s' k = Some b.
Proof.
  intros H. inversion H; subst; simpl; intros Ht Hg; try exact Hg.
  - rewrite sp_get_set. destruct (key_eqb (t, i) k) eqn:E; [|exact Hg].
    apply key_eqb_eq in E. subst k. congruence.
  - rewrite sp_get_set, Ht. exact Hg.
  - rewrite sp_get_del, Ht. exact Hg.
Qed.

Lemma sp_ok_written s w r s' t b i : sp_ok s w r s' ->
  (w = Create t b /\ r = RId i) \/ (w = Update t b i /\ r = RCount 1) -> sp_get s' (t, i) = Some b.
Proof.
  intros H [[-> ->]|[-> ->]]; inversion H; subst; rewrite sp_get_set, key_eqb_rfl; reflexivity.
Qed.

Lemma sp_ok_apply_ack s0 s o r s1 : sp_ok s o r s1 -> sp_equiv s0 s -> sp_equiv (apply_ack s0 (o, r)) s1.
Proof. intros H E. inversion H; subst; simpl; auto using sp_set_equiv, sp_del_equiv. Qed.

Lemma sp_trace_apply_ack tr : forall s0 s s', sp_trace s tr s' -> sp_equiv s0 s ->
  sp_equiv (fold_left apply_ack tr s0) s'.
Proof.
  intros s0 s s' H. revert s0. induction H as [|s o r s1 tr s2 Hok _ IH]; intros s0 E; simpl; [exact E|].
  eapply IH, sp_ok_apply_ack; eassumption.
Qed.

Lemma run_ops_cons {C} (step : C -> op -> res * C) c o ops :
  run_ops step c (o :: ops) =
  (fst (step c o) :: fst (run_ops step (snd (step c o)) ops), snd (run_ops step (snd (step c o)) ops)).
Proof. simpl. destruct (step c o) as [x c1]. simpl. destruct (run_ops step c1 ops). reflexivity. Qed.

Definition answers {C} (abs : C -> smap) (inv : C -> Prop) (c : C) (o : op) (r : res) (c' : C) : Prop :=
  inv c' /\ exists s', sp_ok (abs c) o r s' /\ sp_equiv s' (abs c').

(* [view]: how a result is read before it is compared with the map (the identity, or MockStorage's ValueError
   on read taken as None); [Dom]: the calls the simulation covers (all, or all but Reopen for MockStorage) *)
Section Sim.
  Context {C : Type} (step : C -> op -> res * C) (abs : C -> smap) (Inv : C -> Prop) (view : op -> res -> res)
          (Dom : op -> Prop).
  Hypothesis step_ok : forall c o, Inv c -> Dom o ->
    answers abs Inv c o (view o (fst (step c o))) (snd (step c o)).

  Lemma sim_run ops : forall c s, Inv c -> Forall Dom ops -> sp_equiv s (abs c) ->
    exists s', sp_trace s (history view ops (fst (run_ops step c ops))) s' /\
               sp_equiv s' (abs (snd (run_ops step c ops))) /\ Inv (snd (run_ops step c ops)).
  Proof.
    induction ops as [|o ops IH]; intros c s HI HD HE.
    - exists s. repeat split; [constructor | exact HE | exact HI].
    - inversion HD as [|? ? HDo HDr]; subst. rewrite run_ops_cons. cbn [fst snd].
      destruct (step_ok c o HI HDo) as [HI1 [s1 [Hok Heq]]].
      destruct (sp_ok_equiv _ _ _ _ _ (sp_equiv_sym _ _ HE) Hok) as [s1' [Hok' E1]].
      destruct (IH (snd (step c o)) s1' HI1 HDr) as [s2 [Htr H2]].
      { eapply sp_equiv_trans; [apply sp_equiv_sym; exact E1 | exact Heq]. }
      exists s2. split; [econstructor; eassumption | exact H2].
  Qed.
End Sim.

(* PRIMARY KEY: ids are pairwise different (over all tags) *)
Definition wf_sq (T : table) : Prop := NoDup (map row_id T).

Lemma key_where r t i : key_eqb (row_tag r, row_id r) (t, i) = where_id_tag i t r.
Proof. reflexivity. Qed.

Lemma where_id_tag_true i t r : where_id_tag i t r = true <-> row_id r = i /\ row_tag r = t.
Proof. unfold where_id_tag. rewrite andb_true_iff, N.eqb_eq, str_eqb_eq. tauto. Qed.

Lemma where_tag_true t r : where_tag t r = true <-> row_tag r = t.
Proof. apply str_eqb_eq. Qed.

Lemma sp_get_abs_cons r T k :
  sp_get (abs_sq (r :: T)) k = if key_eqb (row_tag r, row_id r) k then Some (row_blob r) else sp_get (abs_sq T) k.
Proof. reflexivity. Qed.

Lemma sq_get_abs T t i :
  sp_get (abs_sq T) (t, i) =
  match filter (where_id_tag i t) T with r :: _ => Some (row_blob r) | [] => None end.
Proof.
  induction T as [|r T IH]; [reflexivity|].
  rewrite sp_get_abs_cons, key_where. cbn [filter].
  destruct (where_id_tag i t r); [reflexivity | exact IH].
Qed.

Lemma in_abs_sq T t i b : In ((t, i), b) (abs_sq T) <-> In (i, t, b) T.
Proof.
  unfold abs_sq. rewrite in_map_iff. split.
  - intros [[[i' t'] b'] [[= <- <- <-] H]]. exact H.
  - intros H. exists (i, t, b). split; [reflexivity | exact H].
Qed.

Lemma is_dict_abs_sq T : wf_sq T -> is_dict (abs_sq T).
Proof.
  unfold wf_sq, is_dict, abs_sq. rewrite map_map. intros ND.
  apply (NoDup_map_inv snd). rewrite map_map. exact ND.
Qed.

Lemma live_iff T t i b : wf_sq T -> (sp_get (abs_sq T) (t, i) = Some b <-> In (i, t, b) T).
Proof.
  intros WF. unfold sp_get. rewrite (dict_get_in key_eqb key_eqb_eq) by (apply is_dict_abs_sq; exact WF).
  apply in_abs_sq.
Qed.

Lemma sq_max_ge T r : In r T -> (row_id r <= sq_max T)%N.
Proof.
  induction T as [|x T IH]; simpl; [tauto|]. intros [->|H]; [apply N.le_max_l|].
  eapply N.le_trans; [apply (IH H) | apply N.le_max_r].
Qed.

Lemma sq_next_fresh T : ~ In (sq_next T) (map row_id T).
Proof.
  intros H. apply in_map_iff in H as [r [E H]]. apply sq_max_ge in H. unfold sq_next in E. rewrite E in H.
  exact (N.nle_succ_diag_l _ H).
Qed.

(* no row under (tag, id): the WHERE clause selects nothing, also when the id is live under another tag *)
Lemma no_row_filter T t i : (forall b0, ~ In (i, t, b0) T) -> filter (where_id_tag i t) T = [].
Proof.
  intros H. apply filter_nil. intros [[i0 t0] b0] Hr. destruct (where_id_tag i t (i0, t0, b0)) eqn:E; [|reflexivity].
  apply where_id_tag_true in E as [E1 E2]. cbn in E1, E2. subst. destruct (H b0 Hr).
Qed.

Lemma filter_fresh_nil T i t : ~ In i (map row_id T) -> filter (where_id_tag i t) T = [].
Proof. intros H. apply no_row_filter. intros b0 Hin. apply H, (in_map row_id _ _ Hin). Qed.

Lemma count_le1 T i t : wf_sq T -> (length (filter (where_id_tag i t) T) <= 1)%nat.
Proof.
  unfold wf_sq. induction T as [|r T IH]; simpl; intros ND; [apply le_S, le_n|].
  inversion ND as [|? ? Hni ND']; subst.
  destruct (where_id_tag i t r) eqn:E; [|auto].
  apply where_id_tag_true in E as [E _]. subst i. rewrite (filter_fresh_nil _ _ _ Hni). apply le_n.
Qed.

Lemma upd_get T t b i k' :
  sp_get (abs_sq (map (upd_row i t b) T)) k' =
  match sp_get (abs_sq T) k' with
  | Some b0 => Some (if key_eqb (t, i) k' then b else b0)
  | None => None
  end.
Proof.
  induction T as [|r T IH]; [reflexivity|].
  cbn [map]. rewrite !sp_get_abs_cons, IH. unfold upd_row. rewrite <- (key_where r t i).
  destruct (key_eqb (row_tag r, row_id r) (t, i)) eqn:E.
  - apply key_eqb_eq in E. rewrite <- E. cbn [row_tag row_id row_blob fst snd].
    destruct (key_eqb (row_tag r, row_id r) k'); reflexivity.
  - destruct (key_eqb (row_tag r, row_id r) k') eqn:E1; [|reflexivity].
    apply key_eqb_eq in E1. subst k'. apply key_eqb_neq in E.
    destruct (key_eqb (t, i) (row_tag r, row_id r)) eqn:E2; [apply key_eqb_eq in E2; congruence | reflexivity].
Qed.

Lemma upd_ids T t b i : map row_id (map (upd_row i t b) T) = map row_id T.
Proof.
  rewrite map_map. apply map_ext. intros r. unfold upd_row. destruct (where_id_tag i t r); reflexivity.
Qed.

Lemma upd_noop T t b i : filter (where_id_tag i t) T = [] -> map (upd_row i t b) T = T.
Proof.
  induction T as [|r T IH]; simpl; intros H; [reflexivity|].
  unfold upd_row at 1. destruct (where_id_tag i t r) eqn:E; [discriminate|]. rewrite (IH H). reflexivity.
Qed.

(* DELETE ... WHERE id = ? AND tag = ? is the deletion of one key *)
Lemma abs_sq_delete T t i :
  abs_sq (filter (fun r => negb (where_id_tag i t r)) T) = sp_del (t, i) (abs_sq T).
Proof.
  unfold sp_del, dict_del. induction T as [|r T IH]; [reflexivity|].
  cbn [filter abs_sq map]. cbn [fst]. rewrite key_where.
  destruct (where_id_tag i t r); simpl; [exact IH | f_equal; exact IH].
Qed.

Definition id_blob (r : srow) : N * blob := (row_id r, row_blob r).

(* read_all(tag): the ids are pairwise different, so the dict is built by appending *)
Lemma fold_set_fresh R : forall d0, NoDup (map fst d0 ++ map row_id R) ->
  fold_left (fun d r => dict_set N.eqb (row_id r) (row_blob r) d) R d0 = d0 ++ map id_blob R.
Proof.
  induction R as [|r R IH]; intros d0 ND; simpl.
  - rewrite app_nil_r. reflexivity.
  - simpl in ND. assert (Hn : dict_get N.eqb (row_id r) d0 = None).
    { apply (dict_get_none N.eqb N.eqb_eq). intros H. apply NoDup_remove_2 in ND. apply ND.
      apply in_or_app. auto. }
    rewrite (dict_set_absent N.eqb _ _ _ Hn). rewrite IH.
    + rewrite <- app_assoc. reflexivity.
    + rewrite map_app. simpl. rewrite <- app_assoc. exact ND.
Qed.

Lemma tag_rows_get T t i :
  dict_get N.eqb i (map id_blob (filter (where_tag t) T)) = sp_get (abs_sq T) (t, i).
Proof.
  induction T as [|r T IH]; [reflexivity|].
  rewrite sp_get_abs_cons, key_where. unfold where_id_tag. cbn [filter]. unfold where_tag at 1.
  destruct (str_eqb (row_tag r) t); simpl.
  - rewrite andb_true_r. destruct (N.eqb (row_id r) i); [reflexivity | exact IH].
  - rewrite andb_false_r. exact IH.
Qed.

Definition wf_dd (g : ddict) : Prop := is_dict g /\ Forall (fun e => is_dict (snd e)) g.

Lemma wf_dd_nil : wf_dd [].
Proof. split; constructor. Qed.

Lemma wf_dd_forall g : wf_dd g -> forall t d, In (t, d) g -> is_dict d.
Proof. intros [_ H] t d Hin. rewrite Forall_forall in H. apply (H (t, d) Hin). Qed.

Lemma wf_dd_put g t d : wf_dd g -> is_dict d -> wf_dd (dict_set str_eqb t d g).
Proof.
  intros [H1 H2] Hd. split; [apply (is_dict_set str_eqb str_eqb_eq); exact H1 | apply dict_set_forall; assumption].
Qed.

Lemma md_inner_dict t g : wf_dd g -> is_dict (md_inner t g).
Proof.
  intros W. unfold md_inner. destruct (dict_get str_eqb t g) as [d|] eqn:E; [|constructor].
  apply (dict_get_in str_eqb str_eqb_eq _ _ _ (proj1 W)) in E. exact (wf_dd_forall g W t d E).
Qed.

Lemma md_inner_get t g i : dict_get N.eqb i (md_inner t g) = dd_get g t i.
Proof. unfold dd_get, md_inner. destruct (dict_get str_eqb t g); reflexivity. Qed.

Lemma dd_get_put g t d t' i :
  dd_get (dict_set str_eqb t d g) t' i = if str_eqb t t' then dict_get N.eqb i d else dd_get g t' i.
Proof.
  unfold dd_get. rewrite (dict_get_set str_eqb str_eqb_eq). destruct (str_eqb t t'); reflexivity.
Qed.

Lemma dd_get_put_inner g t d i v :
  (forall i', dict_get N.eqb i' d = if N.eqb i i' then v else dict_get N.eqb i' (md_inner t g)) ->
  forall t' i', dd_get (dict_set str_eqb t d g) t' i' = if key_eqb (t, i) (t', i') then v else dd_get g t' i'.
Proof.
  intros H t' i'. rewrite dd_get_put. unfold key_eqb. cbn [fst snd]. destruct (str_eqb t t') eqn:Et.
  - rewrite andb_true_r, H, md_inner_get. apply str_eqb_eq in Et. subst t'. reflexivity.
  - rewrite andb_false_r. reflexivity.
Qed.

Lemma wf_dd_fold R : forall g, wf_dd g -> wf_dd (fold_left grp_add R g).
Proof.
  induction R as [|r R IH]; intros g H; simpl; [exact H|].
  apply IH, wf_dd_put; [exact H|]. apply (is_dict_set N.eqb N.eqb_eq), md_inner_dict, H.
Qed.

Lemma dd_get_grp_add g r t i :
  dd_get (grp_add g r) t i = if key_eqb (row_tag r, row_id r) (t, i) then Some (row_blob r) else dd_get g t i.
Proof. apply dd_get_put_inner. intros i'. apply (dict_get_set N.eqb N.eqb_eq). Qed.

Lemma fold_grp_get R : forall g,
  (forall r, In r R -> dd_get g (row_tag r) (row_id r) = None) -> NoDup (map row_id R) ->
  forall t i, dd_get (fold_left grp_add R g) t i =
              match dd_get g t i with Some b => Some b | None => sp_get (abs_sq R) (t, i) end.
Proof.
  induction R as [|r R IH]; intros g Hg ND t i; cbn [fold_left].
  - destruct (dd_get g t i); reflexivity.
  - inversion ND as [|? ? Hni ND']; subst.
    rewrite IH; [| |exact ND'].
    + rewrite dd_get_grp_add, sp_get_abs_cons.
      destruct (key_eqb (row_tag r, row_id r) (t, i)) eqn:E; [|reflexivity].
      apply key_eqb_eq in E. inversion E; subst. rewrite (Hg r); [reflexivity | left; reflexivity].
    + intros r' Hr'. rewrite dd_get_grp_add.
      destruct (key_eqb (row_tag r, row_id r) (row_tag r', row_id r')) eqn:E; [|apply Hg; right; exact Hr'].
      apply key_eqb_eq in E. inversion E as [[E1 E2]]. destruct Hni. rewrite E2. apply in_map, Hr'.
Qed.

Lemma sq_step_refines T o : wf_sq T -> answers abs_sq wf_sq T o (fst (sq_step T o)) (snd (sq_step T o)).
Proof.
  intros WF. pose proof (sq_get_abs T) as Hg.
  assert (Same : forall o r, sp_ok (abs_sq T) o r (abs_sq T) -> answers abs_sq wf_sq T o r T).
  { intros o' r H. split; [exact WF|]. exists (abs_sq T). split; [exact H | apply sp_equiv_refl]. }
  destruct o as [t b|t b i|t i|t i|[t|]|]; cbn [sq_step fst snd].
  - (* create: the new rowid is above every id in the table *)
    assert (Hn : sp_get (abs_sq T) (t, sq_next T) = None).
    { rewrite Hg, filter_fresh_nil; [reflexivity | apply sq_next_fresh]. }
    split; [unfold wf_sq; rewrite map_app; apply nodup_snoc; [exact WF | apply sq_next_fresh]|].
    exists (sp_set (t, sq_next T) b (abs_sq T)). split; [constructor; exact Hn|].
    unfold sp_set. rewrite (dict_set_absent key_eqb _ _ _ Hn). unfold abs_sq. rewrite map_app. apply sp_equiv_refl.
  - (* update: the PRIMARY KEY leaves at most one row to select *)
    split; [unfold wf_sq; rewrite upd_ids; exact WF|].
    specialize (Hg t i). pose proof (count_le1 T i t WF) as Hc.
    destruct (filter (where_id_tag i t) T) as [|r [|r2 rest]] eqn:Ef; cbn [length] in *.
    + exists (abs_sq T). split; [constructor; exact Hg|]. rewrite (upd_noop _ _ _ _ Ef). apply sp_equiv_refl.
    + exists (sp_set (t, i) b (abs_sq T)). split; [econstructor; exact Hg|].
      intros k'. rewrite upd_get, sp_get_set. destruct (key_eqb (t, i) k') eqn:E.
      * apply key_eqb_eq in E. subst k'. rewrite Hg. reflexivity.
      * destruct (sp_get (abs_sq T) k'); reflexivity.
    + apply le_S_n in Hc. inversion Hc.
  - split; [apply NoDup_map_filter; exact WF|].
    exists (sp_del (t, i) (abs_sq T)). split; [constructor | rewrite abs_sq_delete; apply sp_equiv_refl].
  - apply Same. specialize (Hg t i).
    destruct (filter (where_id_tag i t) T) as [|r rest]; constructor; exact Hg.
  - apply Same.
    assert (ND : NoDup (map row_id (filter (where_tag t) T))) by (apply NoDup_map_filter; exact WF).
    rewrite fold_set_fresh by exact ND. constructor.
    + unfold is_dict. cbn [app]. rewrite map_map. exact ND.
    + intros i. apply tag_rows_get.
  - apply Same.
    assert (W : wf_dd (fold_left grp_add T [])) by apply wf_dd_fold, wf_dd_nil.
    constructor; [exact (proj1 W) | apply wf_dd_forall; exact W|].
    intros t i. rewrite fold_grp_get; [reflexivity | reflexivity | exact WF].
  - apply Same. constructor.
Qed.

Lemma sq_filter_other_tag T o t' (p : srow -> bool) :
  (forall r, p r = true -> row_tag r = t') -> op_tag o <> Some t' ->
  filter p (snd (sq_step T o)) = filter p T.
Proof.
  intros Hp Hne.
  assert (Hf : forall r t, row_tag r = t -> op_tag o = Some t -> p r = false).
  { intros r t Hr Ho. destruct (p r) eqn:E; [|reflexivity]. apply Hp in E. congruence. }
  destruct o as [t b|t b i|t i|t i|ot|]; cbn [sq_step snd]; try reflexivity.
  - rewrite filter_app. cbn [filter]. rewrite (Hf (sq_next T, t, b) t); [apply app_nil_r | |]; reflexivity.
  - apply filter_map_fix. intros r. unfold upd_row. destruct (where_id_tag i t r) eqn:Ew; [right | left; reflexivity].
    apply where_id_tag_true in Ew as [_ Ew]. split; apply (Hf _ t); auto.
  - apply filter_sub. intros r Hr. destruct (where_id_tag i t r) eqn:Ew; [|reflexivity].
    apply where_id_tag_true in Ew as [_ Ew]. rewrite (Hf r t) in Hr; [discriminate | exact Ew | reflexivity].
  - destruct ot; reflexivity.
Qed.

Lemma sq_untouched_run k b ops : forall T, wf_sq T -> Forall (fun o => touches k o = false) ops ->
  sp_get (abs_sq T) k = Some b -> sp_get (abs_sq (snd (run_ops sq_step T ops))) k = Some b.
Proof.
  induction ops as [|o ops IH]; intros T WF HF Hg; [exact Hg|].
  inversion HF; subst. rewrite run_ops_cons. cbn [snd].
  destruct (sq_step_refines T o WF) as [WF1 [s' [Hok He]]].
  apply IH; try assumption. rewrite <- He. eapply sp_ok_untouched; eassumption.
Qed.

Lemma sq_read_live T t i b : sp_get (abs_sq T) (t, i) = Some b -> fst (sq_step T (Read t i)) = RBytes b.
Proof.
  rewrite sq_get_abs. cbn [sq_step fst]. destruct (filter (where_id_tag i t) T); [discriminate | congruence].
Qed.

Definition cursor_above (m : mstate) : Prop :=
  forall t i b, dd_get (m_dict m) t i = Some b -> (i < m_cursor m)%N.
Definition inv_m (m : mstate) : Prop := wf_dd (m_dict m) /\ cursor_above m.
Definition abs_m (m : mstate) : smap := abs_dd (m_dict m).

Lemma sp_get_tag_block t0 (d : list (N * blob)) t i :
  sp_get (map (fun ib => ((t0, fst ib), snd ib)) d) (t, i) = if str_eqb t0 t then dict_get N.eqb i d else None.
Proof.
  unfold sp_get. induction d as [|[i0 b0] d IH]; simpl; [destruct (str_eqb t0 t); reflexivity|].
  unfold key_eqb at 1. simpl. rewrite IH.
  destruct (str_eqb t0 t); [rewrite andb_true_r | rewrite andb_false_r]; reflexivity.
Qed.

Lemma sp_get_app s1 s2 k : sp_get (s1 ++ s2) k = match sp_get s1 k with Some v => Some v | None => sp_get s2 k end.
Proof.
  unfold sp_get. induction s1 as [|[k0 v0] r IH]; simpl; [reflexivity|]. destruct (key_eqb k0 k); [reflexivity | exact IH].
Qed.

Lemma dd_get_cons t0 d0 g t i : dd_get ((t0, d0) :: g) t i = if str_eqb t0 t then dict_get N.eqb i d0 else dd_get g t i.
Proof. unfold dd_get. cbn [dict_get]. destruct (str_eqb t0 t); reflexivity. Qed.

Lemma dd_get_absent g t i : ~ In t (map fst g) -> dd_get g t i = None.
Proof. intros H. apply (dict_get_none str_eqb str_eqb_eq) in H. unfold dd_get. rewrite H. reflexivity. Qed.

Lemma abs_dd_get g t i : is_dict g -> sp_get (abs_dd g) (t, i) = dd_get g t i.
Proof.
  unfold is_dict. induction g as [|[t0 d0] g IH]; intros ND; [reflexivity|].
  inversion ND as [|? ? Hni ND']; subst.
  change (abs_dd ((t0, d0) :: g)) with (map (fun ib => ((t0, fst ib), snd ib)) d0 ++ abs_dd g).
  rewrite sp_get_app, sp_get_tag_block, dd_get_cons, (IH ND').
  destruct (str_eqb t0 t) eqn:E; [|reflexivity].
  destruct (dict_get N.eqb i d0); [reflexivity|].
  apply str_eqb_eq in E. subst t0. apply dd_get_absent. exact Hni.
Qed.

Lemma md_default_set t g :
  md_default t g = match dict_get str_eqb t g with Some _ => g | None => dict_set str_eqb t [] g end.
Proof.
  unfold md_default. destruct (dict_get str_eqb t g) eqn:E; [reflexivity|].
  rewrite (dict_set_absent str_eqb _ _ _ E). reflexivity.
Qed.

Lemma wf_dd_default t g : wf_dd g -> wf_dd (md_default t g).
Proof.
  intros W. rewrite md_default_set. destruct (dict_get str_eqb t g); [exact W|].
  apply wf_dd_put; [exact W | constructor].
Qed.

Lemma md_inner_default t t' g : md_inner t' (md_default t g) = md_inner t' g.
Proof.
  unfold md_inner. rewrite md_default_set. destruct (dict_get str_eqb t g) eqn:E; [reflexivity|].
  rewrite (dict_get_set str_eqb str_eqb_eq). destruct (str_eqb t t') eqn:Et; [|reflexivity].
  apply str_eqb_eq in Et. subst. rewrite E. reflexivity.
Qed.

(* setdefault(tag, {}) is invisible to every lookup *)
Lemma dd_get_default t g t' i : dd_get (md_default t g) t' i = dd_get g t' i.
Proof. rewrite <- !md_inner_get, md_inner_default. reflexivity. Qed.

Lemma dd_get_filter g t i : is_dict g -> dd_get (filter nonempty_inner g) t i = dd_get g t i.
Proof.
  unfold is_dict. induction g as [|[t0 d0] g IH]; intros ND; [reflexivity|].
  inversion ND as [|? ? Hni ND']; subst. cbn [filter]. unfold nonempty_inner at 1. cbn [snd].
  destruct d0 as [|x d0].
  - rewrite (IH ND'), dd_get_cons. destruct (str_eqb t0 t) eqn:E; [|reflexivity].
    apply str_eqb_eq in E. subst t0. apply dd_get_absent. exact Hni.
  - rewrite !dd_get_cons, (IH ND'). reflexivity.
Qed.

Lemma m_sim m o r s' m' : sp_ok (abs_m m) o r s' -> wf_dd (m_dict m') ->
  (forall t i, dd_get (m_dict m') t i = sp_get s' (t, i)) ->
  (forall t i b, sp_get s' (t, i) = Some b -> (i < m_cursor m')%N) ->
  answers abs_m inv_m m o r m'.
Proof.
  intros Hok W Hg Hc. split; [split; [exact W|]|exists s'; split; [exact Hok|]].
  - intros t i b. rewrite Hg. apply Hc.
  - intros [t i]. unfold abs_m. rewrite abs_dd_get by exact (proj1 W). symmetry. apply Hg.
Qed.

(* a method that only did its setdefault: the abstract map is unchanged *)
Lemma m_default m t o r : inv_m m -> sp_ok (abs_m m) o r (abs_m m) ->
  answers abs_m inv_m m o r {| m_dict := md_default t (m_dict m); m_cursor := m_cursor m |}.
Proof.
  intros [W CA] Hok. apply (m_sim m o r (abs_m m)); [exact Hok | ..]; cbn [m_dict m_cursor].
  - apply wf_dd_default, W.
  - intros t' i'. rewrite dd_get_default. symmetry. apply abs_dd_get, W.
  - intros t' i' b'. unfold abs_m. rewrite abs_dd_get by exact (proj1 W). apply CA.
Qed.

(* a method that, after its setdefault, puts [v] under id [i] of its tag (Some b: storage[i] = b, None: del
   storage[i]) while the map does the same under key (t, i); the cursor may move up to [c'] *)
Lemma m_put m t i v c' o r : inv_m m ->
  (m_cursor m <= c')%N -> (v <> None -> (i < c')%N) ->
  sp_ok (abs_m m) o r (match v with Some b => sp_set (t, i) b (abs_m m) | None => sp_del (t, i) (abs_m m) end) ->
  answers abs_m inv_m m o r
    {| m_dict := dict_set str_eqb t
                   (match v with
                    | Some b => dict_set N.eqb i b (md_inner t (md_default t (m_dict m)))
                    | None => dict_del N.eqb i (md_inner t (md_default t (m_dict m)))
                    end) (md_default t (m_dict m));
       m_cursor := c' |}.
Proof.
  intros [W CA] Hc Hi Hok.
  pose proof (wf_dd_default t _ W) as Wg. pose proof (md_inner_dict t _ Wg) as Wi.
  set (s' := match v with Some b => sp_set (t, i) b (abs_m m) | None => sp_del (t, i) (abs_m m) end) in *.
  set (d := match v with Some b => dict_set N.eqb i b _ | None => dict_del N.eqb i _ end).
  assert (Hd : is_dict d) by (destruct v; [apply (is_dict_set N.eqb N.eqb_eq) | apply NoDup_map_filter]; exact Wi).
  assert (Hget : forall i', dict_get N.eqb i' d =
                            if N.eqb i i' then v else dict_get N.eqb i' (md_inner t (md_default t (m_dict m)))).
  { intros i'. destruct v; [apply (dict_get_set N.eqb N.eqb_eq) | apply (dict_get_del N.eqb N.eqb_eq)]. }
  assert (G : forall t' i', sp_get s' (t', i') = if key_eqb (t, i) (t', i') then v else dd_get (m_dict m) t' i').
  { intros t' i'. unfold s', abs_m. destruct v; [rewrite sp_get_set | rewrite sp_get_del];
      rewrite abs_dd_get by exact (proj1 W); reflexivity. }
  apply (m_sim m o r s'); [exact Hok | ..]; cbn [m_dict m_cursor].
  - apply wf_dd_put; [exact Wg | exact Hd].
  - intros t' i'. rewrite G, (dd_get_put_inner _ _ _ _ _ Hget), dd_get_default. reflexivity.
  - intros t' i' b'. rewrite G. destruct (key_eqb (t, i) (t', i')) eqn:E.
    + apply key_eqb_eq in E. inversion E; subst. intros Hv. apply Hi. congruence.
    + intros H. eapply N.lt_le_trans; [apply (CA _ _ _ H) | exact Hc].
Qed.

Lemma m_step_refines m o : inv_m m -> o <> Reopen ->
  answers abs_m inv_m m o (unraise o (fst (m_step m o))) (snd (m_step m o)).
Proof.
  intros HI Hno. pose proof HI as [W CA].
  assert (G : forall t i, sp_get (abs_m m) (t, i) = dd_get (m_dict m) t i) by (intros; apply abs_dd_get, W).
  assert (GI : forall t i, dict_get N.eqb i (md_inner t (md_default t (m_dict m))) = sp_get (abs_m m) (t, i)).
  { intros t i. rewrite md_inner_get, dd_get_default, G. reflexivity. }
  destruct o as [t b|t b i|t i|t i|[t|]|]; [| | | | | |congruence]; cbn [m_step].
  - (* create: the cursor is above every live id *)
    apply (m_put m t (m_cursor m) (Some b)); [exact HI | apply N.le_succ_diag_r | intros _; apply N.lt_succ_diag_r |].
    constructor. rewrite G. destruct (dd_get (m_dict m) t (m_cursor m)) eqn:E; [|reflexivity].
    apply CA in E. destruct (N.lt_irrefl _ E).
  - rewrite GI. destruct (sp_get (abs_m m) (t, i)) as [b0|] eqn:E; cbn [fst snd unraise].
    + apply (m_put m t i (Some b));
        [exact HI | apply N.le_refl | intros _; rewrite G in E; apply (CA _ _ _ E) | econstructor; exact E].
    + apply m_default; [exact HI|]. constructor. exact E.
  - apply (m_put m t i None); [exact HI | apply N.le_refl | congruence | constructor].
  - (* read: a missing id raises, which [unraise] reads as None *)
    rewrite GI. cbn [fst snd]. apply m_default; [exact HI|].
    destruct (sp_get (abs_m m) (t, i)) eqn:E; constructor; exact E.
  - apply m_default; [exact HI|].
    constructor; [apply md_inner_dict, wf_dd_default, W | intros i; apply GI].
  - (* read_all(): tags whose dict is empty are left out *)
    cbn [fst snd unraise]. split; [exact HI|].
    exists (abs_m m). split; [|apply sp_equiv_refl].
    constructor.
    + apply NoDup_map_filter, W.
    + intros t d Hin. apply filter_In in Hin as [Hin _]. apply (wf_dd_forall _ W t d Hin).
    + intros t i. rewrite dd_get_filter by apply W. symmetry. apply G.
Qed.

Lemma md_inner_put t t' d g : t <> t' -> md_inner t' (dict_set str_eqb t d g) = md_inner t' g.
Proof.
  intros Hne. unfold md_inner. rewrite (dict_get_set str_eqb str_eqb_eq).
  destruct (str_eqb t t') eqn:Et; [apply str_eqb_eq in Et; contradiction | reflexivity].
Qed.

Lemma sq_ids_run ops : forall T, Forall (fun o => is_delete o = false) ops ->
  map row_id (snd (run_ops sq_step T ops)) = map row_id T ++ created_ids ops (fst (run_ops sq_step T ops)).
Proof.
  induction ops as [|o ops IH]; intros T HF; [symmetry; apply app_nil_r|].
  inversion HF as [|? ? Ho Hr]; subst. rewrite run_ops_cons. cbn [fst snd]. rewrite (IH _ Hr).
  destruct o as [t b|t b i|t i|t i|[t|]|]; try discriminate; cbn [sq_step fst snd created_ids]; try reflexivity.
  - rewrite map_app, <- app_assoc. reflexivity.
  - rewrite upd_ids. reflexivity.
Qed.

Lemma sq_created_nodup ops T : wf_sq (snd (run_ops sq_step T ops)) ->
  Forall (fun o => is_delete o = false) ops -> NoDup (created_ids ops (fst (run_ops sq_step T ops))).
Proof. unfold wf_sq. intros WF HF. rewrite (sq_ids_run _ _ HF) in WF. apply (NoDup_app_r _ _ WF). Qed.

Lemma interleaving_perm {X} (ps : list (list X)) l : interleaving ps l -> Permutation (concat ps) l.
Proof.
  induction 1 as [ps HF|ps1 a p ps2 l _ IH].
  - induction HF as [|p ps Hp _ IH]; simpl; [constructor | subst p; exact IH].
  - rewrite concat_app in *. simpl in *.
    apply Permutation_sym. apply Permutation_cons_app. apply Permutation_sym. exact IH.
Qed.
