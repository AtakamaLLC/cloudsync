(* AlgoProofs.v — a user step issues no engine call (no invariant needed), and two recorded runs: the witness of the refuted
   full-strength statement ([aba_actions], finding A-1) and the same history with a fresh last content ([conv_actions], the
   non-vacuity examples of PropAlgo.v). *)
From Coq Require Import NArith List Bool Arith Lia.
From CS Require Import Sx Str PathModel StateModel ProvModel AlgoModel AlgoCheck.
Import ListNotations.
Local Open Scope N_scope.

Lemma user_step_no_engine_call w sd o :
  exists w', algo_step w (AUser sd o) = ROk (w', []) /\ w_st w' = w_st w /\ prov_of w' (negb sd) = prov_of w (negb sd).
Proof.
  eexists; split; [reflexivity|]. unfold user_op, with_prov. destruct sd; simpl; auto.
Qed.

(* Finding A-1, a content written twice.  Without the side condition "a content written to a file is new for that file" the engine does not converge:
   the run below (recorded from the real engine, corpus/ALGO/f1-aba-stale-hash-diverges.json; the clock readings are
   the real ones) ends quiescent with content 2 in LOCAL /f and content 3 in REMOTE /f.  One-sided history of 4
   user operations: create g:=1, create f:=2, write f:=3, write f:=2. *)
Definition aba_t0 : N := 1016000.
Definition aba_lg0 : N := 1013000.
Definition aba_actions : list action :=
  [AUser false (UCreate [[103]] 1);
   AUser false (UCreate [[102]] 2);
   AIntake false 1025000;
   ASync [2%nat; 3%nat] 1029000;
   AUser false (UWrite [[102]] 3);
   ASync [3%nat] 1037000;
   AUser false (UWrite [[102]] 2);
   AIntake false 1045000;
   AIntake true 1049000;
   ASync [2%nat; 3%nat] 1053000;
   AIntake false 1054000;
   AIntake true 1054000;
   ASync [3%nat] 1054000;
   AIntake false 1055000;
   AIntake true 1055000;
   ASync [] 1055000;
   AIntake false 1055000;
   AIntake true 1055000;
   ASync [] 1055000].

(* the same history with a fresh last content (4 instead of 2) is in the domain and converges: the hypotheses of the
   run-level theorems are satisfiable by a run in which the engine creates, uploads and goes quiet *)
Definition conv_actions : list action :=
  [AUser false (UCreate [[103]] 1);
   AUser false (UCreate [[102]] 2);
   AIntake false 1025000;
   ASync [2%nat; 3%nat] 1029000;
   AUser false (UWrite [[102]] 3);
   ASync [3%nat] 1037000;
   AUser false (UWrite [[102]] 4);
   AIntake false 1045000;
   AIntake true 1049000;
   ASync [2%nat; 3%nat] 1053000;
   AIntake false 1054000;
   AIntake true 1054000;
   ASync [3%nat] 1054000;
   AIntake false 1058000;
   AIntake true 1058000;
   ASync [3%nat] 1060000;
   AIntake false 1061000;
   AIntake true 1061000;
   ASync [] 1061000;
   AIntake false 1061000;
   AIntake true 1061000;
   ASync [] 1061000].

