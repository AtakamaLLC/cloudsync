(* TreeSem.v — the effect of [apply_op] as a transformer of lookup functions.  An operation is refused (the tree
   stays as it is) or accepted ([accepts]); an accepted one amounts to ONE primitive edit ([edit_for]: put a node,
   delete a path, move a subtree) with preconditions [edit_ok].  About the three edits: unique keys and closedness are
   preserved; frame (nothing changes outside the paths at or below the ones named); locality (what happens there
   depends only on the lookups there, acceptance also on the parents; stated up to a shift by a root prefix, which also
   gives the view / apply_op commutation). *)
From Coq Require Import NArith List Bool.
From CS Require Import Sx TreeModel TreePaths TreeLookup.
Import ListNotations.

(* [is_dir t], [parent_ok t], [closed t] of the tree level are [dirL (lookup t)], [pokL (lookup t)],
   [closedL (lookup t)] by conversion; the proofs below pass from one to the other without a step *)
Definition lk := path -> option node.

Definition dirL (L : lk) (p : path) : bool :=
  match p with [] => true | _ => match L p with Some Dir => true | _ => false end end.
Definition pokL (L : lk) (p : path) : bool :=
  match p with [] => false | _ => dirL L (parent p) end.
Definition setL (L : lk) (p : path) (n : node) : lk :=
  fun r => if path_eqb p r then Some n else L r.
Definition removeL (L : lk) (p : path) : lk :=
  fun r => if path_eqb p r then None else L r.
Definition moveL (L : lk) (p q : path) : lk :=
  fun r => if is_prefix q r then L (p ++ skipn (length q) r)
           else if is_prefix p r then None else L r.

Inductive edit := Put (p : path) (n : node) | Del (p : path) | Mv (p q : path).

Definition edit_for (o : op) : edit :=
  match o with
  | Create p c | Write p c => Put p (File c)
  | Mkdir p => Put p Dir
  | Delete p => Del p
  | Rename p q => Mv p q
  end.

Definition paths (e : edit) : list path :=
  match e with Put p _ | Del p => [p] | Mv p q => [p; q] end.

(* a move first clears the target: an accepted rename may replace an empty folder *)
Definition run_editL (L : lk) (e : edit) : lk :=
  match e with
  | Put p n => setL L p n
  | Del p => removeL L p
  | Mv p q => moveL (removeL L q) p q
  end.
Definition run_edit (t : tree) (e : edit) : tree :=
  match e with
  | Put p n => set t p n
  | Del p => remove t p
  | Mv p q => move (remove t q) p q
  end.

(* the guards of [apply_op]; on a tree, [accepts (lookup t) (has_children t)] *)
Definition accepts (L : lk) (hc : path -> bool) (o : op) : bool :=
  match o with
  | Create p _ | Mkdir p => match L p with None => pokL L p | Some _ => false end
  | Write p _ => match L p with Some (File _) => true | _ => false end
  | Delete p =>
    match L p with
    | Some (File _) => true
    | Some Dir => negb (hc p)
    | None => false
    end
  | Rename p q =>
    match L p with
    | None => false
    | Some n =>
      negb (path_eqb p q) && negb (is_prefix p q) && pokL L q &&
      match L q with
      | None => true
      | Some n' => same_kind n n' && match n' with Dir => negb (hc q) | File _ => false end
      end
    end
  end.

Definition sem (L : lk) (hc : path -> bool) (o : op) : lk :=
  if accepts L hc o then run_editL L (edit_for o) else L.

Lemma paths_edit_for o : paths (edit_for o) = touched o.
Proof. destruct o; reflexivity. Qed.

Lemma remove_absent t q : lookup t q = None -> remove t q = t.
Proof.
  unfold remove. induction t as [|[k n] t IH]; cbn; [reflexivity|].
  destruct (path_eqb k q); [discriminate|]. intros H. cbn. f_equal. exact (IH H).
Qed.

Lemma apply_op_run_edit t o :
  apply_op t o = if accepts (lookup t) (has_children t) o then run_edit t (edit_for o) else t.
Proof.
  destruct o as [p c|p c|p|p q|p]; cbn [apply_op accepts edit_for run_edit];
    change (pokL (lookup t)) with (parent_ok t).
  - destruct (lookup t p); [|destruct (parent_ok t p)]; reflexivity.
  - destruct (lookup t p) as [[|c0]|]; reflexivity.
  - destruct (parent_ok t p), (lookup t p); reflexivity.
  - destruct (lookup t p) as [n|]; [|reflexivity].
    destruct (path_eqb p q), (is_prefix p q), (parent_ok t q); try reflexivity. cbn [negb andb].
    destruct (lookup t q) as [n'|] eqn:Eq; [|rewrite (remove_absent t q Eq); reflexivity].
    destruct (same_kind n n'), n'; try reflexivity. destruct (has_children t q); reflexivity.
  - destruct (lookup t p) as [[|c]|]; [destruct (has_children t p)| |]; reflexivity.
Qed.

Definition closedL (L : lk) : Prop :=
  forall k, L k <> None -> k <> [] /\ dirL L (parent k) = true.

Lemma dirL_nonnil (L : lk) p :
  p <> [] -> dirL L p = match L p with Some Dir => true | _ => false end.
Proof. intros H. destruct p; [congruence|reflexivity]. Qed.

Lemma pokL_nonnil (L : lk) p : p <> [] -> pokL L p = dirL L (parent p).
Proof. intros H. destruct p; [congruence|reflexivity]. Qed.

Lemma pokL_true_nonnil (L : lk) p : pokL L p = true -> p <> [].
Proof. destruct p; discriminate. Qed.

Lemma dirL_true (L : lk) p : p <> [] -> dirL L p = true -> L p = Some Dir.
Proof.
  intros Hp H. rewrite dirL_nonnil in H by exact Hp.
  destruct (L p) as [[|c]|]; try discriminate. reflexivity.
Qed.

Lemma dirL_transfer (L L' : lk) x y :
  x <> [] -> y <> [] -> L' x = L y -> dirL L' x = dirL L y.
Proof. intros Hx Hy H. rewrite !dirL_nonnil by assumption. rewrite H. reflexivity. Qed.

Lemma dirL_same (L L' : lk) x : L' x = L x -> dirL L' x = dirL L x.
Proof. intros H. destruct x; [reflexivity|]. apply dirL_transfer; try discriminate. exact H. Qed.

Lemma closedL_ext (L L' : lk) : (forall r, L r = L' r) -> closedL L -> closedL L'.
Proof.
  intros He Hc k Hk. rewrite <- He in Hk. destruct (Hc k Hk) as [H1 H2]. split; [exact H1|].
  rewrite <- H2. apply dirL_same. symmetry. apply He.
Qed.

Lemma closedL_root (L : lk) : closedL L -> L [] = None.
Proof.
  intros Hc. destruct (L []) eqn:E; [|reflexivity].
  destruct (Hc []) as [H _]; congruence.
Qed.

Lemma closedL_ancestor (L : lk) p s :
  closedL L -> p <> [] -> s <> [] -> L (p ++ s) <> None -> L p = Some Dir.
Proof.
  intros Hc Hp. induction s as [|x s IH] using rev_ind; intros Hs Hl; [congruence|].
  destruct (Hc _ Hl) as [_ Hd]. rewrite app_assoc, parent_last in Hd.
  destruct s as [|y s].
  - rewrite app_nil_r in Hd. apply dirL_true; assumption.
  - apply IH; [discriminate|].
    apply dirL_true in Hd; [congruence|]. apply app_nonnil_l. exact Hp.
Qed.

Definition clear_below (L : lk) (p : path) : Prop := forall s, s <> [] -> L (p ++ s) = None.

Lemma closedL_clear (L : lk) p : closedL L -> p <> [] -> L p <> Some Dir -> clear_below L p.
Proof.
  intros Hc Hp Hnd s Hs. destruct (L (p ++ s)) eqn:E; [|reflexivity].
  destruct Hnd. apply closedL_ancestor with (s := s); try assumption; congruence.
Qed.

Lemma closedL_pok (L : lk) k : closedL L -> L k <> None -> pokL L k = true.
Proof. intros Hc Hk. destruct (Hc k Hk) as [H1 H2]. rewrite pokL_nonnil by exact H1. exact H2. Qed.

Definition hc_sound (L : lk) (hc : path -> bool) : Prop := forall p, hc p = false -> clear_below L p.

Lemma has_children_sound t : hc_sound (lookup t) (has_children t).
Proof. intros p H s Hs. apply has_children_false; assumption. Qed.

Definition edit_ok (L : lk) (e : edit) : Prop :=
  match e with
  | Put p _ => pokL L p = true /\ L p <> Some Dir
  | Del p => L p <> None /\ clear_below L p
  | Mv p q => L p <> None /\ ~ pre p q /\ pokL L q = true /\ clear_below L q
  end.

Lemma accepts_ok (L : lk) hc o :
  closedL L -> hc_sound L hc -> accepts L hc o = true -> edit_ok L (edit_for o).
Proof.
  intros Hc Hh. destruct o as [p c|p c|p|p q|p]; cbn [accepts edit_for edit_ok].
  1,3: destruct (L p) eqn:Ep; [discriminate|]; intros Hpok; split; [exact Hpok|congruence].
  - destruct (L p) as [[|c0]|] eqn:Ep; try discriminate. intros _.
    split; [apply closedL_pok; [exact Hc|]|]; congruence.
  - destruct (L p) as [n|] eqn:Ep; [|discriminate].
    rewrite !andb_true_iff, !negb_true_iff, is_prefix_false_iff. intros [[[_ Hpq] Hpok] Hq].
    repeat split; [congruence|exact Hpq|exact Hpok|].
    destruct (L q) as [[|c']|] eqn:Eq.
    + apply Hh, negb_true_iff. apply andb_true_iff in Hq. tauto.
    + apply andb_true_iff in Hq as [_ Hq]. discriminate.
    + apply closedL_clear; [exact Hc|exact (pokL_true_nonnil _ _ Hpok)|congruence].
  - destruct (L p) as [[|c]|] eqn:Ep; try discriminate; intros H; (split; [congruence|]).
    + apply Hh, negb_true_iff, H.
    + apply closedL_clear; [exact Hc| |congruence]. intros ->. rewrite (closedL_root L Hc) in Ep. discriminate.
Qed.

Lemma removeL_clear (L : lk) q : clear_below L q -> vacant (removeL L q) q.
Proof.
  intros Hq k [s ->]. unfold removeL. destruct (path_eqb q (q ++ s)) eqn:E; [reflexivity|].
  apply Hq. intros ->. rewrite app_nil_r, path_eqb_refl in E. discriminate.
Qed.

Lemma remove_vacant t q : clear_below (lookup t) q -> vacant (lookup (remove t q)) q.
Proof. intros Hq k Hk. rewrite lookup_remove. exact (removeL_clear _ q Hq k Hk). Qed.

Lemma mv_ok_not_into (L : lk) p q : edit_ok L (Mv p q) -> ~ pre p q.
Proof. intros H. apply H. Qed.
Lemma mv_ok_clear (L : lk) p q : edit_ok L (Mv p q) -> clear_below L q.
Proof. intros H. apply H. Qed.

Lemma mv_ok_target_not_above (L : lk) p q : edit_ok L (Mv p q) -> ~ pre q p.
Proof.
  intros (Hp & Hpq & _ & Hq) Hqp. pose proof (removeL_clear L q Hq p Hqp) as H. unfold removeL in H.
  destruct (path_eqb q p) eqn:E; [|congruence].
  apply path_eqb_eq in E. subst q. apply Hpq, pre_refl.
Qed.

(* nothing is stored at the root path and it has no parent: an operation that names it is refused *)
Lemma accepts_root (L : lk) hc o : closedL L -> In [] (touched o) -> accepts L hc o = false.
Proof.
  intros Hc. pose proof (closedL_root L Hc) as H0.
  destruct o as [p c|p c|p|p q|p]; cbn [touched In accepts].
  1-3,5: intros [->|[]]; rewrite H0; reflexivity.
  intros [->|[->|[]]]; [rewrite H0; reflexivity|].
  destruct (L p); [|reflexivity]. cbn [pokL]. rewrite andb_false_r. reflexivity.
Qed.

Lemma lookup_run_edit t e r : edit_ok (lookup t) e -> lookup (run_edit t e) r = run_editL (lookup t) e r.
Proof.
  destruct e as [p n|p|p q]; cbn [run_edit run_editL edit_ok]; [intros _; apply lookup_set|intros _; apply lookup_remove|].
  intros H. rewrite lookup_move by exact (remove_vacant t q (mv_ok_clear _ p q H)).
  unfold moveL, removeL. rewrite !lookup_remove. reflexivity.
Qed.

Lemma nodup_run_edit t e : edit_ok (lookup t) e -> NoDup (map fst t) -> NoDup (map fst (run_edit t e)).
Proof.
  destruct e as [p n|p|p q]; cbn [run_edit edit_ok]; intros H Hn; [apply nodup_set|apply nodup_remove|]; try exact Hn.
  apply nodup_move; [exact (remove_vacant t q (mv_ok_clear _ p q H))|apply nodup_remove; exact Hn].
Qed.

Lemma apply_op_sem t o r :
  closed t -> lookup (apply_op t o) r = sem (lookup t) (has_children t) o r.
Proof.
  intros Hc. rewrite apply_op_run_edit. unfold sem. destruct (accepts _ _ o) eqn:E; [|reflexivity].
  apply lookup_run_edit. exact (accepts_ok _ _ o Hc (has_children_sound t) E).
Qed.

Lemma dirL_set_other (L : lk) p n x : x <> p -> dirL (setL L p n) x = dirL L x.
Proof.
  intros H. apply dirL_same. unfold setL. rewrite path_eqb_false by congruence. reflexivity.
Qed.

Lemma dirL_remove_other (L : lk) p x : x <> p -> dirL (removeL L p) x = dirL L x.
Proof.
  intros H. apply dirL_same. unfold removeL. rewrite path_eqb_false by congruence. reflexivity.
Qed.

Lemma closedL_set (L : lk) p n :
  closedL L -> pokL L p = true -> L p <> Some Dir -> closedL (setL L p n).
Proof.
  intros Hc Hpok Hnd k Hk. pose proof (pokL_true_nonnil _ _ Hpok) as Hp.
  unfold setL in Hk. destruct (path_eqb p k) eqn:E.
  - apply path_eqb_eq in E. subst k. split; [exact Hp|].
    rewrite dirL_set_other by (apply parent_neq; exact Hp).
    rewrite <- pokL_nonnil by exact Hp. exact Hpok.
  - apply path_eqb_neq in E. destruct (Hc k Hk) as [H1 H2]. split; [exact H1|].
    rewrite dirL_set_other; [exact H2|].
    intros Heq. rewrite Heq in H2. apply dirL_true in H2; [congruence|exact Hp].
Qed.

Lemma closedL_remove (L : lk) p :
  closedL L -> clear_below L p -> closedL (removeL L p).
Proof.
  intros Hc Hch k Hk. unfold removeL in Hk. destruct (path_eqb p k) eqn:E; [congruence|].
  destruct (Hc k Hk) as [H1 H2]. split; [exact H1|].
  rewrite dirL_remove_other; [exact H2|].
  intros Heq. destruct (parent_split k H1) as [x Hx]. rewrite Heq in Hx.
  apply Hk. rewrite Hx. apply Hch. discriminate.
Qed.

Lemma moveL_below (L : lk) p q s : moveL L p q (q ++ s) = L (p ++ s).
Proof. unfold moveL. rewrite is_prefix_app, skipn_len_app. reflexivity. Qed.

Lemma moveL_other (L : lk) p q r : ~ pre q r -> ~ pre p r -> moveL L p q r = L r.
Proof. rewrite <- !is_prefix_false_iff. intros Hq Hp. unfold moveL. rewrite Hq, Hp. reflexivity. Qed.

Lemma closedL_move (L : lk) p q :
  closedL L -> L p <> None -> ~ pre p q -> pokL L q = true ->
  vacant L q -> closedL (moveL L p q).
Proof.
  intros Hc Hp Hpq Hpok Hclear k Hk.
  pose proof (pokL_true_nonnil _ _ Hpok) as Hq. destruct (Hc p Hp) as [Hpn _].
  destruct (is_prefix q k) eqn:Eqk.
  - apply is_prefix_iff in Eqk as [s ->]. rewrite moveL_below in Hk.
    split; [apply app_nonnil_l; exact Hq|]. destruct s as [|x s].
    + rewrite app_nil_r, <- Hpok, pokL_nonnil by exact Hq. apply dirL_same, moveL_other.
      * intros H. apply (parent_neq q Hq), pre_antisym; [apply pre_parent|exact H].
      * intros H. apply Hpq. eapply pre_trans; [exact H|apply pre_parent].
    + destruct (Hc _ Hk) as [_ Hd]. rewrite parent_app in * by discriminate.
      rewrite <- Hd. apply dirL_transfer, moveL_below; apply app_nonnil_l; assumption.
  - assert (Epk : ~ pre p k).
    { intros H. apply Hk. unfold moveL. apply is_prefix_iff in H. rewrite Eqk, H. reflexivity. }
    apply is_prefix_false_iff in Eqk. rewrite moveL_other in Hk by assumption.
    destruct (Hc k Hk) as [H1 H2]. split; [exact H1|].
    rewrite <- H2. apply dirL_same, moveL_other.
    + intros H. pose proof (Hclear _ H) as Hn. destruct (parent k); [apply pre_nil_r in H; congruence|].
      apply dirL_true in H2; [congruence|discriminate].
    + intros H. apply Epk. eapply pre_trans; [exact H|apply pre_parent].
Qed.

Lemma closedL_run_edit (L : lk) e : closedL L -> edit_ok L e -> closedL (run_editL L e).
Proof.
  intros Hc. destruct e as [p n|p|p q]; cbn [edit_ok run_editL].
  - intros [Hpok Hnd]. apply closedL_set; assumption.
  - intros [_ Hcl]. apply closedL_remove; assumption.
  - intros (Hp & Hpq & Hpok & Hq). pose proof (pokL_true_nonnil _ _ Hpok) as Hqn.
    apply closedL_move.
    + apply closedL_remove; assumption.
    + unfold removeL. rewrite path_eqb_false; [exact Hp|]. intros ->. apply Hpq, pre_refl.
    + exact Hpq.
    + rewrite pokL_nonnil in * by exact Hqn. rewrite dirL_remove_other by (apply parent_neq; exact Hqn). exact Hpok.
    + apply removeL_clear. exact Hq.
Qed.

Lemma closed_apply_op t o : closed t -> closed (apply_op t o).
Proof.
  intros Hc. apply closedL_ext with (L := sem (lookup t) (has_children t) o).
  - intros r. symmetry. apply apply_op_sem. exact Hc.
  - unfold sem. destruct (accepts _ _ o) eqn:E; [|exact Hc].
    apply closedL_run_edit; [exact Hc|]. exact (accepts_ok _ _ o Hc (has_children_sound t) E).
Qed.

Theorem wf_apply_op t o : wf t -> wf (apply_op t o).
Proof.
  intros [Hn Hc]. split; [|apply closed_apply_op; exact Hc].
  rewrite apply_op_run_edit. destruct (accepts _ _ o) eqn:E; [|exact Hn].
  apply nodup_run_edit; [|exact Hn]. exact (accepts_ok _ _ o Hc (has_children_sound t) E).
Qed.

Lemma wf_apply_ops os : forall t, wf t -> wf (apply_ops t os).
Proof. apply fold_left_invariant. intros t o _. apply wf_apply_op. Qed.

(* r is at or below a path that o touches: the only places o can change *)
Definition domb (o : op) (r : path) : bool := existsb (fun x => is_prefix x r) (touched o).

Lemma domb_iff o r : domb o r = true <-> exists x, In x (touched o) /\ pre x r.
Proof.
  unfold domb. rewrite existsb_exists. split; intros [x [H1 H2]]; exists x; split; try assumption;
    apply is_prefix_iff; exact H2.
Qed.

Lemma domb_false o r x : domb o r = false -> In x (touched o) -> ~ pre x r.
Proof.
  intros H Hin Hpre. assert (Ht : domb o r = true) by (apply domb_iff; exists x; tauto). congruence.
Qed.

(* [domb o] is [belowb (touched o)] *)
Definition belowb (xs : list path) (r : path) : bool := existsb (fun x => is_prefix x r) xs.

Lemma domb_edit o r : domb o r = belowb (paths (edit_for o)) r.
Proof. rewrite paths_edit_for. reflexivity. Qed.

Lemma run_editL_frame (L : lk) e r : belowb (paths e) r = false -> run_editL L e r = L r.
Proof.
  destruct e as [p n|p|p q]; cbn [belowb paths existsb run_editL]; rewrite ?orb_false_r.
  1,2: intros H; unfold setL, removeL; rewrite (prefix_false_eqb _ _ H); reflexivity.
  rewrite orb_false_iff. intros [Hp Hq]. unfold moveL, removeL.
  rewrite Hq, Hp, (prefix_false_eqb _ _ Hq). reflexivity.
Qed.

Lemma apply_op_frame t o r : closed t -> domb o r = false -> lookup (apply_op t o) r = lookup t r.
Proof.
  intros Hc H. rewrite apply_op_sem by exact Hc. unfold sem. rewrite domb_edit in H.
  destruct (accepts _ _ o); [apply run_editL_frame; exact H|reflexivity].
Qed.

Definition shift_op (root : path) (o : op) : op :=
  match o with
  | Create p c => Create (root ++ p) c
  | Write p c => Write (root ++ p) c
  | Mkdir p => Mkdir (root ++ p)
  | Rename p q => Rename (root ++ p) (root ++ q)
  | Delete p => Delete (root ++ p)
  end.

Lemma shift_op_nil o : shift_op [] o = o.
Proof. destruct o; reflexivity. Qed.

Lemma touched_shift root o : touched (shift_op root o) = map (app root) (touched o).
Proof. destruct o; reflexivity. Qed.

Lemma domb_shift root o r : domb (shift_op root o) (root ++ r) = domb o r.
Proof.
  unfold domb. rewrite touched_shift. induction (touched o) as [|x l IH]; simpl; [reflexivity|].
  rewrite is_prefix_app_cancel, IH. reflexivity.
Qed.

Definition shift_edit (root : path) (e : edit) : edit :=
  match e with
  | Put p n => Put (root ++ p) n
  | Del p => Del (root ++ p)
  | Mv p q => Mv (root ++ p) (root ++ q)
  end.

Lemma edit_for_shift root o : edit_for (shift_op root o) = shift_edit root (edit_for o).
Proof. destruct o; reflexivity. Qed.

Section Shift.
  Variables (root : path) (L L' : lk) (hc hc' : path -> bool).
  Hypothesis Hroot : dirL L root = true.

  (* the small world L' agrees with the big world L (shifted by root) around a touched path x *)
  Definition agree_at (x : path) : Prop :=
    x <> [] /\
    (forall s, L' (x ++ s) = L (root ++ x ++ s)) /\
    (parent x <> [] -> L' (parent x) = L (root ++ parent x)) /\
    hc' x = hc (root ++ x).

  Lemma agree_self x : agree_at x -> L' x = L (root ++ x).
  Proof. intros (_ & H & _). specialize (H []). rewrite !app_nil_r in H. exact H. Qed.

  Lemma agree_parent_ok x : agree_at x -> pokL L' x = pokL L (root ++ x).
  Proof.
    intros (Hx & _ & Hpar & _).
    rewrite !pokL_nonnil by (try apply app_nonnil_r; exact Hx).
    rewrite parent_app by exact Hx.
    destruct (parent x) as [|y u] eqn:Eu.
    - rewrite app_nil_r, Hroot. reflexivity.
    - apply dirL_transfer; [discriminate|apply app_nonnil_r; discriminate|].
      apply Hpar. discriminate.
  Qed.

  Lemma agree_below ro r :
    (forall x, In x (touched ro) -> agree_at x) -> domb ro r = true -> L' r = L (root ++ r).
  Proof.
    intros Hag Hd. apply domb_iff in Hd as [x [Hin [s Hs]]]. subst r.
    destruct (Hag x Hin) as (_ & H & _). apply H.
  Qed.

  Lemma accepts_shift ro :
    (forall x, In x (touched ro) -> agree_at x) -> accepts L' hc' ro = accepts L hc (shift_op root ro).
  Proof.
    intros Hag. destruct ro as [p c|p c|p|p q|p]; cbn [accepts shift_op];
      pose proof (Hag p (or_introl eq_refl)) as Hp; pose proof Hp as (_ & _ & _ & Hph);
      rewrite (agree_self p Hp), ?(agree_parent_ok p Hp), ?Hph; try reflexivity.
    pose proof (Hag q (or_intror (or_introl eq_refl))) as Hq. pose proof Hq as (_ & _ & _ & Hqh).
    rewrite (agree_self q Hq), (agree_parent_ok q Hq), Hqh, path_eqb_app_cancel, is_prefix_app_cancel. reflexivity.
  Qed.

  Lemma run_editL_shift e r :
    (forall x s, In x (paths e) -> L' (x ++ s) = L (root ++ x ++ s)) ->
    belowb (paths e) r = true ->
    run_editL L' e r = run_editL L (shift_edit root e) (root ++ r).
  Proof.
    intros Hag Hd.
    assert (Hr : L' r = L (root ++ r)).
    { apply existsb_exists in Hd as (x & Hx & Hxr). apply is_prefix_iff in Hxr as [s ->]. apply Hag, Hx. }
    destruct e as [p n|p|p q]; cbn [run_editL shift_edit]; unfold setL, removeL.
    1,2: rewrite path_eqb_app_cancel, Hr; reflexivity.
    unfold moveL. rewrite !is_prefix_app_cancel. destruct (is_prefix q r) eqn:E1.
    - apply is_prefix_iff in E1 as [s ->].
      rewrite (app_assoc root q s), !skipn_len_app, <- !app_assoc, path_eqb_app_cancel, (Hag p s (or_introl eq_refl)).
      reflexivity.
    - cbn [belowb paths existsb] in Hd. rewrite E1, !orb_false_r in Hd. rewrite Hd. reflexivity.
  Qed.

  Lemma sem_shift ro r :
    (forall x, In x (touched ro) -> agree_at x) -> domb ro r = true ->
    sem L' hc' ro r = sem L hc (shift_op root ro) (root ++ r).
  Proof.
    intros Hag Hd. unfold sem. rewrite (accepts_shift ro Hag).
    destruct (accepts L hc (shift_op root ro)); [|exact (agree_below ro r Hag Hd)].
    rewrite domb_edit in Hd. rewrite <- paths_edit_for in Hag. rewrite edit_for_shift.
    apply run_editL_shift; [|exact Hd]. intros x s Hx. destruct (Hag x Hx) as (_ & H & _). apply H.
  Qed.
End Shift.
