(* AlgoState.v — what the StateModel setters do, in the form the algorithm-layer proofs use: ONE entry of the table is
   replaced by an explicit value, the change set changes at that entry only, IdxJ is kept ([eff]; [effc] when the clock
   and the last stamp move).  From [Section NonLegacy] on update_entry / update are taken for id-style providers;
   [prio_only]: what SyncState.finished does to the OTHER entries (punted related entries get their priority back). *)
From Coq Require Import NArith List Bool Arith Lia.
From CS Require Import Sx Str PathModel StateModel StateProofs StatePathProofs.
Import ListNotations.

Lemma idx_unique_ent s sd o e1 e2 en1 en2 : IdxJ s ->
  nth_error (ents s) e1 = Some en1 -> s_oid (gs en1 sd) = Some o ->
  nth_error (ents s) e2 = Some en2 -> s_oid (gs en2 sd) = Some o -> e1 = e2.
Proof.
  intros [Hf _] H1 O1 H2 O2. apply (idx_found_unique s Hf e1 e2 sd o); unfold oid_of; [rewrite H1|rewrite H2]; assumption.
Qed.

Lemma flagged_side en sd : tchg (s_chg (gs en sd)) = true -> tstr (s_oid (gs en sd)) = true -> flagged en = true.
Proof. unfold flagged. destruct sd; simpl; intros -> ->; [apply orb_true_r|reflexivity]. Qed.

Lemma set_mem_del x e l : set_mem x (set_del e l) = negb (Nat.eqb x e) && set_mem x l.
Proof.
  unfold set_del. induction l as [|a l IH]; simpl; [symmetry; apply andb_false_r|].
  destruct (Nat.eqb_spec e a) as [->|Hne]; simpl; rewrite IH; destruct (Nat.eqb_spec x a) as [->|]; simpl; trivial.
  destruct (Nat.eqb_spec a e); [congruence|reflexivity].
Qed.

Lemma ents_raw_side_at s e sd f en : nth_error (ents s) e = Some en ->
  ents (raw_side s e sd f) = list_upd (ents s) e (ss en sd (f (gs en sd))).
Proof. intros H. rewrite ents_raw_side, H. reflexivity. Qed.

Lemma ents_raw_side_upd s0 s e sd f en0 en : nth_error (ents s0) e = Some en0 -> ents s = list_upd (ents s0) e en ->
  ents (raw_side s e sd f) = list_upd (ents s0) e (ss en sd (f (gs en sd))).
Proof.
  intros Hn A. rewrite (ents_raw_side_at _ _ _ _ en), A; [apply upd_at_twice|].
  rewrite A. eapply nth_upd_at_same, Hn.
Qed.

(* the fields that writes to the entry table and to the indexes leave alone *)
Definition core (s : state) := (cset s, now s, lastch s, tape s).
Lemma core_eq s s' : core s' = core s -> cset s' = cset s /\ now s' = now s /\ lastch s' = lastch s /\ tape s' = tape s.
Proof. intros H. injection H. auto. Qed.
Lemma core_raw_side s e sd f : core (raw_side s e sd f) = core s.
Proof. unfold raw_side. destruct (nth_error (ents s) e); reflexivity. Qed.
Lemma core_slot_set s sd p o e : core (slot_set s sd p o e) = core s. Proof. destruct sd; reflexivity. Qed.
Lemma core_st_oids s sd v : core (st_oids s sd v) = core s. Proof. destruct sd; reflexivity. Qed.
Lemma core_slot_pop s sd p k : core (slot_pop s sd p k) = core s.
Proof. apply (slot_pop_frame core). intros t []; reflexivity. Qed.

Lemma prio_ss en sd x : e_prio (ss en sd x) = e_prio en.
Proof. destruct sd; reflexivity. Qed.

Definition eff (s s' : state) (e : eid) (en' : entry) (m : option bool) : Prop :=
  ents s' = list_upd (ents s) e en' /\
  (forall x, set_mem x (cset s') = match m with
                                   | Some b => if Nat.eqb x e then b else set_mem x (cset s)
                                   | None => set_mem x (cset s)
                                   end) /\
  now s' = now s /\ lastch s' = lastch s /\
  (IdxJ s -> IdxJ s').

Definition effc (s s' : state) (e : eid) (en' : entry) (m : option bool) (n l : N) : Prop :=
  ents s' = list_upd (ents s) e en' /\
  (forall x, set_mem x (cset s') = match m with
                                   | Some b => if Nat.eqb x e then b else set_mem x (cset s)
                                   | None => set_mem x (cset s)
                                   end) /\
  now s' = n /\ lastch s' = l /\ (IdxJ s -> IdxJ s').

Ltac eff_split := split; [|split; [|split; [|split]]].

Lemma effc_nth s s' e en' m n l en : effc s s' e en' m n l -> nth_error (ents s) e = Some en -> nth_error (ents s') e = Some en'.
Proof. intros [H _] Hn. rewrite H. eapply nth_upd_at_same, Hn. Qed.
Arguments effc_nth {s s' e en' m n l en}.
Lemma eff_nth s s' e en' m en : eff s s' e en' m -> nth_error (ents s) e = Some en -> nth_error (ents s') e = Some en'.
Proof. apply effc_nth. Qed.
Arguments eff_nth {s s' e en' m en}.
Lemma eff_other s s' e en' m x : eff s s' e en' m -> x <> e -> nth_error (ents s') x = nth_error (ents s) x.
Proof. intros [H _] Hn. rewrite H. apply nth_upd_at_other. congruence. Qed.
Arguments eff_other {s s' e en' m x}.
Lemma eff_length s s' e en' m : eff s s' e en' m -> length (ents s') = length (ents s).
Proof. intros [H _]. rewrite H. apply upd_at_length. Qed.
Arguments eff_length {s s' e en' m}.

Definition mcomp (m1 m2 : option bool) : option bool := match m2 with Some b => Some b | None => m1 end.
Lemma effc_trans s s1 s2 e en1 en2 m1 m2 n1 l1 n2 l2 :
  effc s s1 e en1 m1 n1 l1 -> effc s1 s2 e en2 m2 n2 l2 -> effc s s2 e en2 (mcomp m1 m2) n2 l2.
Proof.
  intros (A1 & B1 & C1 & D1 & J1) (A2 & B2 & C2 & D2 & J2). eff_split; auto.
  - rewrite A2, A1. apply upd_at_twice.
  - intros x. rewrite B2. destruct m2 as [b|]; simpl; [|apply B1].
    destruct (Nat.eqb x e) eqn:Ex; [reflexivity|]. rewrite B1. destruct m1; [rewrite Ex|]; reflexivity.
Qed.
Arguments effc_trans {s s1 s2 e en1 en2 m1 m2 n1 l1 n2 l2}.
Lemma eff_trans s s1 s2 e en1 en2 m1 m2 :
  eff s s1 e en1 m1 -> eff s1 s2 e en2 m2 -> eff s s2 e en2 (mcomp m1 m2).
Proof.
  intros F1 F2. pose proof F1 as (_ & _ & C & D & _). unfold eff. rewrite <- C, <- D.
  exact (effc_trans F1 F2).
Qed.
Arguments eff_trans {s s1 s2 e en1 en2 m1 m2}.
Lemma eff_refl s e en : nth_error (ents s) e = Some en -> eff s s e en None.
Proof. intros H. eff_split; auto. symmetry. apply upd_at_same, H. Qed.

Definition cs_app (m : option bool) (s : state) (e : eid) : state :=
  match m with Some true => cs_add s e | Some false => cs_del s e | None => s end.
Lemma eff_intro s s' e en' m :
  ents s' = list_upd (ents s) e en' -> core s' = core (cs_app m s e) -> (IdxJ s -> IdxJ s') ->
  eff s s' e en' m.
Proof.
  intros A C J. apply core_eq in C as (C1 & C2 & C3 & C4).
  destruct m as [[|]|]; eff_split; auto; intros x; rewrite C1; simpl;
    rewrite ?set_mem_add, ?set_mem_del; destruct (Nat.eqb x e); reflexivity.
Qed.

Lemma core_cs_app m s s' e : core s' = core s -> core (cs_app m s' e) = core (cs_app m s e).
Proof. intros H. apply core_eq in H as (A & B & C & D). destruct m as [[|]|]; unfold core; simpl; congruence. Qed.

Lemma set_plain_eff s e sd f en :
  nth_error (ents s) e = Some en ->
  (forall x, s_oid (f x) = s_oid x /\ s_path (f x) = s_path x) ->
  exists s', set_plain s e sd f = Ok s' /\ eff s s' e (ss en sd (f (gs en sd))) None.
Proof.
  intros Hn Hf. pose proof (fun s' => set_plain_pres s e sd f s' Hf) as HJ.
  unfold set_plain, get_ent in *. rewrite Hn in *. eexists. split; [reflexivity|]. apply (eff_intro _ _ _ _ None).
  - apply (ents_raw_side_at (dirty_add s e)), Hn.
  - apply (core_raw_side (dirty_add s e)).
  - intros HI. apply (HJ _ HI eq_refl).
Qed.

(* the `Ok s` branch of an `if` whose other branch is a setter *)
Lemma ok_eff s e en : nth_error (ents s) e = Some en -> exists s', Ok s = Ok s' /\ eff s s' e en None.
Proof. intros Hn. exists s. split; [reflexivity|apply eff_refl, Hn]. Qed.
Lemma set_plain_unless_eff (c : bool) s e sd f en en' :
  nth_error (ents s) e = Some en ->
  (forall x, s_oid (f x) = s_oid x /\ s_path (f x) = s_path x) ->
  en' = (if c then en else ss en sd (f (gs en sd))) ->
  exists s', (if c then Ok s else set_plain s e sd f) = Ok s' /\ eff s s' e en' None.
Proof. intros Hn Hf ->. destruct c; [apply ok_eff|apply set_plain_eff]; auto. Qed.

(* priority 0 never punts: no change stamp moves, whatever `legacy` says *)
Lemma exec_prio0_eff E f s e en :
  nth_error (ents s) e = Some en ->
  exists s', exec E (S f) (CPrio e 0%N) s = Ok s' /\
    ents s' = list_upd (ents s) e (mkEnt (e_l en) (e_r en) (e_ign en) 0) /\ core s' = core s.
Proof.
  intros Hn. cbn [exec]. unfold get_ent. rewrite Hn. cbn [bind].
  destruct (N.eqb_spec (e_prio en) 0) as [Ep|_].
  - exists s. split; [reflexivity|]. split; [|reflexivity]. symmetry. apply upd_at_same. rewrite Hn. destruct en; simpl in Ep; subst; reflexivity.
  - rewrite andb_false_r. cbn [bind]. cbv zeta. cbn [ents dirty_add st_dirty]. rewrite Hn. eexists. split; [reflexivity|]. split; reflexivity.
Qed.

(* ent[side].path = v for a non-folder that carries an id: the entry is re-filed, and a truthy new path resets the
   priority (prioritize(side, path) = 0) *)
Lemma set_path_file_eff E s e sd v en (o : str) :
  IdxJ s -> nth_error (ents s) e = Some en -> s_otype (gs en sd) <> Dir -> s_oid (gs en sd) = Some o -> tstr (Some o) = true ->
  exists s', set_path E s e sd v = Ok s' /\
    eff s s' e (mkEnt (e_l (ss en sd (w_path (gs en sd) v))) (e_r (ss en sd (w_path (gs en sd) v))) (e_ign en)
                      (if tstr v && negb (ostr_eqb (s_path (gs en sd)) v) then 0%N else e_prio en)) None /\
    tape s' = tape s.
Proof.
  intros HJ Hn Hot Ho Hto.
  assert (HJ': forall s', set_path E s e sd v = Ok s' -> IdxJ s').
  { intros s' H. apply (set_path_file_pres E s e sd v s' en HJ); [unfold get_ent; rewrite Hn; reflexivity|exact Hot|exact H]. }
  unfold set_path, run_cmd in *. rewrite fuel_of_S3, exec_path_eq in *. unfold get_ent in *. rewrite Hn in *. cbn [bind] in *.
  cbv zeta in *. rewrite Ho, Hto, andb_false_r in *.
  set (prior := s_path (gs en sd)) in *. set (en1 := ss en sd (w_path (gs en sd) v)) in *.
  (* before the final raw write, the entry is en, or en at the new path with priority 0 *)
  assert (Hm: exists s1, path_main E (exec E (S (S (2 * length (ents s) + 5)))) e sd v (gs en sd) s = Ok s1 /\
              ents s1 = list_upd (ents s) e (if tstr v && negb (ostr_eqb prior v) then mkEnt (e_l en1) (e_r en1) (e_ign en1) 0 else en) /\
              core s1 = core s).
  { unfold path_main. fold prior. destruct (ostr_eqb prior v) eqn:Eeq; cbn [negb].
    { exists s. rewrite andb_false_r. split; [reflexivity|]. split; [symmetry; apply upd_at_same, Hn|reflexivity]. }
    rewrite andb_true_r.
    set (sa := match prior with
               | Some pp => if tstr prior then slot_pop s sd pp (s_oid (gs en sd)) else s
               | None => s end).
    assert (Hsa: ents sa = ents s /\ core sa = core s).
    { unfold sa. destruct prior as [pp|]; [destruct (tstr (Some pp))|]; rewrite ?ents_slot_pop, ?core_slot_pop; auto. }
    destruct Hsa as [Ea Ca]. rewrite Ho.
    assert (Hfalsy: tstr v = false -> ents sa = list_upd (ents s) e (if tstr v then mkEnt (e_l en1) (e_r en1) (e_ign en1) 0 else en)).
    { intros ->. rewrite Ea. symmetry. apply upd_at_same, Hn. }
    destruct v as [p|]; [|exists sa; auto].
    destruct (tstr (Some p)) eqn:Ev; [clear Hfalsy|exists sa; auto].
    (* the slot (p, o) is free: by the index invariant its holder would be e itself, whose path is not p *)
    assert (Hnone: slot_get sa sd p o = None).
    { destruct (slot_get sa sd p o) as [e'|] eqn:Es; [|reflexivity]. exfalso.
      assert (Hs: slot_get s sd p o = Some e').
      { unfold sa in Es. destruct prior as [pp|]; [|exact Es]. destruct (tstr (Some pp)); [|exact Es].
        rewrite slot_pop_get_opt in Es. destruct (_ && _ && _)%bool; [discriminate|exact Es]. }
      destruct HJ as [Hf [_ Hsp]]. destruct (Hsp _ _ _ _ Hs) as [Ha [Hb _]].
      assert (Hoe: oid_of s e sd = Some o) by (unfold oid_of; rewrite Hn; exact Ho).
      assert (e' = e) by apply (idx_found_unique s Hf _ _ sd o Ha Hoe). subst e'.
      unfold path_of in Hb. rewrite Hn in Hb. fold prior in Hb. rewrite Hb, ostr_eqb_refl in Eeq. discriminate. }
    rewrite Hnone. cbn [bind].
    replace (otype_eqb (s_otype (gs en sd)) Dir) with false by (destruct (s_otype (gs en sd)); [contradiction| |]; reflexivity).
    cbn [andb bind].
    set (sc := raw_side (slot_set sa sd p o e) e sd (fun y => w_path y (Some p))).
    assert (Hsc: ents sc = list_upd (ents s) e en1 /\ core sc = core s).
    { unfold sc. rewrite core_raw_side, core_slot_set. split; [|exact Ca].
      rewrite (ents_raw_side_at _ _ _ _ en); rewrite ents_slot_set, Ea; [reflexivity|exact Hn]. }
    destruct Hsc as [Ec Cc].
    destruct (exec_prio0_eff E (S (2 * length (ents s) + 5)) sc e en1) as (s2 & H2 & E2 & C2); [rewrite Ec; eapply nth_upd_at_same, Hn|].
    exists s2. split; [exact H2|]. split; [rewrite E2, Ec; apply upd_at_twice|congruence]. }
  destruct Hm as (s1 & Hm & E1 & C1). rewrite Hm in *. cbn [bind] in *. eexists. split; [reflexivity|].
  split; [apply eff_intro; [|rewrite core_raw_side; exact C1|intros _; apply HJ'; reflexivity]
         |rewrite (proj2 (proj2 (proj2 (core_eq _ _ (core_raw_side _ _ _ _))))); apply (core_eq _ _ C1)].
  rewrite (ents_raw_side_upd s (dirty_add s1 e) _ _ _ _ _ Hn E1). f_equal.
  unfold en1. destruct (tstr v && negb (ostr_eqb prior v))%bool; destruct en, sd; reflexivity.
Qed.

(* the setters of the current code: [legacy E = false], see StateModel.env *)
Section NonLegacy.
Variable E : env.
Hypothesis Hleg : legacy E = false.

(* the entry after `ent[sd].changed = v` and whether it is pending *)
Definition chg_pending (en : entry) (sd : bool) (v : chg) : bool :=
  (tchg v && tstr (s_oid (gs en sd))) || (tchg (s_chg (gs en (negb sd))) && tstr (s_oid (gs en (negb sd)))).
Definition chg_entry (en : entry) (sd : bool) (v : chg) : entry :=
  let en1 := if negb (chg_pending en sd v) && tchg (s_chg (gs en (negb sd))) && negb (tstr (s_oid (gs en (negb sd))))
             then ss en (negb sd) (w_chg (gs en (negb sd)) (CNum 0)) else en in
  ss en1 sd (w_chg (gs en1 sd) v).

Lemma negb_negb_neq sd : negb sd <> sd. Proof. destruct sd; discriminate. Qed.

Lemma chg_entry_stamp en sd v : tchg v = true -> tstr (s_oid (gs en sd)) = true ->
  chg_pending en sd v = true /\ chg_entry en sd v = ss en sd (w_chg (gs en sd) v).
Proof. intros Hv Ho. unfold chg_entry, chg_pending. rewrite Hv, Ho. auto. Qed.

Lemma exec_chg_eff f s e sd v en :
  nth_error (ents s) e = Some en ->
  exists s', exec E (S f) (CChg true e sd v) s = Ok s' /\ eff s s' e (chg_entry en sd v) (Some (chg_pending en sd v)).
Proof.
  intros Hn.
  assert (HJ: forall s', exec E (S f) (CChg true e sd v) s = Ok s' -> IdxJ s -> IdxJ s').
  { intros s' H. apply IdxJ_view. eapply exec_flag_view; [|exact H]. reflexivity. }
  cbn [exec] in *. unfold get_ent in *. rewrite Hn in *. cbn [bind] in *. rewrite Hleg in *.
  unfold chg_entry, chg_pending. set (y := gs en (negb sd)) in *.
  destruct ((tchg v && tstr (s_oid (gs en sd))) || (tchg (s_chg y) && tstr (s_oid y)))%bool; cbn [bind negb andb] in *.
  - eexists. split; [reflexivity|]. apply (eff_intro _ _ _ _ (Some true)); [| |apply HJ; reflexivity].
    + apply (ents_raw_side_at (dirty_add (cs_add s e) e)), Hn.
    + apply (core_raw_side (dirty_add (cs_add s e) e)).
  - destruct (tchg (s_chg y) && negb (tstr (s_oid y)))%bool; cbn [bind] in *;
      (eexists; split; [reflexivity|]; apply (eff_intro _ _ _ _ (Some false)); [| |apply HJ; reflexivity]).
    + (* the other side's stale mark is reset first *)
      erewrite (ents_raw_side_upd s); [reflexivity|exact Hn|]. apply (ents_raw_side_at (cs_del s e)), Hn.
    + rewrite core_raw_side. apply (core_raw_side (cs_del s e)).
    + apply (ents_raw_side_at (dirty_add (cs_del s e) e)), Hn.
    + apply (core_raw_side (dirty_add (cs_del s e) e)).
Qed.

Lemma set_changed_eff s e sd v en :
  nth_error (ents s) e = Some en ->
  exists s', set_changed E s e sd v = Ok s' /\ eff s s' e (chg_entry en sd v) (Some (chg_pending en sd v)).
Proof.
  intros Hn. unfold set_changed, run_cmd. rewrite fuel_of_S3.
  apply exec_chg_eff, Hn.
Qed.

Definition shift_side (en : entry) (sd : bool) : entry * option bool :=
  if tchg (s_chg (gs en sd))
  then let v := chg_add (s_chg (gs en sd)) (punt E sd) in (chg_entry en sd v, Some (chg_pending en sd v))
  else (en, None).
Definition prio_entry (en : entry) (v : N) : entry :=
  if N.eqb (e_prio en) v then en else
  let en2 := if N.ltb (e_prio en) v && N.ltb 0 v then fst (shift_side (fst (shift_side en false)) true) else en in
  mkEnt (e_l en2) (e_r en2) (e_ign en2) v.
Definition prio_member (en : entry) (v : N) : option bool :=
  if N.eqb (e_prio en) v then None else
  if N.ltb (e_prio en) v && N.ltb 0 v
  then mcomp (snd (shift_side en false)) (snd (shift_side (fst (shift_side en false)) true))
  else None.

Lemma shift_side_eff f s e sd en :
  nth_error (ents s) e = Some en ->
  exists s', (if tchg (s_chg (gs en sd)) then exec E (S f) (CChg true e sd (chg_add (s_chg (gs en sd)) (punt E sd))) s
              else Ok s) = Ok s' /\
    eff s s' e (fst (shift_side en sd)) (snd (shift_side en sd)).
Proof.
  intros Hn. unfold shift_side. destruct (tchg (s_chg (gs en sd))).
  - apply exec_chg_eff, Hn.
  - apply ok_eff, Hn.
Qed.

(* the tail of exec (CPrio e v): after the stamp shifts (effect so far: eff s0 s1), the priority is written *)
Lemma prio_finish s0 s1 e en0 en1 m v :
  nth_error (ents s0) e = Some en0 -> eff s0 s1 e en1 m ->
  exists s', match nth_error (ents (dirty_add s1 e)) e with
             | Some en2 => Ok (put_ent (dirty_add s1 e) e (mkEnt (e_l en2) (e_r en2) (e_ign en2) v))
             | None => Err EBad
             end = Ok s' /\ eff s0 s' e (mkEnt (e_l en1) (e_r en1) (e_ign en1) v) m.
Proof.
  intros Hn F. pose proof (eff_nth F Hn) as Hn1.
  change (ents (dirty_add s1 e)) with (ents s1). rewrite Hn1. eexists. split; [reflexivity|].
  refine (eff_trans F (eff_intro s1 (put_ent (dirty_add s1 e) e (mkEnt (e_l en1) (e_r en1) (e_ign en1) v)) e _ None eq_refl eq_refl _)).
  apply IdxJ_view. apply (iview_put_ent (dirty_add s1 e) _ en1); [exact Hn1|reflexivity].
Qed.

Lemma set_priority_eff s e v en :
  nth_error (ents s) e = Some en ->
  exists s', set_priority E s e v = Ok s' /\ eff s s' e (prio_entry en v) (prio_member en v).
Proof.
  intros Hn. unfold set_priority, run_cmd. rewrite fuel_of_S3. set (f := S (2 * length (ents s) + 5)).
  remember (S f) as n eqn:En. cbn [exec]. subst n. (* the nested calls keep their fuel folded *)
  unfold get_ent. rewrite Hn. cbn [bind]. unfold prio_entry, prio_member.
  destruct (N.eqb (e_prio en) v).
  - apply ok_eff, Hn.
  - destruct (N.ltb (e_prio en) v && N.ltb 0 v)%bool.
    + (* punting: the change stamps of both sides are shifted, left first *)
      destruct (shift_side_eff f s e false en Hn) as (sa & Ha & Fa). cbn [gs] in Ha. rewrite Ha. cbn [bind].
      pose proof (eff_nth Fa Hn) as Hna. rewrite Hna. cbn [bind].
      destruct (shift_side_eff f sa e true _ Hna) as (sb & Hb & Fb). cbn [gs] in Hb. rewrite Hb. cbn [bind].
      apply (prio_finish _ _ _ _ _ _ v Hn (eff_trans Fa Fb)).
    + cbn [bind]. apply (prio_finish _ _ _ _ _ _ v Hn (eff_refl _ _ _ Hn)).
Qed.

Lemma prio0_entry en : prio_entry en 0 = mkEnt (e_l en) (e_r en) (e_ign en) 0.
Proof.
  unfold prio_entry. destruct (N.eqb_spec (e_prio en) 0) as [H|_]; [|rewrite andb_false_r; reflexivity].
  destruct en. simpl in H. subst. reflexivity.
Qed.
Lemma prio0_member en : prio_member en 0 = None.
Proof. unfold prio_member. destruct (N.eqb (e_prio en) 0); [reflexivity|]. rewrite andb_false_r. reflexivity. Qed.

Definition ign_entry (en : entry) (v : ign) : entry :=
  if ign_eqb (e_ign en) v then en else
  match v with
  | IDiscarded => mkEnt (w_chg (e_l en) CFalse) (w_chg (e_r en) CFalse) v (e_prio en)
  | _ => mkEnt (e_l en) (e_r en) v (e_prio en)
  end.
Definition ign_member (en : entry) (v : ign) : option bool :=
  if ign_eqb (e_ign en) v then None else match v with IDiscarded => Some false | _ => None end.

Lemma set_ignored_eff s e v en :
  nth_error (ents s) e = Some en ->
  exists s', set_ignored s e v = Ok s' /\ eff s s' e (ign_entry en v) (ign_member en v).
Proof.
  intros Hn. pose proof (fun s' => set_ignored_pres s e v s') as HJ.
  unfold set_ignored, get_ent, ign_entry, ign_member in *. rewrite Hn in *. cbn [bind] in *.
  destruct (ign_eqb (e_ign en) v).
  - apply ok_eff, Hn.
  - (* any value but IDiscarded: only the ignore field is written *)
    destruct v;
      try (simpl in *; rewrite Hn in *; eexists; split; [reflexivity|];
           apply (eff_intro _ _ _ _ None); [reflexivity|reflexivity|intros HI; apply (HJ _ HI eq_refl)]).
    (* discarding clears both change marks first *)
    set (sr := raw_side (raw_side s e false (fun y => w_chg y CFalse)) e true (fun y => w_chg y CFalse)) in *.
    assert (Hr: ents sr = list_upd (ents s) e (mkEnt (w_chg (e_l en) CFalse) (w_chg (e_r en) CFalse) (e_ign en) (e_prio en))).
    { unfold sr. erewrite (ents_raw_side_upd s); [|exact Hn|apply ents_raw_side_at, Hn]. reflexivity. }
    change (ents (dirty_add (cs_del sr e) e)) with (ents sr) in *. rewrite Hr in *. rewrite (nth_upd_at_same _ _ _ _ Hn) in HJ. rewrite (nth_upd_at_same _ _ _ _ Hn).
    eexists. split; [reflexivity|]. apply (eff_intro _ _ _ _ (Some false)); [| |intros HI; apply (HJ _ HI eq_refl)].
    + unfold put_ent. simpl. rewrite Hr. apply upd_at_twice.
    + apply (core_cs_app (Some false) s sr). unfold sr. rewrite !core_raw_side. reflexivity.
Qed.

Lemma w_path_idem x v : w_path (w_path x v) v = w_path x v.
Proof. destruct x; reflexivity. Qed.

Definition oid_member (en : entry) (sd : bool) : option bool :=
  if tchg (s_chg (gs en sd)) || tchg (s_chg (gs en (negb sd))) then Some true else None.

(* the tail of _change_oid with a new id *)
Lemma oid_finish_some_eff e sd o s1 en1 :
  nth_error (ents s1) e = Some en1 ->
  exists s', oid_finish true e sd (Some o) s1 = Ok s' /\
    ents s' = list_upd (ents s1) e (ss en1 sd (w_oid (gs en1 sd) (Some o))) /\
    core s' = core (cs_app (oid_member en1 sd) s1 e).
Proof.
  intros Hn. unfold oid_finish, get_ent, oid_member. rewrite Hn. cbn [bind]. cbv beta zeta. eexists. split; [reflexivity|].
  match goal with |- context [st_oids ?a ?b ?c] => set (sa := st_oids a b c) end.
  set (sb := match s_path (gs en1 sd) with
             | Some pp => if tstr (Some pp) then slot_set sa sd pp o e else sa
             | None => sa
             end).
  assert (Hb: ents sb = list_upd (ents s1) e (ss en1 sd (w_oid (gs en1 sd) (Some o))) /\ core sb = core s1).
  { assert (Ha: ents sa = list_upd (ents s1) e (ss en1 sd (w_oid (gs en1 sd) (Some o))) /\ core sa = core s1).
    { unfold sa. rewrite ents_st_oids, core_st_oids, core_raw_side. split; [apply ents_raw_side_at, Hn|reflexivity]. }
    unfold sb. destruct (s_path (gs en1 sd)) as [pp|]; [destruct (tstr (Some pp))|];
      rewrite ?ents_slot_set, ?core_slot_set; exact Ha. }
  destruct Hb as [b0 b1]. clearbody sb. clear sa. split.
  - erewrite (ents_raw_side_upd s1); [|exact Hn|destruct (_ || _)%bool; exact b0].
    rewrite gs_ss_same, ss_ss. destruct (gs en1 sd); reflexivity.
  - rewrite core_raw_side. destruct (_ || _)%bool; [apply (core_cs_app (Some true)), b1|exact b1].
Qed.

(* the loop of _change_oid when the entry has no id and the new one is not indexed: both iterations do nothing, in
   either order; only the tape is consumed *)
Lemma oid_loop_fresh rec e sd o s b r :
  tape s = TSwap b :: r -> al_get o (oids s sd) = None -> oid_loop rec e sd None (Some o) s = Ok (st_tape s r).
Proof.
  intros Ht Ha. unfold oid_loop. cbn [ostr_eqb]. unfold pop_swap. rewrite Ht. cbn [bind].
  assert (Hst: oid_step rec e sd (Some o) (st_tape s r) = Ok (st_tape s r)) by (apply oid_step_absent; destruct sd; exact Ha).
  destruct b; rewrite ?oid_step_none, ?Hst; cbn [bind]; rewrite ?oid_step_none, ?Hst; reflexivity.
Qed.

Lemma set_oid_fresh_eff s e sd o en b r :
  nth_error (ents s) e = Some en -> s_oid (gs en sd) = None -> al_get o (oids s sd) = None -> tape s = TSwap b :: r ->
  exists s', set_oid E s e sd (Some o) = Ok s' /\
    eff s s' e (ss en sd (w_oid (gs en sd) (Some o)))
        (oid_member en sd).
Proof.
  intros Hn Ho Ha Ht. pose proof (fun s' => set_oid_pres E s e sd (Some o) s') as HJ.
  unfold set_oid, run_cmd in *. rewrite fuel_of_S3 in *.
  rewrite exec_oid_eq in *. unfold get_ent in *. rewrite Hn in *. cbn [bind] in *.
  rewrite Ho, (oid_loop_fresh _ e sd o s b r Ht Ha) in *. cbn [bind] in *.
  destruct (oid_finish_some_eff e sd o (st_tape s r) en Hn) as (s' & H1 & H2 & H3).
  exists s'. split; [exact H1|]. apply (eff_intro (st_tape s r)); auto.
Qed.

Lemma w_oid_same x v : s_oid x = v -> w_oid x v = x.
Proof. intros <-. destruct x; reflexivity. Qed.

Lemma ents_slot_pop_eq s sd p k : ents (slot_pop s sd p k) = ents s. Proof. apply ents_slot_pop. Qed.

(* the loop of _change_oid for the id the entry already has: it is taken out of the indexes *)
Lemma oid_loop_same rec e sd o s en :
  nth_error (ents s) e = Some en -> al_get o (oids s sd) = Some e ->
  exists s1, oid_loop rec e sd (Some o) (Some o) s = Ok s1 /\ ents s1 = ents s /\ core s1 = core s.
Proof.
  intros Hn Ha. unfold oid_loop. rewrite ostr_eqb_refl. unfold oid_step, get_ent. rewrite Ha, ents_st_oids, Hn. cbn [bind].
  rewrite Nat.eqb_refl. eexists. split; [reflexivity|].
  destruct (s_path (gs en sd)) as [pp|]; [destruct (tstr (Some pp))|];
    rewrite ?ents_slot_pop, ?core_slot_pop, ents_st_oids, core_st_oids; auto.
Qed.

Lemma set_oid_same_eff s e sd o en :
  nth_error (ents s) e = Some en -> s_oid (gs en sd) = Some o -> al_get o (oids s sd) = Some e ->
  exists s', set_oid E s e sd (Some o) = Ok s' /\
    eff s s' e en (oid_member en sd).
Proof.
  intros Hn Ho Ha. pose proof (fun s' => set_oid_pres E s e sd (Some o) s') as HJ.
  unfold set_oid, run_cmd in *. rewrite fuel_of_S3 in *.
  rewrite exec_oid_eq in *. unfold get_ent in *. rewrite Hn in *. cbn [bind] in *. rewrite Ho in *.
  destruct (oid_loop_same (exec E (S (S (2 * length (ents s) + 5)))) e sd o s en Hn Ha) as (s1 & L & a0 & a1).
  rewrite L in *. cbn [bind] in *.
  destruct (oid_finish_some_eff e sd o s1 en) as (s' & H1 & H2 & H3); [rewrite a0; exact Hn|].
  exists s'. split; [exact H1|]. apply eff_intro; auto.
  - rewrite H2, a0, (w_oid_same _ _ Ho), ss_gs. reflexivity.
  - rewrite H3. apply core_cs_app, a1.
Qed.

(* holds whatever `legacy` says *)
Lemma set_path_first_eff s e sd p o en :
  IdxJ s -> nth_error (ents s) e = Some en -> s_oid (gs en sd) = Some o -> tstr (Some o) = true ->
  s_path (gs en sd) = None -> s_otype (gs en sd) <> Dir -> tstr (Some p) = true ->
  exists s', set_path E s e sd (Some p) = Ok s' /\
    eff s s' e (prio_entry (ss en sd (w_path (gs en sd) (Some p))) 0) None /\ tape s' = tape s.
Proof.
  intros HI Hn Ho Hto Hp Hot Htp.
  destruct (set_path_file_eff E s e sd (Some p) en o HI Hn Hot Ho Hto) as (s' & H & F & T).
  exists s'. split; [exact H|]. split; [|exact T].
  rewrite prio0_entry. rewrite Hp, Htp in F. destruct sd; exact F.
Qed.
Lemma set_path_new_eff s e sd p o en :
  IdxJ s -> nth_error (ents s) e = Some en -> s_oid (gs en sd) = Some o -> tstr (Some o) = true ->
  s_path (gs en sd) = None -> s_otype (gs en sd) <> Dir -> tstr (Some p) = true ->
  exists s', set_path E s e sd (Some p) = Ok s' /\
    eff s s' e (prio_entry (ss en sd (w_path (gs en sd) (Some p))) 0) None /\ tape s' = tape s.
Proof using Hleg. exact (set_path_first_eff s e sd p o en). Qed.

Lemma st_now_effc s e en t : nth_error (ents s) e = Some en -> effc s (st_now s t) e en None t (lastch s).
Proof.
  intros Hn. eff_split; try reflexivity.
  - symmetry. apply upd_at_same, Hn.
  - apply IdxJ_view. reflexivity.
Qed.

(* mark_changed when the clock is ahead of the last stamp (the callers have lastch s <= now s) *)
Lemma mark_changed_eff s e sd en :
  nth_error (ents s) e = Some en -> N.lt (lastch s) (now s + 1000) ->
  let t := (now s + 1000)%N in
  exists s', mark_changed E s e sd = Ok s' /\
    effc s s' e (chg_entry en sd (CNum t)) (Some (chg_pending en sd (CNum t))) t t.
Proof.
  intros Hn Hlt t. unfold mark_changed. fold t.
  destruct (set_changed_eff (st_now s t) e sd (CNum t) en Hn) as (s1 & H1 & F1).
  rewrite H1. cbn [bind]. pose proof F1 as (A & B & C & D & J).
  assert (Hle: N.leb t (lastch s1) = false) by (apply N.leb_gt; rewrite D; exact Hlt).
  rewrite Hle. cbn [bind].
  unfold get_ent. rewrite (eff_nth F1 Hn). cbn [bind].
  unfold chg_entry at 1. rewrite gs_ss_same. cbn [s_chg w_chg].
  eexists. split; [reflexivity|]. eff_split; auto.
Qed.

Hypothesis Hoip : forall sd, oip E sd = false.

Definition ev_ex (cur : exst) (b : bool) : exst :=
  match cur, b with ExTrashed, true => ExLikely | _, _ => ex_of (Some b) end.

(* the steps of update_entry after the id, in body order: type, the NotKnown guard, path, hash, exists *)
Lemma same_type_kept (s : state) e sd ot cur :
  (forall t, ot = Some t -> t = cur) ->
  match ot with
  | Some t => if otype_eqb t cur then Ok s else set_plain s e sd (fun y => w_otype y t)
  | None => Ok s
  end = Ok s.
Proof. intros H. destruct ot as [t|]; [|reflexivity]. rewrite (H t eq_refl). destruct cur; reflexivity. Qed.
Lemma known_type_pass (ot : option otype) (ex : option bool) :
  (forall t, ot = Some t -> t <> NotKnown) ->
  match ot with Some NotKnown => match ex with Some true => true | _ => false end | _ => false end = false.
Proof. intros H. destruct ot as [[| |]|]; try reflexivity. destruct (H _ eq_refl eq_refl). Qed.

Lemma own_path_kept s e sd en path :
  nth_error (ents s) e = Some en ->
  (forall p, path = Some p -> s_path (gs en sd) = Some (nps (cvs E sd) p)) ->
  match path with
  | Some p => en2 <- get_ent s e ;;
              if ostr_eqb (Some (nps (cvs E sd) p)) (s_path (gs en2 sd)) then Ok s else set_path E s e sd (Some (nps (cvs E sd) p))
  | None => Ok s
  end = Ok s.
Proof.
  intros Hn H. destruct path as [p|]; [|reflexivity].
  unfold get_ent. rewrite Hn. cbn [bind]. rewrite (H p eq_refl), ostr_eqb_refl. reflexivity.
Qed.
Definition hash_upd (en : entry) (sd : bool) (h : option N) : entry :=
  match h with
  | Some _ => if oN_eqb h (s_hash (gs en sd)) then en else ss en sd (w_hash (gs en sd) h)
  | None => en
  end.
Lemma set_hash_eff s e sd en h :
  nth_error (ents s) e = Some en ->
  exists s', match h with
             | Some _ => if oN_eqb h (s_hash (gs en sd)) then Ok s else set_plain s e sd (fun y => w_hash y h)
             | None => Ok s
             end = Ok s' /\ eff s s' e (hash_upd en sd h) None.
Proof.
  intros Hn. unfold hash_upd. destruct h; [|apply ok_eff, Hn].
  apply (set_plain_unless_eff _ _ _ _ _ en); auto.
Qed.

Lemma set_ex_eff s e sd en cur ex :
  nth_error (ents s) e = Some en ->
  exists s', match cur, ex with
             | ExTrashed, Some true => set_plain s e sd (fun y => w_ex y ExLikely)
             | _, _ => set_plain s e sd (fun y => w_ex y (ex_of ex))
             end = Ok s' /\
    eff s s' e (ss en sd (w_ex (gs en sd) match cur, ex with ExTrashed, Some true => ExLikely | _, _ => ex_of ex end)) None.
Proof. intros Hn. rewrite set_ex_plain. exact (set_plain_eff s e sd _ en Hn (keeps_w_ex _)). Qed.

(* update_entry once the id is set (to en1), for a path that is the entry's own or none, and no hash: only `exists`
   is written; with [changed] the call ends in mark_changed *)
Lemma upd_entry_oid_eff s e sd o en en1 m path ex ot changed :
  nth_error (ents s) e = Some en ->
  (exists s1, set_oid E s e sd (Some o) = Ok s1 /\ eff s s1 e en1 m) ->
  s_oid (gs en1 sd) = Some o ->
  (forall p, path = Some p -> s_path (gs en1 sd) = Some (nps (cvs E sd) p)) ->
  (forall t, ot = Some t -> t = s_otype (gs en1 sd) /\ t <> NotKnown) ->
  (changed = true -> tstr (Some o) = true) ->
  exists s', update_entry E s e sd (Some o) path None ex changed ot =
             (if changed then mark_changed E s' e sd else Ok s') /\
    eff s s' e (ss en1 sd (w_ex (gs en1 sd) match s_ex (gs en1 sd), ex with ExTrashed, Some true => ExLikely | _, _ => ex_of ex end)) m.
Proof.
  intros Hn (s1 & H1 & F1) Ho Hpa Hot Hto.
  unfold update_entry. unfold get_ent at 1. rewrite Hn. cbn [bind]. rewrite Hoip, andb_false_r. cbn [andb].
  rewrite H1. cbn [bind].
  pose proof (eff_nth F1 Hn) as Hn1. unfold get_ent at 1. rewrite Hn1. cbn [bind].
  rewrite same_type_kept, known_type_pass by (intros t Ht; apply (Hot t Ht)). cbn [bind].
  cbv zeta. rewrite (own_path_kept s1 e sd en1 path Hn1 Hpa). cbn [bind]. unfold get_ent at 1. rewrite Hn1. cbn [bind].
  destruct (set_ex_eff s1 e sd en1 (s_ex (gs en1 sd)) ex Hn1) as (s5 & H5 & F5). rewrite H5. cbn [bind].
  exists s5. split; [|exact (eff_trans F1 F5)].
  destruct changed; [|reflexivity].
  unfold get_ent. rewrite (eff_nth F5 Hn1). cbn [bind].
  rewrite gs_ss_same. cbn [s_oid w_ex]. rewrite Ho, (Hto eq_refl), orb_true_r. reflexivity.
Qed.

(* after upload(): same id, same path; exists=True *)
Lemma upd_entry_same_eff s e sd o en :
  nth_error (ents s) e = Some en -> s_oid (gs en sd) = Some o -> al_get o (oids s sd) = Some e ->
  (forall p, s_path (gs en sd) = Some p -> nps (cvs E sd) p = p) ->
  exists s', update_entry E s e sd (Some o) (s_path (gs en sd)) None (Some true) false None = Ok s' /\
    eff s s' e (ss en sd (w_ex (gs en sd) (ev_ex (s_ex (gs en sd)) true)))
        (oid_member en sd).
Proof.
  intros Hn Ho Ha Hnp.
  apply (upd_entry_oid_eff s e sd o en en _ _ (Some true) None false Hn (set_oid_same_eff s e sd o en Hn Ho Ha) Ho);
    try discriminate.
  intros p Hp. rewrite (Hnp p Hp). exact Hp.
Qed.

(* SyncState.update for an event about an object the state already has an entry for *)
Lemma update_known_eff s sd o e en b t :
  nth_error (ents s) e = Some en -> al_get o (oids s sd) = Some e -> s_oid (gs en sd) = Some o -> tstr (Some o) = true ->
  s_otype (gs en sd) = t -> t <> NotKnown ->
  (forall p, s_path (gs en sd) = Some p -> nps (cvs E sd) p = p) ->
  N.le (lastch s) (now s) ->
  let stamp := (now s + 2000)%N in
  let en1 := ss en sd (w_ex (gs en sd) (ev_ex (s_ex (gs en sd)) b)) in
  exists s', update E s sd (Some t) (Some o) (s_path (gs en sd)) None (Some b) None = Ok s' /\
    effc s s' e (chg_entry en1 sd (CNum stamp)) (Some (chg_pending en1 sd (CNum stamp))) stamp stamp.
Proof.
  intros Hn Ha Ho Hto Hot Hnk Hnp Hclk stamp en1.
  rewrite update_no_prior, Ha.
  (* one clock tick, update_entry, and a second tick in mark_changed *)
  set (s3 := st_now s (now s + 1000)).
  assert (Ha3: al_get o (oids s3 sd) = Some e) by (destruct sd; exact Ha).
  destruct (upd_entry_oid_eff s3 e sd o en en _ (s_path (gs en sd)) (Some b) (Some t) true Hn
              (set_oid_same_eff s3 e sd o en Hn Ho Ha3) Ho) as (s5 & H5 & F5); auto.
  { intros p Hp. rewrite (Hnp p Hp). exact Hp. }
  { intros t' Ht. injection Ht as <-. auto. }
  rewrite H5. fold (ev_ex (s_ex (gs en sd)) b) in F5. fold en1 in F5.
  pose proof F5 as (_ & _ & C5 & D5 & _). cbn [s3 now lastch st_now] in C5, D5.
  destruct (mark_changed_eff s5 e sd en1 (eff_nth F5 Hn)) as (s6 & H6 & F6); [lia|].
  replace (now s5 + 1000)%N with stamp in * by (unfold stamp; lia).
  exists s6. split; [exact H6|].
  exact (effc_trans (effc_trans (st_now_effc s e en _ Hn) F5) F6).
Qed.

(* SyncState.update for an event about an object the state has no entry for *)
Lemma update_new_eff s sd o b t tsw r :
  al_get o (oids s sd) = None -> tstr (Some o) = true -> t <> NotKnown -> N.le (lastch s) (now s) -> tape s = TSwap tsw :: r ->
  let e := length (ents s) in
  let stamp := (now s + 2000)%N in
  let en0 := ss (new_entry t) sd (w_oid (new_side t) (Some o)) in
  let en1 := ss en0 sd (w_ex (gs en0 sd) (ev_ex ExUnknown b)) in
  exists s', update E s sd (Some t) (Some o) None None (Some b) None = Ok s' /\
    ents s' = ents s ++ [chg_entry en1 sd (CNum stamp)] /\
    (forall x, set_mem x (cset s') = if Nat.eqb x e then true else set_mem x (cset s)) /\
    now s' = stamp /\ lastch s' = stamp /\ (IdxJ s -> IdxJ s').
Proof.
  intros Ha Hto Hnk Hclk Ht e stamp en0 en1.
  rewrite update_no_prior, Ha.
  set (sa := st_ents s (ents s ++ [new_entry t])). fold e.
  set (s3 := st_now sa (now sa + 1000)). change (st_now sa (now s + 1000)) with s3.
  assert (Hn3: nth_error (ents s3) e = Some (new_entry t)) by apply nth_error_mid.
  assert (Hg0: gs (new_entry t) sd = new_side t) by (destruct sd; reflexivity).
  assert (Hg1: gs en0 sd = w_oid (new_side t) (Some o)) by apply gs_ss_same.
  assert (F0: exists s1, set_oid E s3 e sd (Some o) = Ok s1 /\ eff s3 s1 e en0 None).
  { destruct (set_oid_fresh_eff s3 e sd o (new_entry t) tsw r Hn3) as (s1 & H1 & F1);
      [destruct sd; reflexivity|destruct sd; exact Ha|exact Ht|].
    rewrite Hg0 in F1. exists s1. split; [exact H1|]. destruct sd; exact F1. }
  destruct (upd_entry_oid_eff s3 e sd o (new_entry t) en0 None None (Some b) (Some t) true Hn3 F0) as (s5 & H5 & F5);
    [rewrite Hg1; reflexivity|discriminate| |auto|].
  { intros t' Ht'. injection Ht' as <-. rewrite Hg1. auto. }
  rewrite H5. replace (s_ex (gs en0 sd)) with ExUnknown in F5 by (rewrite Hg1; reflexivity). change (eff s3 s5 e en1 None) in F5.
  pose proof F5 as (A5 & B5 & C5 & D5 & J5). cbn [s3 sa now lastch st_now st_ents] in C5, D5.
  destruct (mark_changed_eff s5 e sd en1 (eff_nth F5 Hn3)) as (s6 & H6 & A6 & B6 & C6 & D6 & J6); [lia|].
  replace (now s5 + 1000)%N with stamp in * by (unfold stamp; lia).
  exists s6. split; [exact H6|]. split; [|split; [|split; [|split]]]; auto.
  - rewrite A6, A5, upd_at_twice. apply upd_at_app.
  - intros x. rewrite B6.
    assert (Hpend: chg_pending en1 sd (CNum stamp) = true).
    { unfold chg_pending, en1. rewrite gs_ss_same. cbn [s_oid w_ex]. rewrite Hg1. cbn [s_oid w_oid]. rewrite Hto, andb_true_r.
      apply orb_true_iff. left. apply negb_true_iff, N.eqb_neq. unfold stamp. lia. }
    rewrite Hpend. destruct (Nat.eqb x e); [reflexivity|apply B5].
  - intros HI. apply J6, J5, (add_entry_pres s t HI).
Qed.

Definition same_but_prio (a b : entry) : Prop := e_l a = e_l b /\ e_r a = e_r b /\ e_ign a = e_ign b.
Lemma same_but_prio_refl a : same_but_prio a a. Proof. repeat split. Qed.
Lemma same_but_prio_trans a b c : same_but_prio a b -> same_but_prio b c -> same_but_prio a c.
Proof. intros (A & B & C) (A' & B' & C'). repeat split; congruence. Qed.

Definition prio_only (s s' : state) : Prop :=
  length (ents s') = length (ents s) /\
  (forall x xn, nth_error (ents s) x = Some xn -> exists xn', nth_error (ents s') x = Some xn' /\ same_but_prio xn xn') /\
  (forall x, set_mem x (cset s') = set_mem x (cset s)) /\
  now s' = now s /\ lastch s' = lastch s /\ (IdxJ s -> IdxJ s').
Ltac po_split := split; [|split; [|split; [|split; [|split]]]].
Lemma prio_only_refl s : prio_only s s.
Proof. po_split; auto. intros x xn H. exists xn. split; [exact H|apply same_but_prio_refl]. Qed.
Lemma prio_only_trans a b c : prio_only a b -> prio_only b c -> prio_only a c.
Proof.
  intros (A1 & B1 & C1 & D1 & E1 & J1) (A2 & B2 & C2 & D2 & E2 & J2). po_split; try congruence; auto.
  intros x xn H. destruct (B1 _ _ H) as (y & Hy & Sy). destruct (B2 _ _ Hy) as (z & Hz & Sz).
  exists z. split; [exact Hz|eapply same_but_prio_trans; eauto].
Qed.

Lemma eff_prio_only s s' e en en' :
  nth_error (ents s) e = Some en -> eff s s' e en' None -> same_but_prio en en' -> prio_only s s'.
Proof.
  intros Hn F S. pose proof F as (A & B & C & D & J). po_split; auto.
  - apply (eff_length F).
  - intros x xn Hx. destruct (Nat.eq_dec x e) as [->|Hne].
    + exists en'. split; [apply (eff_nth F Hn)|]. assert (xn = en) by congruence. subst. exact S.
    + exists xn. split; [rewrite (eff_other F Hne); exact Hx|apply same_but_prio_refl].
Qed.

Lemma reset_prio_if_prio_only (c : bool) s x xn :
  nth_error (ents s) x = Some xn -> exists s', (if c then set_priority E s x 0%N else Ok s) = Ok s' /\ prio_only s s'.
Proof.
  intros Hx. destruct c; [|exists s; split; [reflexivity|apply prio_only_refl]].
  destruct (set_priority_eff s x 0%N xn Hx) as (s1 & H1 & F1). rewrite prio0_member in F1.
  exists s1. split; [exact H1|]. apply (eff_prio_only _ _ _ _ _ Hx F1). rewrite prio0_entry. repeat split.
Qed.

(* the loop is the anonymous [fix] inside StateModel.finished, so its text is repeated here *)
Lemma finished_loop_prio_only e : forall l s,
  e < length (ents s) -> (forall x, In x l -> x < length (ents s)) ->
  exists s', (fix loop (l : list eid) (s : state) {struct l} : res state :=
     match l with
     | [] => Ok s
     | x :: r =>
       xn <- get_ent s x ;;
       en' <- get_ent s e ;;
       s' <- (if N.ltb 0 (e_prio xn) && is_related E en' xn then set_priority E s x 0%N else Ok s) ;;
       loop r s'
     end) l s = Ok s' /\ prio_only s s'.
Proof.
  induction l as [|x r IH]; intros s He Hl.
  - exists s. split; [reflexivity|apply prio_only_refl].
  - assert (Hx: x < length (ents s)) by (apply Hl; left; reflexivity).
    destruct (nth_error (ents s) x) as [xn|] eqn:Ex; [|apply nth_error_None in Ex; lia].
    destruct (nth_error (ents s) e) as [en|] eqn:Ee; [|apply nth_error_None in Ee; lia].
    unfold get_ent at 1 2. rewrite Ex, Ee. cbn [bind].
    destruct (reset_prio_if_prio_only (N.ltb 0 (e_prio xn) && is_related E en xn) s x xn Ex) as (s1 & -> & P1).
    cbn [bind]. pose proof P1 as (L1 & _).
    destruct (IH s1) as (s' & H' & P'); [rewrite L1; exact He|intros y Hy; rewrite L1; apply Hl; right; exact Hy|].
    exists s'. split; [exact H'|exact (prio_only_trans _ _ _ P1 P')].
Qed.

Definition fin_side (x : sidest) : sidest := if tchg (s_chg x) then x else w_force x false.
Definition fin_entry (en : entry) : entry := mkEnt (fin_side (e_l en)) (fin_side (e_r en)) (e_ign en) (e_prio en).

Lemma set_mem_lt s e : set_mem e (cset s) = true -> True. Proof. auto. Qed.

Lemma set_mem_In x l : In x l -> set_mem x l = true.
Proof.
  induction l as [|a l IH]; [contradiction|]. simpl. intros [->|Hx]; [rewrite Nat.eqb_refl; reflexivity|].
  rewrite (IH Hx). apply orb_true_r.
Qed.

(* SyncState.finished: force flags of unchanged sides are cleared; with no change left the entry leaves the change
   set and related punted entries get their priority back *)
Lemma finished_eff s e en :
  nth_error (ents s) e = Some en -> (forall x, set_mem x (cset s) = true -> x < length (ents s)) ->
  exists s' s2, finished E s e = Ok s' /\
    eff s s2 e (fin_entry en) (if tchg (s_chg (e_l en)) || tchg (s_chg (e_r en)) then None else Some false) /\
    prio_only s2 s'.
Proof.
  intros Hn Hcs. unfold finished, get_ent. rewrite Hn. cbn [bind].
  pose proof (fun x : sidest => conj (eq_refl (s_oid x)) (eq_refl (s_path x))) as Hf.
  destruct (set_plain_unless_eff (tchg (s_chg (e_l en))) s e false (fun y => w_force y false) en
              (mkEnt (fin_side (e_l en)) (e_r en) (e_ign en) (e_prio en)) Hn Hf) as (s1 & E1 & F1).
  { unfold fin_side. destruct en, (tchg _); reflexivity. }
  rewrite E1. cbn [bind]. pose proof (eff_nth F1 Hn) as Hn1.
  destruct (set_plain_unless_eff (tchg (s_chg (e_r en))) s1 e true (fun y => w_force y false) _ (fin_entry en) Hn1 Hf)
    as (s2 & E2 & F2).
  { unfold fin_entry. unfold fin_side at 2. destruct (tchg (s_chg (e_r en))); reflexivity. }
  rewrite E2. cbn [bind].
  pose proof (eff_trans F1 F2) as F12. cbn [mcomp] in F12.
  destruct (tchg (s_chg (e_l en)) || tchg (s_chg (e_r en)))%bool.
  - exists s2, s2. split; [reflexivity|]. split; [exact F12|apply prio_only_refl].
  - set (s3 := cs_del s2 e).
    assert (F3: eff s s3 e (fin_entry en) (Some false)).
    { destruct F12 as (A & B & C & D & J). eff_split; auto.
      intros x. unfold s3. simpl. rewrite set_mem_del, B. destruct (Nat.eqb x e); reflexivity. }
    pose proof (eff_length F3) as Hlen.
    destruct (finished_loop_prio_only e (cset s3) s3) as (s' & H' & P').
    + rewrite Hlen. apply nth_error_Some. rewrite Hn. discriminate.
    + intros x Hx. rewrite Hlen. apply Hcs. apply set_mem_In in Hx.
      destruct F3 as (_ & B & _). rewrite B in Hx. destruct (Nat.eqb x e); [discriminate|exact Hx].
    + exists s', s3. split; [exact H'|]. split; [exact F3|exact P'].
Qed.

(* after create(): the side gets its id, path, hash; exists=True; no change mark *)
Lemma upd_entry_create_eff s e sd o p h en tsw r :
  IdxJ s -> nth_error (ents s) e = Some en -> s_oid (gs en sd) = None -> s_path (gs en sd) = None ->
  al_get o (oids s sd) = None -> tstr (Some o) = true -> tstr (Some p) = true -> nps (cvs E sd) p = p ->
  s_otype (gs en sd) <> Dir -> tape s = TSwap tsw :: r ->
  let en1 := ss en sd (w_oid (gs en sd) (Some o)) in
  let en2 := prio_entry (ss en1 sd (w_path (gs en1 sd) (Some p))) 0 in
  let en3 := hash_upd en2 sd h in
  let en4 := ss en3 sd (w_ex (gs en3 sd) (ev_ex (s_ex (gs en2 sd)) true)) in
  exists s', update_entry E s e sd (Some o) (Some p) h (Some true) false None = Ok s' /\
    eff s s' e en4 (oid_member en sd).
Proof.
  intros HI Hn Ho Hp Ha Hto Htp Hnp Hot Ht en1 en2 en3 en4.
  unfold update_entry. unfold get_ent at 1. rewrite Hn. cbn [bind]. rewrite Hoip, andb_false_r. cbn [andb].
  destruct (set_oid_fresh_eff s e sd o en tsw r Hn Ho Ha Ht) as (s1 & H1 & F1).
  rewrite H1. cbn [bind]. fold en1 in F1.
  pose proof (eff_nth F1 Hn) as Hn1. unfold get_ent at 1. rewrite Hn1. cbn [bind].
  cbv zeta. unfold get_ent at 1. rewrite Hn1. cbn [bind]. rewrite Hnp.
  assert (Hg1: gs en1 sd = w_oid (gs en sd) (Some o)) by apply gs_ss_same.
  assert (Hp1: s_path (gs en1 sd) = None) by (rewrite Hg1; exact Hp).
  rewrite Hp1. cbn [ostr_eqb].
  destruct (set_path_first_eff s1 e sd p o en1) as (s2 & H2 & F2 & _); auto; try (rewrite Hg1; auto; fail).
  { destruct F1 as (_ & _ & _ & _ & J). auto. }
  rewrite H2. cbn [bind]. fold en2 in F2.
  pose proof (eff_nth F2 Hn1) as Hn2. unfold get_ent at 1. rewrite Hn2. cbn [bind].
  destruct (set_hash_eff s2 e sd en2 h Hn2) as (s3 & E3 & F3). rewrite E3. cbn [bind]. fold en3 in F3.
  destruct (set_ex_eff s3 e sd en3 (s_ex (gs en2 sd)) (Some true) (eff_nth F3 Hn2)) as (s4 & E4 & F4).
  rewrite E4. cbn [bind].
  exists s4. split; [reflexivity|].
  exact (eff_trans (eff_trans (eff_trans F1 F2) F3) F4).
Qed.

End NonLegacy.
