(* StateFolderProofs.v — folder path assignment (_change_path + _update_kids, recursion through the
   children) keeps the index invariant, provided the new path is not strictly below the folder's own
   previous path (the class of C11-F4, for which the setters do not even terminate).
   Proof: induction on the fuel with a frame statement ("which entries may have been re-pathed by a
   call"): a nested call for a child only re-paths entries whose path was below the child's old path,
   hence below the folder's old path; the folder itself (now at the new path) is not among them. *)
From Coq Require Import NArith List Bool Arith Lia.
From CS Require Import Sx Str ListFacts PathModel PathLaws StateModel StateProofs StatePathProofs StateGuardModel.
Import ListNotations.

Lemma strs_eqb_eq a b : strs_eqb a b = true <-> a = b.
Proof. exact (list_eqb_eq str_eqb str_eqb_eq a b). Qed.
Lemma belowb_spec cv a b : belowb cv a b = true <-> below cv a b.
Proof.
  unfold belowb, below. split.
  - intros H. apply andb_prop in H as [H1 H2]. apply Nat.ltb_lt in H1. apply strs_eqb_eq in H2.
    pose proof (firstn_skipn (length (Kc cv a)) (Kc cv b)) as Hs. rewrite H2 in Hs.
    exists (skipn (length (Kc cv a)) (Kc cv b)). split; [|symmetry; exact Hs].
    intros Hn. rewrite Hn, app_nil_r in Hs. rewrite <- Hs in H1. lia.
  - intros [r [Hr H]]. rewrite H. rewrite app_length. apply andb_true_intro. split.
    + apply Nat.ltb_lt. destruct r; [contradiction|simpl; lia].
    + rewrite firstn_len_app. apply strs_eqb_eq. reflexivity.
Qed.

Lemma lowk_nil_iff cv l : lowk cv l = [] <-> l = [].
Proof. unfold lowk. destruct (cv_cs cv); [reflexivity|]. split; [apply map_eq_nil|intros ->; reflexivity]. Qed.

Lemma Kc_join cv p rel : Kc cv (join cv [p; rel]) = Kc cv p ++ Kc cv rel.
Proof. unfold Kc. rewrite pc_join. simpl. rewrite app_nil_r. apply lowk_app. Qed.
Lemma Kc_sub cv (Hok : conv_ok cv) f t st r : is_subpath cv f t st = Rel r -> Kc cv t = Kc cv f ++ Kc cv r.
Proof. apply is_subpath_components. exact Hok. Qed.
Lemma Kc_nps cv p : Kc cv (nps cv p) = Kc cv p.
Proof. unfold Kc. rewrite pc_nps. reflexivity. Qed.

Lemma comps_nil_repeat c s : comps c s = [] -> s = repeat c (length s).
Proof.
  induction s as [|x s IH]; intros H; [reflexivity|]. simpl in H.
  destruct (N.eqb_spec x c) as [->|Hx].
  - simpl. f_equal. apply IH. exact H.
  - destruct (starts_comp c s); [destruct (comps c s)|]; discriminate.
Qed.

Lemma relpart_comps cv rel : relpart cv rel -> pc cv rel <> [].
Proof.
  intros [r' [E [Hr [Hna Hrs]]]] Hc. rewrite (pc_noalt cv _ Hna) in Hc.
  apply comps_nil_repeat in Hc. rewrite Hc, rstrip_repeat in Hrs. subst rel. discriminate.
Qed.

Lemma sub_strict_target cv f t r : is_subpath cv f t true = Rel r -> nps cv t <> [].
Proof.
  intros H Hn.
  destruct (is_subpath_inv _ _ _ _ _ H) as [Hst|x r' _ _ Ht|a r' _ Ht]; [discriminate| |]; rewrite Hn in Ht.
  - discriminate.
  - destruct a; discriminate.
Qed.

Lemma sub_strict_rel cv (Hok : conv_ok cv) f t r :
  is_subpath cv f t true = Rel r -> nps cv f <> [] -> Kc cv r <> [].
Proof.
  intros H Hnf Hk. apply lowk_nil_iff in Hk.
  destruct (is_subpath_rel_shape cv Hok _ _ _ _ H) as [Hr|Hr]; [|exact (relpart_comps cv r Hr Hk)].
  destruct (is_subpath_inv _ _ _ _ _ H) as [Hst|x r' Hneq Ef _ _|a r' _ Ht Ea]; [discriminate| |].
  - apply Hneq. rewrite Ef, Hr. symmetry. apply (lowc_sep_iff cv Hok). reflexivity.
  - injection Hr as ->.
    assert (Hla: length a = length (nps cv f)) by (rewrite <- (lowc_length cv a), Ea; apply lowc_length).
    destruct (nps_shape cv t) as [Hs|Hs].
    + rewrite Ht in Hs. destruct a; [destruct (nps cv f); [apply Hnf; reflexivity|discriminate]|destruct a; discriminate].
    + rewrite Ht, rstrip_app_drop in Hs by apply rstrip_single.
      pose proof (rstrip_length_le (cv_sep cv) a) as Hle. rewrite Hs, app_length in Hle. simpl in Hle. lia.
Qed.

(* right cancellation for `below` on component lists: it makes the guard of a folder (moving from pp to p) hold for its
   children (moving from pp/R to p/R), see kid_step_spec *)
Lemma below_cancel {T} (A B R : list T) :
  (exists r, r <> [] /\ B ++ R = (A ++ R) ++ r) -> exists t, t <> [] /\ B = A ++ t.
Proof.
  intros [r [Hr H]]. rewrite <- app_assoc in H. apply app_eq_app in H as [a [[H1 H2]|[H1 H2]]].
  - exists a. split; [|exact H1]. intros ->. simpl in H2. apply (f_equal (@length T)) in H2.
    rewrite app_length in H2. destruct r; [contradiction|simpl in H2; lia].
  - exfalso. apply (f_equal (@length T)) in H2. rewrite !app_length in H2. destruct r; [contradiction|simpl in H2; lia].
Qed.

Lemma otype_of_ent s e en sd : nth_error (ents s) e = Some en -> otype_of s e sd = Some (s_otype (gs en sd)).
Proof. unfold otype_of. intros ->. reflexivity. Qed.
Lemma pview_eq s s' : pview s = pview s' ->
  (forall e sd, path_of s e sd = path_of s' e sd) /\ (forall e sd, otype_of s e sd = otype_of s' e sd).
Proof.
  unfold pview. intros H.
  assert (Hk: forall en en' sd, pkey en = pkey en' ->
            s_path (gs en sd) = s_path (gs en' sd) /\ s_otype (gs en sd) = s_otype (gs en' sd)).
  { intros [] [] sd Hk. injection Hk as Ha Hb Hc Hd. destruct sd; split; assumption. }
  split; intros e sd.
  - apply (ents_proj_eq pkey s_path); [|exact H]. intros en en' sd' Ek. apply Hk. exact Ek.
  - apply (ents_proj_eq pkey (fun x => Some (s_otype x))); [|exact H]. intros en en' sd' Ek. f_equal. apply Hk. exact Ek.
Qed.
Lemma pview_ents s s' : ents s = ents s' -> pview s = pview s'.
Proof. unfold pview. intros ->. reflexivity. Qed.
Lemma pview_raw_side s e sd f :
  (forall x, s_path (f x) = s_path x /\ s_otype (f x) = s_otype x) -> pview (raw_side s e sd f) = pview s.
Proof.
  intros Hf. apply raw_side_map. intros en. unfold pkey, ss, gs. destruct sd; simpl; [destruct (Hf (e_r en)) as [-> ->]|destruct (Hf (e_l en)) as [-> ->]]; reflexivity.
Qed.

Lemma exec_oid_pview E f : forall fin e sd v s s', exec E f (COid fin e sd v) s = Ok s' -> pview s' = pview s.
Proof.
  apply (exec_oid_frame pview); intros; try reflexivity; [apply pview_ents, ents_st_oids|apply pview_ents, ents_st_paths|].
  apply pview_raw_side. intros y; split; reflexivity.
Qed.

Lemma get_all_ordered_view s l s' : get_all_ordered s = Ok (l, s') -> iview s' = iview s.
Proof.
  unfold get_all_ordered, pop_order. destruct (tape s) as [|[b|l0] r]; simpl; try discriminate.
  destruct (_ && _)%bool; [|discriminate]. intros H. injection H as _ <-. reflexivity.
Qed.

Section Folder.
Variable E : env.
Hypothesis Hleg : legacy E = false.
Hypothesis Hok : forall sd, conv_ok (cvs E sd).

(* entry x (path px in state s) lies below the old path q of the folder being moved: strictly, unless q normalises to
   the blank path *)
Definition moved (sd : bool) (q : option str) (s : state) (x : eid) : Prop :=
  exists qq px r, q = Some qq /\ path_of s x sd = Some px /\
    Kc (cvs E sd) px = Kc (cvs E sd) qq ++ r /\ (nps (cvs E sd) qq <> [] -> r <> []).
(* a frame: the only paths that may differ between s and s' are that of entry k itself and those of entries that were below q *)
Definition touch (s s' : state) (sd : bool) (k : eid) (q : option str) : Prop :=
  forall x sd', path_of s' x sd' = path_of s x sd' \/ (sd' = sd /\ (x = k \/ moved sd q s x)).
(* the guard: a folder does not go strictly below its own previous path *)
Definition gd (sd : bool) (ot : otype) (q v : option str) : Prop :=
  ot = Dir -> forall qq p, q = Some qq -> v = Some p -> ~ below (cvs E sd) qq p.

(* no id changes hands, unless the side takes its ids from the provider (oid_is_path) and children are re-filed;
   LInv's last clause is okeep restricted to the first disjunct of its premise; __setitem__ (move_side_spec) uses all three *)
Definition okeep (s s' : state) (sd : bool) (ot : otype) (q : option str) : Prop :=
  (oip E sd = false \/ ot <> Dir \/ q = None) -> forall x sd', oid_of s' x sd' = oid_of s x sd'.

Definition RecOK (rec : cmd -> state -> res state) : Prop :=
  (forall k sd v s s' en, IdxJ s -> get_ent s k = Ok en -> gd sd (s_otype (gs en sd)) (s_path (gs en sd)) v ->
     rec (CPath true k sd v) s = Ok s' ->
     IdxJ s' /\ touch s s' sd k (s_path (gs en sd)) /\ okeep s s' sd (s_otype (gs en sd)) (s_path (gs en sd))) /\
  (forall e sd v s s', IdxJ s -> rec (COid true e sd v) s = Ok s' -> IdxJ s' /\ pview s' = pview s) /\
  (forall c s s', flag_cmd c = true -> rec c s = Ok s' -> iview s' = iview s).

(* loop invariant of _update_kids for folder e moving from pp to p, relative to a state s0 before the loop *)
Definition LInv (e : eid) (sd : bool) (pp p : str) (s0 si : state) : Prop :=
  IdxJ si /\ path_of si e sd = Some p /\
  (forall x sd', path_of si x sd' = path_of s0 x sd' \/ (sd' = sd /\ moved sd (Some pp) s0 x)) /\
  (oip E sd = false -> forall x sd', oid_of si x sd' = oid_of s0 x sd').

Lemma kid_step_spec rec e sd pp p sub s0 si si' :
  RecOK rec -> ~ below (cvs E sd) pp p -> LInv e sd pp p s0 si ->
  kid_step E rec e sd pp p sub si = Ok si' -> LInv e sd pp p s0 si'.
Proof.
  intros [R1 [R2 R3]] Hg HI H. pose proof HI as [HJ [Hpe [Hfr Hok0]]]. unfold kid_step in H. bind_inv H sn E0. simpl in H.
  destruct (s_path (gs sn sd)) as [sp|] eqn:Esp; [|injection H as <-; exact HI].
  destruct sp as [|ch sp']; [injection H as <-; exact HI|].
  set (sp := ch :: sp') in *.
  destruct (is_subpath (cvs E sd) pp sp true) as [|[|c0 rel0]] eqn:Esub;
    try (injection H as <-; exact HI).
  rewrite Hleg in H. cbn [negb andb] in H.
  destruct (Nat.eqb_spec sub e) as [->|Hne]; [injection H as <-; exact HI|].
  set (rel := c0 :: rel0) in *. set (np := join (cvs E sd) [p; rel]) in *.
  bind_inv H s1 E1. bind_inv H s2 E2. bind_inv H sn2 E3.
  apply get_ent_ok in E0.
  assert (Hsub: path_of si sub sd = Some sp) by (unfold path_of; rewrite E0; exact Esp).
  pose proof (Kc_sub _ (Hok sd) _ _ _ _ Esub) as Ksp.
  pose proof (sub_strict_target _ _ _ _ Esub) as Hnsp.
  pose proof (sub_strict_rel _ (Hok sd) _ _ _ Esub) as HR.
  (* the id taken from the provider *)
  assert (H1: IdxJ s1 /\ pview s1 = pview si).
  { destruct (oip E sd); [|injection E1 as <-; split; [exact HJ|reflexivity]].
    destruct (info E sd np) as [o'|]; [|injection E1 as <-; split; [exact HJ|reflexivity]].
    eapply R2; eassumption. }
  destruct H1 as [HJ1 Hpv1].
  pose proof (proj1 (pview_eq _ _ Hpv1)) as Hp1.
  assert (Hsub1: path_of s1 sub sd = Some sp) by (rewrite Hp1; exact Hsub).
  destruct (side_some_ent s_path _ _ _ _ Hsub1) as [sn1 [Hsn1 Hsp1]].
  (* the child's own path assignment *)
  assert (Hgd: gd sd (s_otype (gs sn1 sd)) (s_path (gs sn1 sd)) (Some np)).
  { intros _ qq p0 Hq Hp0. rewrite Hsp1 in Hq. injection Hq as <-. injection Hp0 as <-.
    intros Hb. apply Hg. unfold below in *. unfold np in Hb. rewrite Kc_join, Ksp in Hb.
    apply (below_cancel _ _ (Kc (cvs E sd) rel)). exact Hb. }
  destruct (R1 _ _ _ _ _ _ HJ1 Hsn1 Hgd E2) as [HJ2 [Ht Hk2]]. rewrite Hsp1 in Ht.
  assert (Hs1: oip E sd = false -> s1 = si) by (intros Hoip; rewrite Hoip in E1; injection E1 as <-; reflexivity).
  (* the sync_path write *)
  assert (Hv: iview si' = iview s2).
  { destruct (s_spath (gs sn2 sd)) as [sy|]; [|injection H as <-; reflexivity].
    destruct sy as [|c2 sy']; [injection H as <-; reflexivity|].
    destruct (is_subpath (cvs E sd) pp (c2 :: sy') false) as [|[|c1 r1]]; injection H as <-; try reflexivity.
    rewrite iview_raw_side; [reflexivity|apply keeps_w_spath]. }
  destruct (iview_ext _ _ Hv) as [Hoid [Hfin _]].
  split; [exact (IdxJ_view s2 si' Hv HJ2)|]. split; [|split].
  3:{ intros Hoip x sd'. rewrite Hoid, (Hk2 (or_introl Hoip)), (Hs1 Hoip). exact (Hok0 Hoip x sd'). }
  - rewrite Hfin. destruct (Ht e sd) as [Heq|[_ [Hes|Hmv]]].
    + rewrite Heq, Hp1. exact Hpe.
    + exfalso. apply Hne. symmetry. exact Hes.
    + exfalso. destruct Hmv as [qq [px [r [Hq [Hpx [HK Hr]]]]]]. injection Hq as <-.
      rewrite Hp1, Hpe in Hpx. injection Hpx as <-. apply Hg. exists (Kc (cvs E sd) rel ++ r). split.
      * specialize (Hr Hnsp). destruct (Kc (cvs E sd) rel); [exact Hr|discriminate].
      * rewrite HK, Ksp, app_assoc. reflexivity.
  - intros x sd'. rewrite Hfin. destruct (Ht x sd') as [Heq|[-> Hc]].
    + rewrite Heq, Hp1. apply Hfr.
    + destruct (Hfr x sd) as [Hx0|Hm]; [|right; exact Hm]. right. split; [reflexivity|].
      destruct Hc as [->|Hmv].
      * exists pp, sp, (Kc (cvs E sd) rel). split; [reflexivity|]. split; [rewrite <- Hx0; exact Hsub|].
        split; [exact Ksp|exact HR].
      * destruct Hmv as [qq [px [r [Hq [Hpx [HK Hr]]]]]]. injection Hq as <-.
        exists pp, px, (Kc (cvs E sd) rel ++ r). split; [reflexivity|]. split; [rewrite <- Hx0, <- Hp1; exact Hpx|].
        split; [rewrite HK, Ksp, app_assoc; reflexivity|].
        intros _. specialize (Hr Hnsp). destruct (Kc (cvs E sd) rel); [exact Hr|discriminate].
Qed.

Lemma kids_loop_spec rec e sd pp p s0 : RecOK rec -> ~ below (cvs E sd) pp p ->
  forall l si si', LInv e sd pp p s0 si -> kids_loop E rec e sd pp p l si = Ok si' -> LInv e sd pp p s0 si'.
Proof.
  intros HR Hg. induction l as [|sub l IH]; intros si si' HI H; simpl in H.
  - injection H as <-. exact HI.
  - bind_inv H x E0. apply (IH x); [|exact H]. eapply kid_step_spec; eassumption.
Qed.

(* _change_path for any entry, with [rec] standing for the nested intercepted writes *)
Lemma path_main_spec rec e sd v s s1 en :
  RecOK rec -> IdxJ s -> get_ent s e = Ok en ->
  (tstr v && negb (tstr (s_oid (gs en sd))))%bool = false ->
  gd sd (s_otype (gs en sd)) (s_path (gs en sd)) v ->
  path_main E rec e sd v (gs en sd) s = Ok s1 ->
  IdxJ (raw_side s1 e sd (fun y => w_path y v)) /\
  touch s (raw_side s1 e sd (fun y => w_path y v)) sd e (s_path (gs en sd)) /\
  (tstr v = true -> path_of s1 e sd = v) /\
  okeep s (raw_side s1 e sd (fun y => w_path y v)) sd (s_otype (gs en sd)) (s_path (gs en sd)).
Proof.
  intros HR HJ Hen Eas Hgd Em. apply get_ent_ok in Hen.
  pose proof (path_of_ent _ _ _ sd Hen) as Hpe.
  (* if s1 has the path already, the final write changes nothing *)
  assert (Hfin: path_of s1 e sd = v ->
            (forall x sd', oid_of (raw_side s1 e sd (fun y => w_path y v)) x sd' = oid_of s1 x sd') /\
            (forall x sd', path_of (raw_side s1 e sd (fun y => w_path y v)) x sd' = path_of s1 x sd') /\
            (IdxJ s1 -> IdxJ (raw_side s1 e sd (fun y => w_path y v)))).
  { intros Hp. pose proof (iview_raw_path_same _ _ _ _ Hp) as Hv.
    destruct (iview_ext _ _ Hv) as [Ho' [Hp' _]].
    split; [exact Ho'|]. split; [exact Hp'|]. apply IdxJ_view. exact Hv. }
  destruct (path_main_cases _ _ _ _ _ _ _ _ HJ Hen Eas Em)
    as [[Hsame ->]|[[Hv [_ Hre]]|(p & sc & -> & _ & Hre & Em')]].
  - (* same path *)
    rewrite <- Hpe in Hsame. destruct (Hfin Hsame) as [Fo [Fp FJ]].
    split; [exact (FJ HJ)|]. split; [intros x sd'; left; apply Fp|]. split; [intros _; exact Hsame|intros _; exact Fo].
  - (* taken out of the path table *)
    destruct (refiled _ _ _ _ _ Hre) as [HJ1 [Ro Rp]].
    split; [exact (HJ1 HJ)|]. split; [|split; [rewrite Hv; discriminate|intros _; exact Ro]].
    intros x sd'. rewrite Rp. destruct (at2 x e sd' sd) eqn:Ex; [|left; reflexivity].
    apply at2_true in Ex as [Ex Es]. right. split; [exact Es|left; exact Ex].
  - (* re-filed under p: the children, then the priority *)
    destruct (refiled _ _ _ _ _ Hre) as [HJc [Hosc Hpsc]]. specialize (HJc HJ).
    bind_inv Em' sk E0. set (prior := s_path (gs en sd)) in *.
    assert (Hpc: path_of sc e sd = Some p) by (rewrite Hpsc, at2_refl; reflexivity).
    (* LInv relative to sc, for an optional prior path and with the whole premise of okeep *)
    pose (Inv := fun t => IdxJ t /\ path_of t e sd = Some p /\
                   (forall x sd', path_of t x sd' = path_of sc x sd' \/ (sd' = sd /\ moved sd prior sc x)) /\
                   ((oip E sd = false \/ s_otype (gs en sd) <> Dir \/ prior = None) -> forall x sd', oid_of t x sd' = oid_of sc x sd')).
    assert (Hloop: Inv sk).
    { assert (Hsc0: Inv sc).
      { split; [exact HJc|]. split; [exact Hpc|]. split; intros; [left|]; reflexivity. }
      destruct (otype_eqb (s_otype (gs en sd)) Dir) eqn:Ed; [|injection E0 as <-; exact Hsc0].
      destruct prior as [pp|] eqn:Epr; [|injection E0 as <-; exact Hsc0].
      bind_inv E0 x E1. destruct x as [order s0].
      assert (Hdir: s_otype (gs en sd) = Dir) by (destruct (s_otype (gs en sd)); try discriminate; reflexivity).
      assert (Hg: ~ below (cvs E sd) pp p) by (apply (Hgd Hdir); reflexivity).
      destruct (iview_ext _ _ (get_all_ordered_view _ _ _ E1)) as [Ho0 [Hp0 _]].
      (* the loop invariant relative to sc, the state before the set order was read off the tape *)
      assert (HI0: LInv e sd pp p sc s0).
      { split; [exact (IdxJ_view sc s0 (get_all_ordered_view _ _ _ E1) HJc)|].
        split; [rewrite Hp0; exact Hpc|]. split; intros; [left; apply Hp0|apply Ho0]. }
      destruct (kids_loop_spec _ _ _ _ _ _ HR Hg _ _ _ HI0 E0) as [A [B [C D]]].
      split; [exact A|]. split; [exact B|]. split; [exact C|].
      intros [Hoip|[Hnd|Hnp]]; [exact (D Hoip)|contradiction|discriminate]. }
    destruct Hloop as [HJk [Hpk [Hfk Hkk]]].
    destruct HR as [_ [_ R3]]. apply R3 in Em'; [|reflexivity].
    destruct (iview_ext _ _ Em') as [Ho1 [Hp1 _]].
    destruct Hfin as [Fo [Fp FJ]]; [rewrite Hp1; exact Hpk|].
    split; [exact (FJ (IdxJ_view sk s1 Em' HJk))|]. split; [|split; [intros _; rewrite Hp1; exact Hpk|]].
    2:{ intros Hc x sd'. rewrite Fo, Ho1, (Hkk Hc). apply Hosc. }
    intros x sd'. rewrite Fp, Hp1.
    destruct (at2 x e sd' sd) eqn:Ex.
    + apply at2_true in Ex as [Ex Es]. right. split; [exact Es|left; exact Ex].
    + destruct (Hfk x sd') as [C1|[-> C2]]; [left; rewrite C1, Hpsc, Ex; reflexivity|].
      right. split; [reflexivity|right]. destruct C2 as [qq [px [r [Hq [Hpx HK]]]]].
      exists qq, px, r. split; [exact Hq|]. split; [|exact HK]. rewrite <- Hpx, Hpsc, Ex. reflexivity.
Qed.

(* every amount of fuel: the nested writes behave as path_main_spec assumes *)
Lemma exec_rec_ok : forall f, RecOK (exec E f).
Proof.
  induction f as [|f IH].
  - split; [|split]; intros; discriminate.
  - split; [|split].
    + intros k sd v s s' en HJ Hen Hgd H. destruct (exec_path_inv _ _ _ _ _ _ _ _ _ H Hen) as [Eas [s1 [Em ->]]].
      destruct (path_main_spec _ _ _ _ _ _ _ IH HJ Hen Eas Hgd Em) as [A [B [_ D]]].
      (* exec_path_inv has turned s' into dirty_add (raw_side s1 ..) k, and IdxJ, touch, okeep of dirty_add t k are
         convertible with those of t *)
      exact (conj A (conj B D)).
    + intros e sd v s s' HJ H. split; [exact (exec_oid_pres _ _ _ _ _ _ _ _ (fun _ => eq_refl) HJ H)|eapply exec_oid_pview; eassumption].
    + intros c s s' Hc H. exact (exec_flag_view _ _ _ _ _ Hc H).
Qed.

(* updated(side, "path", v) without the field write (SyncEntry.__setitem__): the invariant holds once
   the field is written; for a non-empty v it has been written already *)
Lemma exec_path_false_pres f k sd v s s' en :
  IdxJ s -> get_ent s k = Ok en -> gd sd (s_otype (gs en sd)) (s_path (gs en sd)) v ->
  exec E f (CPath false k sd v) s = Ok s' ->
  IdxJ (raw_side s' k sd (fun y => w_path y v)) /\
  touch s (raw_side s' k sd (fun y => w_path y v)) sd k (s_path (gs en sd)) /\
  (tstr v = true -> path_of s' k sd = v) /\
  okeep s (raw_side s' k sd (fun y => w_path y v)) sd (s_otype (gs en sd)) (s_path (gs en sd)).
Proof.
  intros HJ Hen Hgd H. destruct f as [|f]; [discriminate|].
  destruct (exec_path_inv _ _ _ _ _ _ _ _ _ H Hen) as [Eas [s1 [Em ->]]].
  rewrite raw_side_dirty_add. exact (path_main_spec _ _ _ _ _ _ _ (exec_rec_ok f) HJ Hen Eas Hgd Em).
Qed.
End Folder.

Definition env_ok (E : env) : Prop := legacy E = false /\ forall sd, conv_ok (cvs E sd).

Lemma path_guardb_eq E s e sd p :
  path_guardb E s e sd (Some p) =
  match otype_of s e sd, path_of s e sd with Some Dir, Some pp => negb (belowb (cvs E sd) pp p) | _, _ => true end.
Proof. unfold path_guardb, otype_of, path_of. destruct (nth_error (ents s) e); reflexivity. Qed.

Lemma path_guardb_gd E s e sd v en :
  path_guardb E s e sd v = true -> get_ent s e = Ok en -> gd E sd (s_otype (gs en sd)) (s_path (gs en sd)) v.
Proof.
  intros Hg Hen Hd qq p Hq Hv Hb. apply get_ent_ok in Hen. unfold path_guardb in Hg. rewrite Hen, Hv, Hd, Hq in Hg.
  apply belowb_spec in Hb. rewrite Hb in Hg. discriminate.
Qed.

Lemma set_path_pres E s e sd v s' :
  env_ok E -> IdxJ s -> path_guardb E s e sd v = true -> set_path E s e sd v = Ok s' -> IdxJ s'.
Proof.
  intros [Hl Hok] HJ Hg H. unfold set_path, run_cmd in H.
  destruct (get_ent s e) as [en|] eqn:Hen.
  - eapply (proj1 (exec_rec_ok E Hl Hok _)); [exact HJ|exact Hen|eapply path_guardb_gd; eassumption|exact H].
  - destruct (fuel_of s); [discriminate|]. simpl in H. rewrite Hen in H. discriminate.
Qed.
