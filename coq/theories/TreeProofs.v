(* TreeProofs.v — the user-visible laws of the reference file tree (TreeModel.v) and the theorem
   behind C04: operations of two users that touch unrelated files and folders commute, so the
   outcome of concurrent non-conflicting changes does not depend on how they interleave in time.

   wf t        = unique keys + parent-closed (every stored path is non-root and its parent is the
                 account root or a stored folder).  Unique keys ALONE are not preserved by
                 [apply_op] (Example [nodup_alone_not_preserved] below), parent-closedness is what
                 providers guarantee and what makes Rename well behaved.
   teq a b     = same lookup at every path;  on wf trees  same_tree a b = true <-> teq a b. *)
From Coq Require Import NArith List Bool.
From CS Require Import Sx TreeModel Monitor TreePaths TreeLookup TreeSem TreeCanon.
Import ListNotations.

Fixpoint nodupb (l : list path) : bool :=
  match l with
  | [] => true
  | x :: r => negb (existsb (path_eqb x) r) && nodupb r
  end.
Definition closedb (t : tree) : bool :=
  forallb (fun e => match fst e with [] => false | _ => is_dir t (parent (fst e)) end) t.
Definition wfb (t : tree) : bool := nodupb (map fst t) && closedb t.

Lemma closedb_sound t : closedb t = true -> closed t.
Proof.
  intros H k Hk. apply lookup_keys in Hk. apply in_map_iff in Hk as [[k' n] [Hk Hin]].
  simpl in Hk. subst k'. unfold closedb in H. rewrite forallb_forall in H.
  specialize (H _ Hin). simpl in H. destruct k as [|x k]; [discriminate|].
  split; [discriminate|exact H].
Qed.

Theorem wfb_sound t : wfb t = true -> wf t.
Proof.
  intros H. apply andb_true_iff in H as [H1 H2].
  split; [apply (nodupb_NoDup path_eqb path_eqb_eq); exact H1|apply closedb_sound; exact H2].
Qed.

Lemma wf_closed t : wf t -> closed t.
Proof. intros [_ H]. exact H. Qed.

Theorem same_tree_teq a b : wf a -> wf b -> (same_tree a b = true <-> teq a b).
Proof. intros [Ha _] [Hb _]. apply same_tree_iff_teq; assumption. Qed.

Lemma apply_op_refused t o : accepts (lookup t) (has_children t) o = false -> apply_op t o = t.
Proof. intros H. rewrite apply_op_run_edit, H. reflexivity. Qed.

Lemma apply_op_accepted t o :
  closed t -> accepts (lookup t) (has_children t) o = true ->
  edit_ok (lookup t) (edit_for o) /\ forall r, lookup (apply_op t o) r = run_editL (lookup t) (edit_for o) r.
Proof.
  intros Hc H. pose proof (accepts_ok _ _ o Hc (has_children_sound t) H) as Hok.
  split; [exact Hok|]. intros r. rewrite apply_op_run_edit, H. apply lookup_run_edit. exact Hok.
Qed.

Lemma touches_root_noop t o : closed t -> In [] (touched o) -> apply_op t o = t.
Proof. intros Hc Hin. apply apply_op_refused, accepts_root; assumption. Qed.

Definition reads (o : op) (s : path) : Prop :=
  domb o s = true \/ exists x, In x (touched o) /\ s = parent x.

Lemma local_shift root t t' ro r :
  closed t -> closed t' -> is_dir t root = true ->
  ~ In [] (touched ro) ->
  (forall s, s <> [] -> reads ro s -> lookup t' s = lookup t (root ++ s)) ->
  domb ro r = true ->
  lookup (apply_op t' ro) r = lookup (apply_op t (shift_op root ro)) (root ++ r).
Proof.
  intros Hc Hc' Hroot Hnil Hag Hd. rewrite !apply_op_sem by assumption.
  apply sem_shift; [exact Hroot| |exact Hd].
  intros x Hin.
  assert (Hx : x <> []) by (intros ->; contradiction).
  assert (Hs : forall s, lookup t' (x ++ s) = lookup t (root ++ x ++ s)).
  { intros s. apply Hag; [apply app_nonnil_l; exact Hx|].
    left. apply domb_iff. exists x. split; [exact Hin|apply pre_app]. }
  split; [exact Hx|]. split; [exact Hs|]. split.
  - intros Hp. apply Hag; [exact Hp|]. right. exists x. split; [exact Hin|reflexivity].
  - apply eq_true_iff_eq. rewrite !has_children_iff.
    split; intros [s [Hne Hl]]; exists s; (split; [exact Hne|]).
    + rewrite <- app_assoc, <- Hs. exact Hl.
    + rewrite Hs, app_assoc. exact Hl.
Qed.

Lemma local_plain t t' o r :
  closed t -> closed t' ->
  (forall s, reads o s -> lookup t' s = lookup t s) ->
  domb o r = true ->
  lookup (apply_op t' o) r = lookup (apply_op t o) r.
Proof.
  intros Hc Hc' Hag Hd.
  destruct (in_dec (list_eq_dec N.eq_dec) [] (touched o)) as [Hin|Hnin].
  - rewrite !touches_root_noop by assumption. apply Hag. left. exact Hd.
  - pose proof (local_shift [] t t' o r Hc Hc' eq_refl Hnin) as H.
    rewrite shift_op_nil in H. apply H; [|exact Hd].
    intros s _ Hs. apply Hag. exact Hs.
Qed.

Lemma apply_op_teq_closed a b o :
  closed a -> closed b -> teq a b -> teq (apply_op a o) (apply_op b o).
Proof.
  intros Ha Hb H r. destruct (domb o r) eqn:E.
  - apply local_plain; try assumption. intros s _. apply H.
  - rewrite !apply_op_frame by assumption. apply H.
Qed.

Theorem apply_op_teq a b o : wf a -> wf b -> teq a b -> teq (apply_op a o) (apply_op b o).
Proof. intros [_ Ha] [_ Hb]. apply apply_op_teq_closed; assumption. Qed.

Lemma closed_apply_ops os : forall t, closed t -> closed (apply_ops t os).
Proof. apply fold_left_invariant. intros t o _. apply closed_apply_op. Qed.

(* closes the closedness / wf side goals of the proofs below that end in [auto] *)
#[local] Hint Resolve closed_apply_op closed_apply_ops wf_apply_op wf_apply_ops : core.

Lemma apply_ops_teq_closed os :
  forall a b, closed a -> closed b -> teq a b -> teq (apply_ops a os) (apply_ops b os).
Proof.
  induction os as [|o os IH]; intros a b Ha Hb H; [exact H|].
  simpl. apply IH; auto using apply_op_teq_closed.
Qed.

Lemma indep_spec a b :
  indep a b = true <->
  forall x y, In x (touched a) -> In y (touched b) -> ~ pre x y /\ ~ pre y x.
Proof.
  unfold indep. split.
  - intros H x y Hx Hy. rewrite forallb_forall in H. specialize (H x Hx).
    rewrite forallb_forall in H. specialize (H y Hy).
    apply negb_true_iff in H. apply comparable_false_iff. exact H.
  - intros H. apply forallb_forall. intros x Hx. apply forallb_forall. intros y Hy.
    apply negb_true_iff. apply comparable_false_iff. apply H; assumption.
Qed.

Lemma indep_sym a b : indep a b = true -> indep b a = true.
Proof.
  rewrite !indep_spec. intros H x y Hx Hy. destruct (H y x Hy Hx). tauto.
Qed.

Lemma indep_reads a b s : indep a b = true -> reads a s -> domb b s = false.
Proof.
  intros Hi Hr. destruct (domb b s) eqn:Eb; [exfalso|reflexivity].
  apply domb_iff in Eb as (y & Hy & Hys). destruct Hr as [Ha|(x & Hx & ->)].
  - apply domb_iff in Ha as (x & Hx & Hxs). destruct (proj1 (indep_spec a b) Hi x y Hx Hy).
    destruct (pre_comparable x y s Hxs Hys); tauto.
  - destruct (proj1 (indep_spec a b) Hi x y Hx Hy) as [_ H2].
    apply H2. eapply pre_trans; [exact Hys|apply pre_parent].
Qed.

Lemma comm_on_dom t a b r :
  closed t -> indep a b = true -> domb a r = true ->
  lookup (apply_op (apply_op t a) b) r = lookup (apply_op (apply_op t b) a) r.
Proof.
  intros Hc Hi Hd.
  rewrite (apply_op_frame (apply_op t a) b r); auto.
  - symmetry. apply local_plain; auto.
    intros s Hs. apply apply_op_frame; [exact Hc|]. eapply indep_reads; eassumption.
  - apply (indep_reads a b r Hi). left. exact Hd.
Qed.

Lemma apply_op_comm_closed a b t :
  indep a b = true -> closed t ->
  teq (apply_op (apply_op t a) b) (apply_op (apply_op t b) a).
Proof.
  intros Hi Hc r.
  destruct (domb a r) eqn:Ea; [apply comm_on_dom; assumption|].
  destruct (domb b r) eqn:Eb.
  - symmetry. apply comm_on_dom; try assumption. apply indep_sym. exact Hi.
  - rewrite !apply_op_frame; auto.
Qed.

Lemma comm_past y xs :
  forall t, closed t -> (forall x, In x xs -> indep x y = true) ->
  teq (apply_ops (apply_op t y) xs) (apply_op (apply_ops t xs) y).
Proof.
  induction xs as [|x xs IH]; intros t Hc Hi; [apply teq_refl|].
  simpl. apply teq_trans with (apply_ops (apply_op (apply_op t x) y) xs).
  - apply apply_ops_teq_closed; auto.
    apply apply_op_comm_closed; [|exact Hc]. apply indep_sym, Hi. left. reflexivity.
  - apply IH; auto. intros x0 H0. apply Hi. right. exact H0.
Qed.

Inductive interleave : list op -> list op -> list op -> Prop :=
| il_nil : interleave [] [] []
| il_left x xs ys zs : interleave xs ys zs -> interleave (x :: xs) ys (x :: zs)
| il_right y xs ys zs : interleave xs ys zs -> interleave xs (y :: ys) (y :: zs).

Lemma disjoint_cons_l x xs ys : disjoint (x :: xs) ys = true -> disjoint xs ys = true.
Proof. unfold disjoint. simpl. intros H. apply andb_true_iff in H. tauto. Qed.

Lemma disjoint_cons_r xs y ys :
  disjoint xs (y :: ys) = true ->
  (forall x, In x xs -> indep x y = true) /\ disjoint xs ys = true.
Proof.
  unfold disjoint. intros H. rewrite forallb_forall in H.
  split; [|apply forallb_forall]; intros x Hx; specialize (H x Hx); simpl in H;
    apply andb_true_iff in H; tauto.
Qed.

Lemma interleave_merge_closed xs ys zs :
  interleave xs ys zs ->
  forall base, disjoint xs ys = true -> closed base ->
  teq (apply_ops base zs) (merge3 base xs ys).
Proof.
  unfold merge3. intros H. induction H as [|x xs ys zs H IH|y xs ys zs H IH]; intros base Hd Hc.
  - apply teq_refl.
  - simpl. apply IH; auto. eapply disjoint_cons_l; exact Hd.
  - simpl. apply disjoint_cons_r in Hd as [Hy Hd].
    eapply teq_trans; [apply IH; auto|].
    apply apply_ops_teq_closed; auto. apply comm_past; assumption.
Qed.

(* C04 core: the result of two users' non-conflicting changes is the same for every interleaving *)
Theorem interleave_independent base xs ys zs :
  disjoint xs ys = true -> wf base -> interleave xs ys zs ->
  teq (apply_ops base zs) (merge3 base xs ys).
Proof. intros Hd [_ Hc] Hi. apply interleave_merge_closed; assumption. Qed.

Theorem interleave_same_tree base xs ys zs :
  disjoint xs ys = true -> wf base -> interleave xs ys zs ->
  same_tree (apply_ops base zs) (merge3 base xs ys) = true.
Proof.
  intros Hd Hw Hi. apply same_tree_teq; [auto|unfold merge3; auto|apply interleave_independent; assumption].
Qed.

Corollary interleavings_agree base xs ys zs zs' :
  disjoint xs ys = true -> wf base -> interleave xs ys zs -> interleave xs ys zs' ->
  same_tree (apply_ops base zs) (apply_ops base zs') = true.
Proof.
  intros Hd Hw H1 H2. apply same_tree_teq; auto.
  eapply teq_trans; [apply interleave_independent; eassumption|].
  apply teq_sym. apply interleave_independent; assumption.
Qed.

(* when the provider accepts a delete / a rename: [accepts (lookup t) (has_children t)] of TreeSem at
   [Delete p] / [Rename p q], spelled out; convertible with it, which the proofs below use *)
Definition delete_ok (t : tree) (p : path) : bool :=
  match lookup t p with
  | Some (File _) => true
  | Some Dir => negb (has_children t p)
  | None => false
  end.

Definition rename_ok (t : tree) (p q : path) : bool :=
  match lookup t p with
  | None => false
  | Some n =>
    negb (path_eqb p q) && negb (is_prefix p q) && parent_ok t q &&
    match lookup t q with
    | None => true
    | Some n' => same_kind n n' && match n' with Dir => negb (has_children t q) | File _ => false end
    end
  end.

Theorem delete_refused t p : delete_ok t p = false -> apply_op t (Delete p) = t.
Proof. exact (apply_op_refused t (Delete p)). Qed.

Theorem rename_refused t p q : rename_ok t p q = false -> apply_op t (Rename p q) = t.
Proof. exact (apply_op_refused t (Rename p q)). Qed.

Lemma rename_ok_incomparable t p q : closed t -> rename_ok t p q = true -> ~ pre p q /\ ~ pre q p.
Proof.
  intros Hc Hok. destruct (apply_op_accepted t (Rename p q) Hc Hok) as [Hmv _].
  split; [exact (mv_ok_not_into _ p q Hmv)|exact (mv_ok_target_not_above _ p q Hmv)].
Qed.

(* a successful rename/move: the object and everything below it is found at the new path with
   its content, nothing is left at or below the old path, unrelated paths are untouched *)
Theorem rename_moves_subtree t p q :
  wf t -> rename_ok t p q = true ->
  (forall s, lookup (apply_op t (Rename p q)) (q ++ s) = lookup t (p ++ s)) /\
  (forall s, lookup (apply_op t (Rename p q)) (p ++ s) = None) /\
  (forall r, ~ pre p r -> ~ pre q r -> lookup (apply_op t (Rename p q)) r = lookup t r).
Proof.
  intros [_ Hc] Hok.
  destruct (apply_op_accepted t (Rename p q) Hc Hok) as [_ Hsem]. cbn [edit_for run_editL] in Hsem.
  destruct (rename_ok_incomparable t p q Hc Hok) as [Hpq Hqp].
  split; [|split].
  - intros s. rewrite Hsem, moveL_below. unfold removeL.
    rewrite path_eqb_false; [reflexivity|]. intros ->. apply Hpq, pre_app.
  - intros s. rewrite Hsem. unfold moveL.
    replace (is_prefix q (p ++ s)) with false; [rewrite is_prefix_app; reflexivity|].
    symmetry. apply is_prefix_false_iff. intros Hq.
    destruct (pre_comparable q p (p ++ s) Hq (pre_app p s)); tauto.
  - intros r H1 H2. rewrite Hsem, moveL_other by assumption. unfold removeL.
    rewrite path_eqb_false; [reflexivity|]. intros ->. apply H2, pre_refl.
Qed.

Lemma delete_law t p : closed t -> delete_ok t p = true ->
  (forall s, lookup (apply_op t (Delete p)) (p ++ s) = None) /\
  (forall r, r <> p -> lookup (apply_op t (Delete p)) r = lookup t r).
Proof.
  intros Hc Hok.
  destruct (apply_op_accepted t (Delete p) Hc Hok) as [[_ Hbelow] Hrem]. cbn [edit_for run_editL] in Hrem.
  split.
  - intros s. rewrite Hrem. apply removeL_clear; [exact Hbelow|apply pre_app].
  - intros r Hr. rewrite Hrem. unfold removeL. rewrite path_eqb_false by congruence. reflexivity.
Qed.

Theorem write_law t p c c0 :
  lookup t p = Some (File c0) ->
  forall r, lookup (apply_op t (Write p c)) r = if path_eqb p r then Some (File c) else lookup t r.
Proof. intros H r. unfold apply_op. rewrite H. apply lookup_set. Qed.

Theorem write_refused t p c :
  (forall c0, lookup t p <> Some (File c0)) -> apply_op t (Write p c) = t.
Proof.
  intros H. unfold apply_op. destruct (lookup t p) as [[|c0]|] eqn:E; try reflexivity.
  exfalso. apply (H c0). reflexivity.
Qed.

Theorem create_law t p c :
  lookup t p = None -> parent_ok t p = true ->
  forall r, lookup (apply_op t (Create p c)) r = if path_eqb p r then Some (File c) else lookup t r.
Proof. intros H1 H2 r. unfold apply_op. rewrite H1, H2. apply lookup_set. Qed.

Theorem mkdir_law t p :
  lookup t p = None -> parent_ok t p = true ->
  forall r, lookup (apply_op t (Mkdir p)) r = if path_eqb p r then Some Dir else lookup t r.
Proof. intros H1 H2 r. unfold apply_op. rewrite H1, H2. apply lookup_set. Qed.

Theorem untouched_unchanged t o r :
  wf t -> (forall x, In x (touched o) -> ~ pre x r) -> lookup (apply_op t o) r = lookup t r.
Proof.
  intros [_ Hc] H. apply apply_op_frame; [exact Hc|].
  destruct (domb o r) eqn:E; [|reflexivity]. exfalso.
  apply domb_iff in E as [x [Hx Hpre]]. exact (H x Hx Hpre).
Qed.

Lemma rel_path_shift root p p' : rel_path root p = Some p' -> p = root ++ p' /\ p' <> [].
Proof.
  unfold rel_path. destruct (strict_prefix root p) eqn:E; [|discriminate].
  intros H. inversion H; subst. apply strict_prefix_iff in E as [s [Hs Hp]]. subst p.
  rewrite skipn_len_app. split; [reflexivity|exact Hs].
Qed.

Lemma rel_op_shift root o ro :
  rel_op root o = Some ro -> o = shift_op root ro /\ ~ In [] (touched ro).
Proof.
  destruct o as [p c|p c|p|p q|p]; simpl;
    (destruct (rel_path root p) as [p'|] eqn:E; [apply rel_path_shift in E as [-> Hn]|discriminate]).
  1-3,5: intros [= <-]; simpl; intuition.
  destruct (rel_path root q) as [q'|] eqn:E; [apply rel_path_shift in E as [-> Hn']|discriminate].
  intros [= <-]. simpl. intuition.
Qed.

Lemma closed_view root t : closed t -> closed (view root t).
Proof.
  intros Hc k Hk. rewrite lookup_view in Hk. destruct k as [|x k]; [congruence|].
  split; [discriminate|]. destruct (Hc _ Hk) as [_ Hd].
  rewrite parent_app in Hd by discriminate.
  destruct (parent (x :: k)) as [|y u] eqn:Eu; [reflexivity|].
  change (dirL (lookup (view root t)) (y :: u) = true).
  change (dirL (lookup t) (root ++ y :: u) = true) in Hd.
  rewrite <- Hd. apply dirL_transfer; [discriminate|apply app_nonnil_r; discriminate|].
  rewrite lookup_view. reflexivity.
Qed.

Lemma view_unshift root t :
  map (fun e => (root ++ fst e, snd e)) (view root t) = filter (fun e => strict_prefix root (fst e)) t.
Proof.
  unfold view. induction t as [|[k n] t IH]; cbn; [reflexivity|].
  destruct (strict_prefix root k) eqn:E; cbn; rewrite IH; [|reflexivity].
  apply strict_prefix_iff in E as (s & _ & ->). rewrite skipn_len_app. reflexivity.
Qed.

Lemma nodup_view root t : NoDup (map fst t) -> NoDup (map fst (view root t)).
Proof.
  intros H. apply (NoDup_map_inv (app root)).
  assert (E : map (app root) (map fst (view root t)) = map fst (filter (fun e => strict_prefix root (fst e)) t))
    by (rewrite <- view_unshift, !map_map; reflexivity).
  rewrite E. apply NoDup_map_filter. exact H.
Qed.

Theorem wf_view root t : wf t -> wf (view root t).
Proof. intros [H1 H2]. split; [apply nodup_view; exact H1|apply closed_view; exact H2]. Qed.

(* applying an operation inside the root and then looking below the root
   = looking below the root and applying the root-relative operation *)
Theorem view_apply_op root t o ro :
  wf t -> is_dir t root = true -> rel_op root o = Some ro ->
  teq (view root (apply_op t o)) (apply_op (view root t) ro).
Proof.
  intros [_ Hc] Hroot Hrel r. apply rel_op_shift in Hrel as [-> Hnil].
  pose proof (closed_view root t Hc) as Hcv.
  rewrite lookup_view. destruct r as [|x r].
  - symmetry. apply (closedL_root (lookup (apply_op (view root t) ro))).
    apply closed_apply_op. exact Hcv.
  - destruct (domb ro (x :: r)) eqn:E.
    + symmetry. apply local_shift; try assumption.
      intros s Hs _. rewrite lookup_view. destruct s; [congruence|reflexivity].
    + rewrite apply_op_frame by (try exact Hc; rewrite domb_shift; exact E).
      rewrite apply_op_frame by assumption. rewrite lookup_view. reflexivity.
Qed.

Theorem view_apply_op_same_tree root t o ro :
  wf t -> is_dir t root = true -> rel_op root o = Some ro ->
  same_tree (view root (apply_op t o)) (apply_op (view root t) ro) = true.
Proof.
  intros Hw Hroot Hrel. apply same_tree_teq; auto using wf_view, view_apply_op.
Qed.

Theorem outside_apply_op root t o ro :
  wf t -> rel_op root o = Some ro -> teq (outside root (apply_op t o)) (outside root t).
Proof.
  intros Hw Hrel r. apply rel_op_shift in Hrel as [-> Hnil].
  rewrite !lookup_outside. destruct (strict_prefix root r) eqn:E; [reflexivity|].
  apply untouched_unchanged; [exact Hw|]. intros x Hx [s Hs]. rewrite touched_shift in Hx.
  apply in_map_iff in Hx as [x' [Hx' Hin]]. subst x r.
  assert (Hne : x' <> []) by (intros ->; contradiction).
  rewrite <- app_assoc in E. rewrite strict_prefix_app in E; [discriminate|].
  apply app_nonnil_l. exact Hne.
Qed.

Local Open Scope N_scope.

(* /1 (folder) /1/2 (folder) /1/2/3 (file 10) /1/4 (file 11) /5 (folder) /5/6 (file 12) /7 (file 13) *)
Definition ex_base : tree :=
  [([1], Dir); ([1;2], Dir); ([1;2;3], File 10); ([1;4], File 11);
   ([5], Dir); ([5;6], File 12); ([7], File 13)].
(* user A renames folder /1/2 to /1/8, then writes /1/8/3;  user B deletes /5/6, then /5, creates /9 *)
Definition ex_xs : list op := [Rename [1;2] [1;8]; Write [1;8;3] 20].
Definition ex_ys : list op := [Delete [5;6]; Delete [5]; Create [9] 21].
Definition ex_zs : list op :=
  [Delete [5;6]; Rename [1;2] [1;8]; Delete [5]; Write [1;8;3] 20; Create [9] 21].

Example ex_base_wf : wf ex_base.
Proof. apply wfb_sound. vm_compute. reflexivity. Qed.
Example ex_disjoint : disjoint ex_xs ex_ys = true.
Proof. vm_compute. reflexivity. Qed.
Example ex_interleave : interleave ex_xs ex_ys ex_zs.
Proof. unfold ex_xs, ex_ys, ex_zs. repeat constructor. Qed.
Example ex_result :
  canon (apply_ops ex_base ex_zs) =
  [([1], Dir); ([1;4], File 11); ([1;8], Dir); ([1;8;3], File 20); ([7], File 13); ([9], File 21)].
Proof. vm_compute. reflexivity. Qed.
Example ex_equal : same_tree (apply_ops ex_base ex_zs) (merge3 ex_base ex_xs ex_ys) = true.
Proof. vm_compute. reflexivity. Qed.
Example ex_equal_by_theorem : same_tree (apply_ops ex_base ex_zs) (merge3 ex_base ex_xs ex_ys) = true.
Proof. apply interleave_same_tree; [exact ex_disjoint|exact ex_base_wf|exact ex_interleave]. Qed.
Example ex_rename_ok : rename_ok ex_base [1;2] [1;8] = true.
Proof. vm_compute. reflexivity. Qed.
Example ex_delete_ok : delete_ok (apply_op ex_base (Delete [5;6])) [5] = true.
Proof. vm_compute. reflexivity. Qed.
Example ex_view :
  rel_op [1] (Rename [1;2] [1;8]) = Some (Rename [2] [8]) /\ is_dir ex_base [1] = true.
Proof. vm_compute. split; reflexivity. Qed.

(* unique keys alone are NOT preserved: a tree with an orphan (/2/5 without /2) gets a duplicate
   key when /0 is renamed to /2 — this is why wf includes parent-closedness *)
Example nodup_alone_not_preserved :
  let t := [([0], Dir); ([0;5], File 1); ([2;5], File 2)] in
  nodupb (map fst t) = true /\ nodupb (map fst (apply_op t (Rename [0] [2]))) = false.
Proof. vm_compute. split; reflexivity. Qed.

(* without independence the order matters: Delete of an empty folder vs Create inside it *)
Example dependent_ops_do_not_commute :
  let t := [([1], Dir)] in
  indep (Delete [1]) (Create [1;2] 5) = false /\
  same_tree (apply_op (apply_op t (Delete [1])) (Create [1;2] 5))
            (apply_op (apply_op t (Create [1;2] 5)) (Delete [1])) = false.
Proof. vm_compute. split; reflexivity. Qed.

Print Assumptions wfb_sound.
Print Assumptions wf_apply_op.
Print Assumptions same_tree_teq.
Print Assumptions apply_op_teq.
Print Assumptions interleave_independent.
Print Assumptions interleave_same_tree.
Print Assumptions interleavings_agree.
Print Assumptions rename_moves_subtree.
Print Assumptions untouched_unchanged.
Print Assumptions view_apply_op.
Print Assumptions view_apply_op_same_tree.
Print Assumptions outside_apply_op.
Print Assumptions delete_refused.
Print Assumptions rename_refused.
Print Assumptions write_law.
Print Assumptions write_refused.
Print Assumptions create_law.
Print Assumptions mkdir_law.
Print Assumptions wf_view.
