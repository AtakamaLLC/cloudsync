(* PropC14.v — property theorems for C14 (events are hints) about EventModel.v / StateModel.v, each followed by Print
   Assumptions.  Quantification: EVERY provider environment E, EVERY state satisfying the C11 index invariant IdxJ (not only reachable
   ones; the three process_event theorems and the two stamp theorems need no invariant: any state), every event payload,
   every recorded set order on the tape.  "id-stable" = oip E sd = false; events of such
   providers carry no prior_oid.  What the equivalences compare (EventLaws.abs_entry / eqv): per entry and side otype, id,
   path, hash, sync markers, exists, whether the side is flagged changed, force_sync; ignore reason; priority; the change
   set; both indexes as finite maps.  Forgotten: the NUMERIC change stamps, the dirty set, the clock.  The engine reads the
   numeric stamps in three places only: SyncState.change (which pending entry is eligible first - when, not what),
   SyncEntry.get_latest (whether to re-read: C14_event_forces_reread_partial / _refuted), SyncManager.sync (which side of an entry flagged on
   BOTH sides is handled first: the event's side always gets the newest stamp, C14_update_stamp_newest). *)
From Coq Require Import NArith List Bool Arith Lia.
From CS Require Import Sx Str PathModel PathLaws StateModel StateProofs StatePathProofs EventModel EventProofs EventLaws EventCommute EventStamps EventRefute.
Import ListNotations.

(* an event without an id is dropped: the state is returned unchanged (unless it is a folder deletion with a known path) *)
Theorem C14_idless_event_dropped : forall E roots es sd ev fw ri,
  ev_oid ev = None ->
  (ev_ex ev <> Some false \/ ev_ot ev <> Some Dir \/ tstr (ev_path ev) = false \/
   lookup_path_live (st es) sd (ev_path ev) = []) ->
  process_event E roots es sd ev fw ri = Ok (ODropped, es).
Proof. intros E roots es sd ev fw ri Ho H. unfold process_event. rewrite (resolve_oid_none _ _ _ Ho H). reflexivity. Qed.
Print Assumptions C14_idless_event_dropped.

(* an id-less folder deletion is handled exactly as if it carried the id of the first live entry filed under its path *)
Theorem C14_folder_delete_by_path : forall E roots es sd ev fw ri e r x,
  ev_oid ev = None -> ev_ex ev = Some false -> ev_ot ev = Some Dir -> tstr (ev_path ev) = true ->
  lookup_path_live (st es) sd (ev_path ev) = e :: r -> side_of (st es) e sd = Some x ->
  process_event E roots es sd ev fw ri =
  process_event E roots es sd (ev_with ev (s_oid x) (ev_path ev)) fw ri.
Proof.
  intros E roots es sd ev fw ri e r x Ho Hex Hot Ht Hl Hx. unfold process_event.
  rewrite (resolve_oid_by_path _ _ _ _ _ _ Ho Hex Hot Ht Hl Hx).
  destruct (s_oid x) as [o|] eqn:Eo; [reflexivity|].
  rewrite (resolve_oid_by_path _ _ (ev_with ev None _) _ _ _ eq_refl Hex Hot Ht Hl Hx), Eo. reflexivity.
Qed.
Print Assumptions C14_folder_delete_by_path.

(* a walk event whose hash and path equal the stored entry (whatever its exists / otype say) changes nothing and marks
   nothing changed *)
Theorem C14_walk_event_noop_if_equal : forall E roots es sd ev ri o e x,
  ev_oid ev = Some o -> lookup_oid (st es) sd (Some o) = Some e -> side_of (st es) e sd = Some x ->
  s_hash x = ev_hash ev -> s_path x = ev_path ev ->
  process_event E roots es sd ev true ri = Ok (OWalkSame, es).
Proof.
  intros E roots es sd ev ri o e x Ho Hl Hx Hh Hp. unfold process_event, resolve_oid, walk_same.
  rewrite Ho, Hl, Hx, Hh, Hp, oN_eqb_refl, ostr_eqb_refl. reflexivity.
Qed.
Print Assumptions C14_walk_event_noop_if_equal.

(* SyncState.update: one non-folder event of an id-stable provider touches exactly one entry *)
Theorem C14_update_spec : forall E s sd ot (o : str) path h ex s1,
  IdxJ s -> oip E sd = false -> ot <> Dir -> o <> [] ->
  update E s sd (Some ot) (Some o) path h ex None = Ok s1 ->
  exists en c, nth_error (upd_base s sd o ot) (upd_target s sd o) = Some en /\ tchg c = true /\
    (al_get o (oids s sd) = None -> en = new_entry ot) /\
    (al_get o (oids s sd) <> None -> s_oid (gs en sd) = Some o) /\
    ents s1 = list_upd (upd_base s sd o ot) (upd_target s sd o) (ev_entry en sd ot o (omap (nps (cvs E sd)) path) h ex c) /\
    (forall e', set_mem e' (cset s1) = Nat.eqb e' (upd_target s sd o) || set_mem e' (cset s)) /\ IdxJ s1.
Proof. exact update_spec. Qed.
Print Assumptions C14_update_spec.

(* full strength is FALSE of the faithful model: a creation event after a deletion event gives LIKELY_TRASHED when it
   arrives once and EXISTS when it arrives twice (SyncState.update_entry) *)
Theorem C14_update_idempotent_refuted : ~ update_idempotent_full.
Proof.
  intros H.
  (* the shape of every refutation below: `refine (_ (H witness .. _ .. _))` leaves, first, `conclusion at the witness ->
     False`, then one goal per premise of the full statement; all are closed terms and are evaluated *)
  refine (_ (H E_id k1_s0 false File w_o1 (Some w_pbx) None (Some true) [] [] (ok (k1_ev k1_s0)) (ok (k1_ev (ok (k1_ev k1_s0)))) k1_J
               eq_refl _ _ _ _));
    [intros [A _]; vm_compute in A|..]; vm_compute; first [reflexivity | discriminate].
Qed.
Print Assumptions C14_update_idempotent_refuted.

(* what holds: applying the same event twice equals applying it once, unless the stored side is TRASHED and the event says
   exists ... *)
Theorem C14_update_idempotent_partial : forall E s sd ot (o : str) path h ex t1 t2 s1 s2,
  IdxJ s -> oip E sd = false -> ot <> Dir -> o <> [] ->
  ~ (ex = Some true /\ stored_ex s sd o = Some ExTrashed) ->
  update E (st_tape s t1) sd (Some ot) (Some o) path h ex None = Ok s1 ->
  update E (st_tape s1 t2) sd (Some ot) (Some o) path h ex None = Ok s2 ->
  eqv s1 s2.
Proof.
  intros E s sd ot o path h ex t1 t2 s1 s2 HJ Hoip Hot Hne Hex H1 H2.
  destruct (update_twice _ _ _ _ _ _ _ _ _ _ _ _ HJ Hoip Hot Hne H1 H2) as [en [c1 [c2 [Hc1 [Hc2 [Hn [Hnew [Hn1 [He2 [Hcs [HJ1 HJ2]]]]]]]]]]].
  apply eqv_intro; [exact HJ1|exact HJ2| |exact Hcs].
  rewrite He2. symmetry. apply (map_upd_at_same abs_entry _ _ _ _ Hn1). apply abs_ev_entry_twice; [exact (eq_trans Hc1 (eq_sym Hc2))|].
  (* the entry the first copy found is the one stored_ex reads *)
  intros [A B]. apply Hex. split; [exact A|]. unfold stored_ex.
  destruct (al_get o (oids s sd)) as [e0|] eqn:Ea.
  - destruct (upd_known s sd o ot e0 Ea) as [Et Eb]. rewrite Et, Eb in Hn. rewrite Hn, B. reflexivity.
  - rewrite (Hnew eq_refl) in B. destruct sd; discriminate.
Qed.
Print Assumptions C14_update_idempotent_partial.

(* ... and in that case too the difference does not survive the re-read of the truth by id *)
Theorem C14_dup_exists_resolved_by_get_latest : forall E s sd ot (o : str) path h ex t1 t2 s1 s2 info s1' s2',
  IdxJ s -> oip E sd = false -> ot <> Dir -> o <> [] ->
  (forall i, info = Some i -> i_ot i <> Dir) ->
  update E (st_tape s t1) sd (Some ot) (Some o) path h ex None = Ok s1 ->
  update E (st_tape s1 t2) sd (Some ot) (Some o) path h ex None = Ok s2 ->
  get_latest_side E s1 (upd_target s sd o) sd info = Ok s1' ->
  get_latest_side E s2 (upd_target s sd o) sd info = Ok s2' ->
  eqv s1' s2'.
Proof. exact dup_exists_resolved_by_get_latest. Qed.
Print Assumptions C14_dup_exists_resolved_by_get_latest.

(* a re-delivered event never makes the state learn or forget an id (id-stable) ... *)
Theorem C14_late_duplicate_keeps_ids_partial : forall E s sd ot (o : str) path h ex t s1,
  IdxJ s -> oip E sd = false -> ot <> Dir -> o <> [] -> al_get o (oids s sd) <> None ->
  update E (st_tape s t) sd (Some ot) (Some o) path h ex None = Ok s1 ->
  forall sd' (o' : str), obsc s1 sd' o' = None <-> obsc s sd' o' = None.
Proof.
  intros E s sd ot o path h ex t s1 HJ Hoip Hot Hne Hk H sd' o'.
  destruct (obsc_update _ _ _ _ _ _ _ _ _ _ HJ Hoip Hot Hne H) as [_ [c [_ F]]]. cbv zeta in F.
  rewrite F.
  destruct (Bool.eqb sd' sd && str_eqb o' o)%bool eqn:Ek.
  - apply andb_prop in Ek as [Es Eo]. apply Bool.eqb_prop in Es. apply str_eqb_eq in Eo. subst sd' o'.
    split; [discriminate|]. intros Hn. exfalso. unfold obsc in Hn.
    destruct (al_get o (oids s sd)) as [e|] eqn:Ea; [|apply Hk; reflexivity].
    destruct (idx_lookup _ _ _ _ HJ Ea) as [en [Hen _]]. rewrite Hen in Hn. discriminate.
  - destruct (obsc s sd' o') as [[en m]|]; [|split; reflexivity].
    destruct (ostr_eqb (s_oid (gs en sd)) (Some o)); split; discriminate.
Qed.
Print Assumptions C14_late_duplicate_keeps_ids_partial.

(* ... FALSE for path-style ids: a late copy of a rename event (prior_oid) re-files the entry of a file re-created at the
   old path; the new file's id is then known to nobody (witness replayed on the real SyncState: corpus/C14) *)
Theorem C14_late_duplicate_keeps_ids_refuted : ~ late_duplicate_keeps_ids_full.
Proof.
  intros H.
  refine (_ (H E_path k6_s false File w_pb (Some w_pb) None (Some true) (Some w_pa) [TSwap false; TSwap false] k6_s1
               k6_J _ _ _ w_pa));
    [intros [A _]; vm_compute in A; specialize (A eq_refl)|..]; vm_compute; first [reflexivity | discriminate].
Qed.
Print Assumptions C14_late_duplicate_keeps_ids_refuted.

(* events for DIFFERENT ids commute (what can be seen through the id indexes is the same in both orders) *)
Theorem C14_events_commute_distinct_oids_partial : forall E s sd otA (oA : str) pA hA exA otB (oB : str) pB hB exB tA tB tA' tB' sA sAB sB sBA,
  IdxJ s -> oip E sd = false -> otA <> Dir -> otB <> Dir -> oA <> [] -> oB <> [] -> oA <> oB ->
  update E (st_tape s tA) sd (Some otA) (Some oA) pA hA exA None = Ok sA ->
  update E (st_tape sA tB) sd (Some otB) (Some oB) pB hB exB None = Ok sAB ->
  update E (st_tape s tB') sd (Some otB) (Some oB) pB hB exB None = Ok sB ->
  update E (st_tape sB tA') sd (Some otA) (Some oA) pA hA exA None = Ok sBA ->
  IdxJ sAB /\ IdxJ sBA /\ eqv_obs sAB sBA.
Proof. exact events_commute_distinct_oids. Qed.
Print Assumptions C14_events_commute_distinct_oids_partial.

(* FALSE with folder events: a folder event re-files the children the state knows at that moment (_update_kids), so a
   stale child event before or after it leaves the child under different paths *)
Theorem C14_events_commute_refuted : ~ events_commute_full.
Proof.
  intros H.
  refine (_ (H E_id k2_s false Dir w_o1 (Some w_pb) None (Some true) File w_o2 (Some w_pay) None (Some true)
               [TOrder [0; 1]] [] [TOrder [0; 1]] [] (ok (k2_A k2_s)) (ok (k2_B (ok (k2_A k2_s)))) (ok (k2_B k2_s))
               (ok (k2_A (ok (k2_B k2_s)))) k2_J eq_refl _ _ _ _ _ _ _ false w_o2));
    [intros P; apply orel_lpath in P; vm_compute in P|..]; vm_compute; first [reflexivity | discriminate].
Qed.
Print Assumptions C14_events_commute_refuted.

(* events for the SAME id: after the re-read (provider still has the object) the state does not depend on which events were
   delivered, how often, in which order, with which payload - priority excepted *)
Theorem C14_decision_independent_of_event_payload_partial : forall E s sd (o : str) ev1 l1 ev2 l2 s1 s2 i s1' s2',
  IdxJ s -> oip E sd = false -> o <> [] -> i_ot i <> Dir ->
  Forall (fun ev => fe_ot ev <> Dir) (ev1 :: l1) -> Forall (fun ev => fe_ot ev <> Dir) (ev2 :: l2) ->
  (al_get o (oids s sd) = None -> fe_ot ev1 = fe_ot ev2) ->
  run_events E s sd o (ev1 :: l1) = Ok s1 -> run_events E s sd o (ev2 :: l2) = Ok s2 ->
  get_latest_side E s1 (upd_target s sd o) sd (Some i) = Ok s1' ->
  get_latest_side E s2 (upd_target s sd o) sd (Some i) = Ok s2' ->
  eqv_noprio s1' s2'.
Proof. exact same_oid_any_delivery. Qed.
Print Assumptions C14_decision_independent_of_event_payload_partial.

(* FALSE with the priority included: an event carrying a stale path resets the punt count of the entry *)
Theorem C14_decision_independent_of_event_payload_refuted : ~ same_oid_any_delivery_full.
Proof.
  intros H.
  refine (_ (H E_id k3_s false w_o1 k3_e1 [] k3_e2 [] (after_event k3_s k3_e1) (after_event k3_s k3_e2) k3_i
               (reread (after_event k3_s k3_e1) (Some k3_i)) (reread (after_event k3_s k3_e2) (Some k3_i))
               k3_J eq_refl _ _ _ _ _ _ _ _ _));
    [intros [A _]; vm_compute in A|..];
    vm_compute; first [reflexivity | discriminate | repeat constructor; discriminate].
Qed.
Print Assumptions C14_decision_independent_of_event_payload_refuted.

(* whatever was delivered for an id the provider no longer has: the re-read says TRASHED, the side stays flagged, no other
   entry is touched *)
Theorem C14_vanished_exists_trashed : forall E s sd (o : str) ev1 l1 s1 s1',
  IdxJ s -> oip E sd = false -> o <> [] -> Forall (fun ev => fe_ot ev <> Dir) (ev1 :: l1) ->
  run_events E s sd o (ev1 :: l1) = Ok s1 ->
  get_latest_side E s1 (upd_target s sd o) sd None = Ok s1' ->
  IdxJ s1' /\ exists en', nth_error (ents s1') (upd_target s sd o) = Some en' /\ s_ex (gs en' sd) = ExTrashed /\
    s_oid (gs en' sd) = Some o /\ tchg (s_chg (gs en' sd)) = true /\
    forall e', e' <> upd_target s sd o -> nth_error (ents s1') e' = nth_error (ents s) e'.
Proof.
  intros E s sd o ev1 l1 s1 s1' HJ Hoip Hne Hall R G.
  destruct (delivered_target _ _ _ _ _ _ (delivered_run _ _ _ _ _ _ _ HJ Hoip Hne Hall R)) as (HJ1 & en1 & Hn1 & He1 & Ho1 & Hc1).
  pose proof (get_latest_side_none_spec _ _ _ _ _ _ _ HJ1 Hn1 Ho1 G) as W.
  split; [exact (wrote_idx W)|]. eexists. split; [exact (wrote_nth W)|]. apply wrote_ents in W as A.
  rewrite gs_written, Hoip, no_info_ex_id_stable. split; [reflexivity|]. split; [exact Ho1|]. split; [exact Hc1|].
  intros e' Hne'. rewrite A, nth_upd_at_other, He1, nth_upd_at_other by congruence. apply nth_base_other; assumption.
Qed.
Print Assumptions C14_vanished_exists_trashed.

(* hash and path of a vanished object stay what the last event said, and SyncEntry.hash_conflict reads them: a stale
   modification event turns "deleted here, edited there" into an edit/edit conflict *)
Theorem C14_vanished_decision_refuted : ~ vanished_decision_full.
Proof.
  intros H.
  refine (_ (H E_id k4_s false w_o1 k4_e1 [] k4_e2 [] (after_event k4_s k4_e1) (after_event k4_s k4_e2)
               (reread (after_event k4_s k4_e1) None) (reread (after_event k4_s k4_e2) None)
               k4_J eq_refl _ _ _ _ _ _ _ _));
    [intros A; vm_compute in A|..];
    vm_compute; first [reflexivity | discriminate | repeat constructor; discriminate].
Qed.
Print Assumptions C14_vanished_decision_refuted.

(* the deletion of an object never seen creates one entry, trashed, without counterpart: nothing delete_synced could delete *)
Theorem C14_vanished_event_harmless : forall E s sd ot (o : str) path h t s1,
  IdxJ s -> oip E sd = false -> ot <> Dir -> o <> [] -> al_get o (oids s sd) = None ->
  update E (st_tape s t) sd (Some ot) (Some o) path h (Some false) None = Ok s1 ->
  IdxJ s1 /\ exists en1, ents s1 = ents s ++ [en1] /\ s_ex (gs en1 sd) = ExTrashed /\ s_oid (gs en1 sd) = Some o /\
    gs en1 (negb sd) = new_side ot /\ e_ign en1 = INone /\ delete_synced_target en1 sd = None.
Proof.
  intros E s sd ot o path h t s1 HJ Hoip Hot Hne Hk H.
  destruct (update_fresh _ _ _ _ _ _ _ _ _ (IdxJ_st_tape _ t HJ) Hoip Hot Hne Hk H) as [c [_ [He [_ HJ1]]]].
  cbn [ents st_tape] in He.
  split; [exact HJ1|]. eexists. split; [exact He|].
  unfold delete_synced_target. rewrite gs_ev_entry, gs_ev_entry_other, ign_ev_entry.
  repeat split; destruct sd; reflexivity.
Qed.
Print Assumptions C14_vanished_event_harmless.

(* the event's side gets a stamp newer than every stamp handed out before *)
Theorem C14_update_stamp_newest : forall E s sd ot (o : str) path h ex s1,
  oip E sd = false -> update E s sd ot (Some o) path h ex None = Ok s1 ->
  exists en' n, nth_error (ents s1) (upd_target s sd o) = Some en' /\ s_chg (gs en' sd) = CNum n /\ lastch s1 = n /\ N.lt (lastch s) n.
Proof. exact update_stamp. Qed.
Print Assumptions C14_update_stamp_newest.

(* every event (folders included) leaves its entry due for a re-read on both sides, if no _last_gotten is ahead of the last
   change stamp *)
Theorem C14_event_forces_reread_partial : forall E es sd ot (o : str) path h ex s1,
  oip E sd = false -> gotten_bounded es ->
  update E (st es) sd ot (Some o) path h ex None = Ok s1 ->
  forall sd', is_latest_side (mkES s1 (g_pad (gotten es) (length (ents s1)))) (upd_target (st es) sd o) sd' = false.
Proof.
  intros E es sd ot o path h ex s1 Hoip Hb H sd'. destruct (update_stamp _ _ _ _ _ _ _ _ _ Hoip H) as [en' [n [A [B [C D]]]]].
  unfold is_latest_side. cbn [st gotten]. rewrite A, g_get_pad. apply N.leb_gt.
  pose proof (Hb (upd_target (st es) sd o) sd') as Hg.
  assert (Hmax: N.le n (N.max (nchg (s_chg (e_l en'))) (nchg (s_chg (e_r en'))))).
  { destruct sd; cbn [gs] in B; rewrite B; cbn [nchg]; lia. }
  lia.
Qed.
Print Assumptions C14_event_forces_reread_partial.

(* FALSE without that hypothesis: three priority punts push the change stamp, and get_latest pushes _last_gotten, ahead of
   the last stamp handed out (lastch); the next event is stamped earlier and is NOT re-read (witness replayed on the real code: corpus/C14) *)
Theorem C14_event_forces_reread_refuted : ~ event_forces_reread_full.
Proof.
  intros H.
  refine (_ (H E_id k5_es false (Some File) w_o1 None None (Some true) k5_s1 eq_refl _ false));
    [intros A; vm_compute in A|]; vm_compute; first [reflexivity | discriminate].
Qed.
Print Assumptions C14_event_forces_reread_refuted.

(* non-vacuity: the hypotheses are satisfiable and the conclusions are not trivially true *)
Example C14_nonvacuous_idempotent :
  exists s1 s2, IdxJ k1_s0 /\
    update E_id (st_tape k1_s0 []) false (Some File) (Some w_o1) (Some w_pbx) None (Some false) None = Ok s1 /\
    update E_id (st_tape s1 []) false (Some File) (Some w_o1) (Some w_pbx) None (Some false) None = Ok s2 /\
    stored_ex k1_s0 false w_o1 = Some ExTrashed /\ ents s1 <> ents s2.
Proof.
  eexists. eexists. split; [exact k1_J|]. split; [vm_compute; reflexivity|]. split; [vm_compute; reflexivity|].
  split; [vm_compute; reflexivity|]. vm_compute. discriminate.
Qed.
(* the entry tables DO differ between the two orders (serials are handed out in order of arrival): this is why the theorem
   compares through the id index (eqv_obs) and not by equality *)
Example C14_nonvacuous_commute :
  exists sA sAB sB sBA,
    update E_id (st_tape k2_s []) false (Some File) (Some w_o1) (Some w_pb) None (Some true) None = Ok sA /\
    update E_id (st_tape sA []) false (Some File) (Some w_o2) (Some w_pay) None (Some true) None = Ok sAB /\
    update E_id (st_tape k2_s []) false (Some File) (Some w_o2) (Some w_pay) None (Some true) None = Ok sB /\
    update E_id (st_tape sB []) false (Some File) (Some w_o1) (Some w_pb) None (Some true) None = Ok sBA /\
    ents sAB <> ents sBA.
Proof.
  do 4 eexists. split; [vm_compute; reflexivity|]. split; [vm_compute; reflexivity|]. split; [vm_compute; reflexivity|].
  split; [vm_compute; reflexivity|]. vm_compute. discriminate.
Qed.
Example C14_nonvacuous_reread : gotten_bounded init_estate /\
  exists s1, update E_id (st_tape init_state [TSwap false]) false (Some File) (Some w_o1) None None (Some true) None = Ok s1.
Proof. split; [intros e sd; destruct e; vm_compute; discriminate|]. eexists. vm_compute. reflexivity. Qed.
