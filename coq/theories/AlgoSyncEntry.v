(* AlgoSyncEntry.v — SyncManager.sync on one entry (fragment F1): every leaf action keeps the invariant.  A leaf rewrites one
   entry e by state operations whose combined effect is a [weff]; create, upload and delete first call the provider of the other
   side (an AlgoProv.cell_put).  [inv_weff] is AlgoInv.inv_engine for that situation, with the instances [inv_entry_step] (no
   call) and [sctx_call] (one call); finished goes through AlgoFinish.inv_clear, since it may also move priorities.
   finished, punt, create, upload and delete are stated in run form (X_run: the action answers with a result such that ...);
   the cleared stamp and the failed download as preservation lemmas ([clear_changed_pres]; [missing_pres], whose run form
   is AlgoStep.dead_download_run). *)
From Coq Require Import NArith List Bool Arith Lia.
From CS Require Import Sx Str PathModel PathLaws StateModel StateProofs ProvModel ProvProofs
     AlgoModel AlgoCheck AlgoState AlgoProv AlgoPath AlgoInv AlgoIntake AlgoSync AlgoLatest AlgoFinish.
Import ListNotations.
Local Open Scope N_scope.

Section Facts.
Variables (evl : evlist) (g : ghost) (w : world) (e : nat) (en : StateModel.entry).
Hypothesis EO : EntOk evl g w e en.

Lemma ent_chg_oid sd : tchg (s_chg (gs en sd)) = true -> tstr (s_oid (gs en sd)) = true.
Proof.
  intros Hc. destruct (s_oid (gs en sd)) as [o|] eqn:Eo.
  - destruct (so_full (eo_side EO sd) o Eo) as (k & ob & -> & _). reflexivity.
  - destruct (so_empty (eo_side EO sd) Eo) as (X & _). congruence.
Qed.
Lemma ent_force sd : s_force (gs en sd) = false.
Proof. apply (so_nofrc (eo_side EO sd)). Qed.
Lemma ent_file sd : s_otype (gs en sd) = File.
Proof. apply (so_file (eo_side EO sd)). Qed.
Lemma ent_not_conflicted : is_conflicted (e_ign en) = false.
Proof. destruct (eo_ign EO) as [H|H]; rewrite H; reflexivity. Qed.

Lemma needs_sync_eq c sd :
  needs_sync c sd (gs en sd) =
  (tchg (s_chg (gs en sd)) && tstr (s_oid (gs en sd)) &&
   (negb (oN_eqb (s_hash (gs en sd)) (s_shash (gs en sd))) || paths_differ c sd (gs en sd) ||
    match s_ex (gs en sd) with ExTrashed | ExLikely | ExMissing => true | _ => false end))%bool.
Proof. unfold needs_sync. rewrite ent_force. reflexivity. Qed.
End Facts.

Lemma paths_differ_same c sd x q : s_spath x = Some q -> s_path x = Some q -> paths_differ c sd x = false.
Proof. intros A B. unfold paths_differ, opaths_match. rewrite A, B, match_refl. reflexivity. Qed.

(* the context of a sync step on entry e: the invariant, and both sides refreshed *)
Record SCtx (g : ghost) (w : world) (e : nat) (en : StateModel.entry) : Prop := {
  sc_inv : Inv g w;
  sc_e : (2 <= e)%nat;
  sc_en : nth_error (ents (w_st w)) e = Some en;
  sc_ready : ReadyAll (real_evl w) w e en;
  sc_shape : forall sd, s_oid (gs en sd) <> None -> ShapeS (gs en sd)
}.

Lemma ign_hash_upd en sd h : e_ign (hash_upd en sd h) = e_ign en.
Proof. unfold hash_upd. destruct h; [destruct (oN_eqb _ _); [reflexivity|apply ign_ss]|reflexivity]. Qed.
Lemma gs_hash_upd_other en sd h : gs (hash_upd en sd h) (negb sd) = gs en (negb sd).
Proof. unfold hash_upd. destruct h; [destruct (oN_eqb _ _); [reflexivity|apply gs_ss_other]|reflexivity]. Qed.
Lemma gs_hash_upd_same en sd d : gs (hash_upd en sd (Some d)) sd = w_hash (gs en sd) (Some d).
Proof.
  unfold hash_upd. destruct (oN_eqb (Some d) (s_hash (gs en sd))) eqn:E0; [|apply gs_ss_same].
  apply oN_eqb_eq in E0. destruct (gs en sd); simpl in *; subst; reflexivity.
Qed.

Lemma some_side en sd : s_oid (gs en sd) <> None -> s_oid (e_l en) <> None \/ s_oid (e_r en) <> None.
Proof. destruct sd; auto. Qed.

Lemma maxchg_ext en en' : (forall sd, s_chg (gs en' sd) = s_chg (gs en sd)) -> maxchg en' = maxchg en.
Proof. intros H. pose proof (H false) as A. pose proof (H true) as B. unfold maxchg, chgv. cbn [gs] in A, B. rewrite A, B. reflexivity. Qed.

Lemma ShapeS_ext x y : s_ex x = s_ex y -> s_path x = s_path y -> ShapeS y -> ShapeS x.
Proof. unfold ShapeS. intros -> ->. auto. Qed.

Lemma oid_lt_heap g w x xn sd k : Inv g w -> nth_error (ents (w_st w)) x = Some xn -> s_oid (gs xn sd) = Some (ostr_k k) ->
  (k < length (ProvModel.p_heap (prov_of w sd)))%nat.
Proof.
  intros I Hxn Hox. destruct (Nat.le_gt_cases 2 k) as [Hk|Hk].
  - pose proof (entry_ge2 _ _ _ _ _ _ _ I Hxn Hox Hk) as Hx2.
    destruct (so_full (eo_side (i_ents I x xn Hx2 Hxn) sd) _ Hox) as (k1 & ob1 & Hk1 & Hob1 & _).
    apply ostr_k_inj in Hk1. subst k1. exact (obj_at_lt _ _ _ _ Hob1).
  - pose proof (heap_ge2 g w sd I). lia.
Qed.

(* what download_changed does to the extension record of one side: it names the temp file for (path, hash), and stores the
   downloaded content in it *)
Definition set_tname (nm : str * option N) (x : xside) : xside := mkX (x_lg x) (Some nm) None.
Definition set_tfile (d : N) (x : xside) : xside := mkX (x_lg x) (x_tname x) (Some d).

(* the world after the temp-file bookkeeping that precedes the download *)
Definition tname_world (w : world) (e : nat) (sd : bool) (en : StateModel.entry) (p : str) : world :=
  let nm := (p, s_hash (gs en sd)) in
  if match x_tname (getx w e sd) with
     | Some (p', h') => str_eqb p p' && oN_eqb (s_hash (gs en sd)) h' && thash (s_hash (gs en sd))
     | None => false
     end
  then w else setx w e sd (fun y => mkX (x_lg y) (Some nm) None).

Lemma tname_world_facts w e sd en p :
  x_tfile (getx w e sd) = None ->
  let w1 := tname_world w e sd en p in
  w_cfg w1 = w_cfg w /\ w_st w1 = w_st w /\ (forall sd0, prov_of w1 sd0 = prov_of w sd0) /\
  (forall x sd0, x <> e -> getx w1 x sd0 = getx w x sd0) /\ getx w1 e (negb sd) = getx w e (negb sd) /\
  x_lg (getx w1 e sd) = x_lg (getx w e sd) /\ x_tfile (getx w1 e sd) = None.
Proof.
  intros Ht w1. unfold w1, tname_world.
  destruct (match x_tname (getx w e sd) with Some (p', h') => _ | None => false end).
  - repeat split; auto.
  - split; [reflexivity|]. split; [reflexivity|]. split; [intros; apply prov_of_setx|].
    split; [intros; apply getx_setx_other; assumption|]. split; [apply getx_setx_other_side|].
    rewrite getx_setx_same. auto.
Qed.

(* w0 is w up to the providers and the temp-file bookkeeping of entry e *)
Definition tmp_eq (w w0 : world) (e : nat) : Prop :=
  w_cfg w0 = w_cfg w /\ w_st w0 = w_st w /\ (forall x sd, x <> e -> getx w0 x sd = getx w x sd) /\
  (forall sd, x_lg (getx w0 e sd) = x_lg (getx w e sd)).

Lemma tmp_eq_refl w e : tmp_eq w w e.
Proof. repeat split. Qed.

Lemma st_with_prov w sd p : w_st (with_prov w sd p) = w_st w. Proof. destruct sd; reflexivity. Qed.
Lemma cfg_with_prov w sd p : w_cfg (with_prov w sd p) = w_cfg w. Proof. destruct sd; reflexivity. Qed.
Lemma x_with_prov w sd p : w_x (with_prov w sd p) = w_x w. Proof. destruct sd; reflexivity. Qed.

Lemma tmp_eq_prov w w0 e t pv : tmp_eq w w0 e -> tmp_eq w (with_prov w0 t pv) e.
Proof. unfold tmp_eq, getx. rewrite cfg_with_prov, st_with_prov, x_with_prov. auto. Qed.

Lemma tmp_eq_tname w e sd en p : x_tfile (getx w e sd) = None -> tmp_eq w (tname_world w e sd en p) e.
Proof.
  intros Ht. destruct (tname_world_facts w e sd en p Ht) as (A & B & _ & D & F & G & _).
  split; [exact A|]. split; [exact B|]. split; [exact D|]. refine (both_sides sd _ _ _); [exact G|rewrite F; reflexivity].
Qed.

Lemma tmp_eq_tfile w w0 e sd d : tmp_eq w w0 e -> tmp_eq w (setx w0 e sd (set_tfile d)) e.
Proof.
  intros (A & B & D & G). split; [exact A|]. split; [exact B|]. split.
  - intros x sd0 Hne. rewrite getx_setx_other by exact Hne. apply D, Hne.
  - refine (both_sides sd _ _ _); [rewrite getx_setx_same|rewrite getx_setx_other_side]; apply G.
Qed.

Lemma tmp_eq_std g w w0 e en : Inv g w -> nth_error (ents (w_st w)) e = Some en -> tmp_eq w w0 e -> Std w0 e en.
Proof.
  intros I Hn (Tcfg & Tst & _). unfold Std. rewrite Tcfg, Tst.
  split; [apply (i_cfg I)|]. split; [apply (i_tape I)|]. split; [apply (i_idx I)|exact Hn].
Qed.

Section Step.
Variables (g : ghost) (w w0 w' : world) (e : nat) (en en' : StateModel.entry) (m : option bool).
Hypothesis I : Inv g w.
Hypothesis He : (2 <= e)%nat.
Hypothesis Hn : nth_error (ents (w_st w)) e = Some en.
Hypothesis T : tmp_eq w w0 e.
Hypothesis W : weff w0 w' e en' m.
Hypothesis Hfl : flagged en' = match m with Some b => b | None => flagged en end.
Hypothesis Hmax : maxchg en' <= now (w_st w) + 1.
Hypothesis Hsh : forall sd, s_oid (gs en' sd) <> None -> ShapeS (gs en' sd).

(* [AlgoInv.inv_engine] for such a step: what is left to show is the provider side, that the ids of entry e are kept (the
   entry may gain one), and the entry's own clauses. *)
Lemma inv_weff evl' :
  (forall sd, PWF (prov_of w' sd) /\ ShapeOk w' sd /\ LogOk evl' w' sd) ->
  (forall sd k, obj_at w' sd k = obj_at w sd k \/ cell_free g w e sd k /\ s_oid (gs en' sd) = Some (ostr_k k)) ->
  (forall sd k, pd (real_evl w) sd k = true -> pd evl' sd k = true) ->
  (forall sd o, s_oid (gs en sd) = Some o -> s_oid (gs en' sd) = Some o) ->
  EntOk evl' g w' e en' ->
  InvP evl' g w'.
Proof.
  intros Hprov Hobj Hpd Hoids HE. pose proof T as (Tcfg & Tst & Tx & Tlg).
  assert (TT: touch w w' e en').
  { apply (touch_from w w0); auto. apply (touch_weff w0 w' e en en' m); rewrite ?Tst; auto. apply (inv_mem _ _ _ _ _ I Hn). }
  pose proof (t_now TT) as Hnow.
  apply (inv_engine (real_evl w) evl' g w w' e en' I TT He); auto.
  - (* stamps *) lia.
  - (* refresh stamps *) intros sd. rewrite (weff_getx e sd W), Tlg. destruct (i_clke I e en Hn) as (_ & X). specialize (X sd). lia.
  - (* ids of e *) intros en0 sd Hen0 Hsome. assert (en0 = en) by congruence. subst en0. destruct (s_oid (gs en sd)) as [o|] eqn:Eo; [apply Hoids, Eo|contradiction].
  - (* i_seen *) intros sd Ho _ _. apply Hsh, Ho.
Qed.

(* no provider call *)
Hypothesis Tprov : forall sd, prov_of w0 sd = prov_of w sd.
Hypothesis Hoid : forall sd, s_oid (gs en' sd) = s_oid (gs en sd).
Hypothesis HE : EntOk (real_evl w) g w' e en'.

Lemma inv_entry_step : Inv g w'.
Proof.
  assert (Hprov: forall sd, prov_of w' sd = prov_of w sd) by (intros; rewrite (weff_prov sd W); apply Tprov).
  assert (Hobj: forall sd k, obj_at w' sd k = obj_at w sd k) by (intros; apply obj_at_prov, Hprov).
  apply (Inv_same_prov g w w' Hprov).
  apply (inv_weff (real_evl w)); auto.
  - intros sd. rewrite Hprov. split; [apply (i_pwf I)|]. split; [apply (ShapeOk_ext w w' sd (Hobj sd) (i_shape I sd))|].
    apply (LogOk_ext (real_evl w) (real_evl w) w w' sd (Hobj sd)); [auto|apply (i_log I)].
  - intros sd o. rewrite Hoid. auto.
Qed.

Lemma sctx_entry_step : ReadyAll (real_evl w) w e en' -> SCtx g w' e en'.
Proof.
  intros Hr.
  constructor; [exact inv_entry_step|exact He|apply (weff_nth (en:=en) W); rewrite (proj1 (proj2 T)); exact Hn| |exact Hsh].
  intros sd k ob. unfold obj_at, pd, real_evl. rewrite (weff_prov sd W), Tprov. apply Hr.
Qed.
End Step.

(* sync: the side does not need sync, its stamp is cleared (set_changed 0) *)
Lemma clear_changed_pres g w e en side w1 :
  SCtx g w e en -> needs_sync (cfg_std 1) side (gs en side) = false -> tchg (s_chg (gs en side)) = true ->
  AlgoModel.set_changed w e side (CNum 0) = ROk w1 ->
  SCtx g w1 e (clr en side).
Proof.
  intros [I He Hn Hr Hsh] Hns Hc H.
  pose proof (i_ents I e en He Hn) as EO.
  destruct (set_changed_w w (i_cfg I) e side (CNum 0) en Hn) as (w' & H' & W').
  rewrite H' in H. injection H as <-.
  destruct (chg_entry_clear en side (ent_chg_oid (real_evl w) g w e en EO (negb side))) as (Hce & Hcp). rewrite Hce, Hcp in W'.
  assert (Hobj: forall sd0 k0, obj_at w' sd0 k0 = obj_at w sd0 k0) by (intros; apply obj_at_prov, (weff_prov sd0 W')).
  apply (sctx_entry_step g w w w' e en (clr en side) _ I He Hn (tmp_eq_refl w e) W').
  - apply flagged_clr.
  - pose proof (maxchg_clr en side). destruct (i_clke I e en Hn) as (X & _). lia.
  - intros sd0. rewrite oid_clr, ShapeS_clr. apply Hsh.
  - reflexivity.
  - intros sd0. apply oid_clr.
  - apply (EntOk_clear (real_evl w) g w w' e en side EO Hobj); [intros _; exact Hr|].
    (* justification from "does not need sync" *)
    intros k ob cs Ho Hob Hpd Hfr Hd Hg.
    rewrite (needs_sync_eq (real_evl w) g w e en EO) in Hns. rewrite Hc, Ho in Hns. cbn [tstr ostr_k andb] in Hns.
    apply orb_false_elim in Hns as [Hns Hex]. apply orb_false_elim in Hns as [Hh Hpdiff].
    apply negb_false_iff in Hh. apply oN_eqb_eq in Hh.
    destruct (EntOk_full EO Ho Hob) as (_ & FO).
    assert (Hl: ProvModel.o_exists ob = true).
    { destruct (ProvModel.o_exists ob) eqn:El; [reflexivity|]. unfold freshP in Hfr. rewrite El in Hfr.
      destruct (s_ex (gs en side)); simpl in Hfr, Hex; congruence. }
    split; [|split; [exact Hl|exact Hh]].
    intros Hno. destruct (fo_owner2 FO Hd cs Hg) as (X & _). destruct (X Hno) as (_ & Xs).
    unfold freshP in Hfr. rewrite Hl in Hfr. destruct Hfr as (_ & Fh & _). congruence.
  - refine (both_sides side _ _ _); intros k ob; unfold clr; rewrite ?gs_ss_same, ?gs_ss_other; apply Hr.
Qed.

(* finished(side, sync) on an entry whose fields need no further change (0: under the invariant alone; AlgoStep.finished_run is
   its form under SCtx, finished_disc on a discarded entry) *)
Lemma finished_run0 g w e en side :
  Inv g w -> (2 <= e)%nat -> nth_error (ents (w_st w)) e = Some en -> (is_discarded (e_ign en) = false -> ReadyAll (real_evl w) w e en) ->
  (is_discarded (e_ign en) = false -> forall sd0, s_oid (gs en sd0) <> None -> ShapeS (gs en sd0)) ->
  Just (real_evl w) g w en side ->
  exists w', AlgoModel.finished w e side = ROk w' /\
  Inv g w' /\ (forall x sd0, x <> e -> getx w' x sd0 = getx w x sd0) /\ (forall sd0, x_tfile (getx w' e sd0) = None) /\
  (forall sd0, prov_of w' sd0 = prov_of w sd0) /\
  exists en', nth_error (ents (w_st w')) e = Some en' /\ same_but_prio (clr en side) en'.
Proof.
  intros I He Hn Hr Hshp Hjust.
  pose proof (i_ents I e en He Hn) as EO.
  destruct (finished_w w e side en (i_cfg I) Hn (i_csb I)
              (ent_chg_oid (real_evl w) g w e en EO (negb side)) (ent_force (real_evl w) g w e en EO))
    as (w2 & en' & H2 & TT & Ssbp & Hprov & Hxe).
  exists w2. split; [exact H2|].
  split; [|split; [exact (t_x TT)|split; [intros sd0; rewrite Hxe; reflexivity|split; [exact Hprov|exists en'; split; [exact (t_nth TT)|exact Ssbp]]]]].
  apply (Inv_same_prov g w w2 Hprov).
  apply (inv_clear (real_evl w) g w w2 e en en' side I He Hn Hr Hshp Hjust TT Ssbp Hprov).
  intros sd0. rewrite Hxe. reflexivity.
Qed.

Lemma EntOk_chg_only evl g w e en en' sd nw m :
  EntOk evl g w e en -> prog en en' sd nw m ->
  s_otype (gs en' sd) = s_otype (gs en sd) -> s_ex (gs en' sd) = s_ex (gs en sd) ->
  s_hash (gs en' sd) = s_hash (gs en sd) -> s_path (gs en' sd) = s_path (gs en sd) ->
  (s_oid (gs en sd) = None -> s_chg (gs en' sd) = s_chg (gs en sd)) ->
  EntOk evl g w e en'.
Proof.
  intros EO P Hot Hex Hh Hp Hnc.
  apply (EntOk_side evl evl g w w e en en' sd nw m EO P).
  - rewrite Hot. apply (ent_file evl g w e en EO sd).
  - reflexivity.
  - reflexivity.
  - auto.
  - intros k ob Ho Hob. destruct (EntOk_full EO Ho Hob) as (_ & FO).
    pose proof FO as [Ftrash FK Fpath _ _ _ _ _ Fown2 Fmir]. constructor; rewrite ?Hex, ?Hh, ?Hp.
    + exact Ftrash.
    + (* sn_due *) intros Hd. destruct (FK Hd) as [X|[X|X]]; [left; exact X|right; left; pose proof (prog_maxchg P); lia|right; right].
      unfold freshP in *. rewrite Hex, Hh, Hp. exact X.
    + exact Fpath.
    + (* sn_owner *) intros Hd cs Hcs. destruct (fo_hash_in FO Hd Hcs) as (P1 & P4). destruct (Fown2 Hd cs Hcs) as (_ & P6). auto.
    + (* sn_mirror *) intros Hd Hcs. destruct (Fmir Hd Hcs) as (_ & M2 & _ & M4 & _ & M6 & _). auto.
  - intros Hno. destruct (so_empty (eo_side EO sd) Hno) as (X1 & X2 & X3 & _).
    rewrite Hh, Hp, Hex. split; [exact X2|]. split; [exact X3|]. split.
    + rewrite (Hnc Hno). exact X1.
    + intros Hd. apply (so_empty_ex (eo_side EO sd) Hno Hd).
Qed.

Lemma chgv_le_maxchg en sd : chgv (gs en sd) <= maxchg en.
Proof. unfold maxchg. destruct sd; simpl; lia. Qed.

Lemma shift_side_spec en sd :
  (tchg (s_chg (gs en sd)) = true -> tstr (s_oid (gs en sd)) = true) ->
  (tchg (s_chg (gs en sd)) = false /\ shift_side (env_of (cfg_std 1)) en sd = (en, None)) \/
  (exists c, s_chg (gs en sd) = CNum c /\ tchg (CNum c) = true /\
             shift_side (env_of (cfg_std 1)) en sd = (ss en sd (w_chg (gs en sd) (CNum (c + 1))), Some true)).
Proof.
  intros Hw. unfold shift_side. destruct (tchg (s_chg (gs en sd))) eqn:Ec; [right|left; auto].
  destruct (s_chg (gs en sd)) as [| |c] eqn:Es; try discriminate. exists c. split; [reflexivity|]. split; [exact Ec|].
  cbn [chg_add StateModel.punt env_of].
  destruct (chg_entry_stamp en sd (CNum (c + 1)) (tchg_pos (c + 1) ltac:(lia)) (Hw eq_refl)) as (-> & ->). reflexivity.
Qed.

(* SyncEntry.punt on one side: a stamp that is set moves one unit past the clock reading nw *)
Lemma shift_side_ok evl g w e en sd nw :
  EntOk evl g w e en -> chgv (gs en sd) <= nw ->
  exists en' m, shift_side (env_of (cfg_std 1)) en sd = (en', m) /\ prog en en' sd (nw + 1) m /\
    s_ex (gs en' sd) = s_ex (gs en sd) /\ s_path (gs en' sd) = s_path (gs en sd) /\ chgv (gs en' sd) <= nw + 1 /\
    EntOk evl g w e en'.
Proof.
  intros EO Hle. pose proof (ent_chg_oid evl g w e en EO sd) as Hco.
  destruct (shift_side_spec en sd Hco) as [(X & ->)|(c & Hc & Htc & ->)]; eexists _, _; (split; [reflexivity|]).
  - split; [apply prog_refl|]. repeat (split; [reflexivity|]). split; [lia|exact EO].
  - assert (P: prog en (ss en sd (w_chg (gs en sd) (CNum (c + 1)))) sd (nw + 1) (Some true)).
    { split; [apply upd_side_ss; reflexivity|]. rewrite gs_ss_same. cbn [w_chg s_oid s_chg].
      right. exists (c + 1). split; [reflexivity|]. split; [apply tchg_pos; lia|].
      unfold chgv in Hle. rewrite Hc in *. cbn [chgval] in *. split; [lia|]. split; [lia|]. split; [reflexivity|exact (Hco Htc)]. }
    split; [exact P|]. rewrite gs_ss_same. cbn [w_chg s_ex s_path s_chg chgv chgval]. repeat (split; [reflexivity|]).
    unfold chgv in Hle. rewrite Hc in Hle. cbn [chgval] in Hle. split; [unfold chgv; cbn [s_chg w_chg chgval]; lia|].
    apply (EntOk_chg_only evl g w e en _ sd _ _ EO P); try rewrite gs_ss_same; try reflexivity.
    intros Hno. rewrite Hc, Hno in Hco. discriminate (Hco Htc).
Qed.

(* SyncEntry.punt: priority one up, every stamp of the entry one unit later *)
Lemma punt_run g w e en :
  SCtx g w e en -> maxchg en <= now (w_st w) ->
  exists w', punt w e = ROk w' /\ Inv g w' /\ (forall x sd0, getx w' x sd0 = getx w x sd0) /\ (forall sd, prov_of w' sd = prov_of w sd).
Proof.
  intros [I He Hn Hr Hsh] Htight.
  pose proof (i_cfg I) as Hcfg. pose proof (i_ents I e en He Hn) as EO.
  unfold punt. rewrite (get_e_nth _ _ _ Hn). cbn [rbind].
  destruct (set_priority_w w Hcfg e (e_prio en + PRIO_ONE) en Hn) as (w2 & H2 & W2).
  exists w2. split; [exact H2|].
  set (v := e_prio en + PRIO_ONE) in *.
  assert (Hv1: N.eqb (e_prio en) v = false) by (apply N.eqb_neq; unfold v, PRIO_ONE; lia).
  assert (Hv2: (N.ltb (e_prio en) v && N.ltb 0 v)%bool = true).
  { apply andb_true_intro. split; apply N.ltb_lt; unfold v, PRIO_ONE; lia. }
  unfold prio_entry, prio_member in W2. rewrite Hv1, Hv2 in W2.
  set (nw := now (w_st w)) in *.
  destruct (shift_side_ok _ _ _ _ _ false nw EO) as (ena & ma & Ea & Pa & Xa & Qa & Ca & EOa).
  { pose proof (chgv_le_maxchg en false). lia. }
  pose proof Pa as ((Pao & _ & Pai & _) & _). cbn [negb] in Pao.
  destruct (shift_side_ok _ _ _ _ _ true nw EOa) as (enb & mb & Eb & Pb & Xb & Qb & Cb & EOb).
  { rewrite Pao. pose proof (chgv_le_maxchg en true). lia. }
  pose proof Pb as ((Pbo & _ & Pbi & _) & _). cbn [negb] in Pbo.
  rewrite Ea in W2. cbn [fst snd] in W2. rewrite Eb in W2. cbn [fst snd] in W2.
  set (en3 := mkEnt (e_l enb) (e_r enb) (e_ign enb) v) in *.
  assert (S3: same_but_prio enb en3) by (unfold en3; repeat split).
  assert (Hoid3: forall sd0, s_oid (gs en3 sd0) = s_oid (gs en sd0)).
  { intros sd0. rewrite <- (sbp_gs _ _ sd0 S3). destruct sd0; congruence. }
  split; [|split; [intros; apply (weff_getx x sd0 W2)|intros sd; apply (weff_prov sd W2)]].
  refine (inv_entry_step g w w w2 e en en3 _ I He Hn (tmp_eq_refl w e) W2 _ _ _ (fun _ => eq_refl) Hoid3 _).
  - rewrite <- (sbp_flagged _ _ S3).
    rewrite (flagged_prog Pb). destruct mb; [reflexivity|apply (flagged_prog Pa)].
  - rewrite <- (sbp_maxchg _ _ S3). unfold maxchg. change (e_l enb) with (gs enb false). change (e_r enb) with (gs enb true).
    rewrite Pbo. lia.
  - intros sd0 Hoid. rewrite Hoid3 in Hoid. rewrite <- (sbp_gs _ _ sd0 S3). destruct sd0.
    + apply (ShapeS_ext _ (gs en true)); [rewrite Xb, Pao; reflexivity|rewrite Qb, Pao; reflexivity|apply (Hsh true Hoid)].
    + rewrite Pbo. apply (ShapeS_ext _ (gs en false)); [exact Xa|exact Qa|apply (Hsh false Hoid)].
  - apply (EntOk_sbp _ _ _ _ enb en3 S3).
    apply (EntOk_frame (real_evl w) (real_evl w) g g w w2 e enb EOb); [intros; rewrite (weff_getx e sd W2); reflexivity|].
    intros sd0 k0 Ho0. split; [apply obj_at_prov, (weff_prov sd0 W2)|]. split; [auto|reflexivity].
Qed.

Lemma download_spec w e sd en p k ob :
  w_cfg w = cfg_std 1 -> PWF (prov_of w sd) -> x_tfile (getx w e sd) = None ->
  nth_error (ents (w_st w)) e = Some en -> s_path (gs en sd) = Some p -> s_oid (gs en sd) = Some (ostr_k k) ->
  obj_at w sd k = Some ob -> ProvModel.o_kind ob = ProvModel.KFile ->
  download_changed w e sd =
  if ProvModel.o_exists ob then ROk (setx (tname_world w e sd en p) e sd (set_tfile (ProvModel.o_data ob)), true)
  else w2 <- plain (tname_world w e sd en p) e sd (fun y => w_ex y ExMissing) ;; ROk (w2, false).
Proof.
  intros Hcfg HW Ht Hn Hp Ho Hob Hkf.
  unfold download_changed. rewrite (get_e_nth _ _ _ Hn). cbn [rbind]. rewrite Hp, Ho. cbv zeta.
  fold (tname_world w e sd en p).
  destruct (tname_world_facts w e sd en p Ht) as (A & _ & C & _ & _ & _ & H). rewrite H.
  rewrite (key_of_std _ sd k) by congruence. cbn [rbind]. rewrite C. unfold obj_at in Hob. rewrite (download_kid _ _ _ HW Hob Hkf).
  destruct (ProvModel.o_exists ob); reflexivity.
Qed.

(* the world in which create_synced / upload_synced run: the download has left its temp file *)
Lemma downloaded_world w e s en p d :
  x_tfile (getx w e s) = None ->
  let w1 := setx (tname_world w e s en p) e s (set_tfile d) in
  tmp_eq w w1 e /\ (forall sd, prov_of w1 sd = prov_of w sd) /\ temp_data w1 e s = ROk d.
Proof.
  intros Ht w1. split; [apply tmp_eq_tfile, tmp_eq_tname, Ht|]. split.
  - intros sd. unfold w1. rewrite prov_of_setx. apply (tname_world_facts w e s en p Ht).
  - unfold temp_data, w1. rewrite getx_setx_same. reflexivity.
Qed.

(* download failed: the object is gone, exists = MISSING *)
Lemma missing_pres g w e en s k ob p w2 :
  SCtx g w e en -> s_oid (gs en s) = Some (ostr_k k) -> obj_at w s k = Some ob -> ProvModel.o_exists ob = false ->
  x_tfile (getx w e s) = None ->
  weff (tname_world w e s en p) w2 e (ss en s (w_ex (gs en s) ExMissing)) None ->
  SCtx g w2 e (ss en s (w_ex (gs en s) ExMissing)) /\ maxchg (ss en s (w_ex (gs en s) ExMissing)) = maxchg en /\
  now (w_st w) <= now (w_st w2) /\ (forall x sd0, x <> e -> getx w2 x sd0 = getx w x sd0) /\ x_tfile (getx w2 e s) = None /\
  getx w2 e (negb s) = getx w e (negb s).
Proof.
  intros [I He Hn Hr Hsh] Ho Hob Hdead Htf W2.
  pose proof (tmp_eq_tname w e s en p Htf) as T. destruct (tname_world_facts w e s en p Htf) as (_ & _ & TC & _ & TF & _ & TH).
  set (w0 := tname_world w e s en p) in *. set (en' := ss en s (w_ex (gs en s) ExMissing)) in *.
  pose proof (i_ents I e en He Hn) as EO.
  assert (Hprov: forall sd0, prov_of w2 sd0 = prov_of w sd0) by (intros; rewrite (weff_prov sd0 W2); apply TC).
  assert (Hgx: forall x sd0, getx w2 x sd0 = getx w0 x sd0) by (intros; apply (weff_getx x sd0 W2)).
  assert (Hobj: forall sd0 k0, obj_at w2 sd0 k0 = obj_at w sd0 k0) by (intros; apply obj_at_prov, Hprov).
  assert (Hlg: forall sd0, x_lg (getx w2 e sd0) = x_lg (getx w e sd0)) by (intros; rewrite Hgx; apply T).
  assert (Hgs: gs en' s = w_ex (gs en s) ExMissing) by apply gs_ss_same.
  assert (Hgo: gs en' (negb s) = gs en (negb s)) by apply gs_ss_other.
  assert (Hoid: forall sd, s_oid (gs en' sd) = s_oid (gs en sd)) by (refine (both_sides s _ _ _); [rewrite Hgs|rewrite Hgo]; reflexivity).
  assert (Hmax: maxchg en' = maxchg en) by (apply maxchg_ext; refine (both_sides s _ _ _); [rewrite Hgs|rewrite Hgo]; reflexivity).
  assert (P: prog en en' s (now (w_st w2)) None) by (apply (prog_plain en s (fun y => w_ex y ExMissing)); intros; repeat split; reflexivity).
  destruct (EntOk_full EO Ho Hob) as (_ & FO).
  assert (EO2: EntOk (real_evl w) g w2 e en').
  { apply (EntOk_side (real_evl w) (real_evl w) g w w2 e en en' s (now (w_st w2)) None EO P); auto.
    - rewrite Hgs. apply (ent_file (real_evl w) g w e en EO s).
    - intros k0 ob0 Ho0 Hob0. destruct (same_object w s k k0 ob ob0 ltac:(congruence) Hob Hob0) as (-> & ->).
      constructor; rewrite ?Hgs; cbn [w_ex s_ex s_hash s_path].
      + (* sn_trash *) discriminate.
      + (* sn_due *) intros _. right. right. unfold freshP. rewrite Hgs, Hdead. reflexivity.
      + apply (fo_path FO).
      + (* sn_owner *) intros Hd cs Hcs. destruct (fo_hash_in FO Hd Hcs) as (P1 & P4). destruct (fo_owner2 FO Hd cs Hcs) as (_ & P6). auto.
      + (* sn_mirror *) intros Hd Hcs. destruct (fo_mirror FO Hd Hcs) as (Ml & _). congruence.
    - intros Hno. congruence. }
  assert (Hsh2: forall sd0, s_oid (gs en' sd0) <> None -> ShapeS (gs en' sd0)).
  { refine (both_sides s _ _ _); [rewrite Hgs; right; reflexivity|rewrite Hgo; apply Hsh]. }
  split.
  { apply (sctx_entry_step g w w0 w2 e en en' None I He Hn T W2); auto.
    - unfold flagged, en'. destruct en as [l r i q], s; reflexivity.
    - rewrite Hmax. destruct (i_clke I e en Hn) as (X & _). exact X.
    - refine (both_sides s _ _ _); intros k0 ob0; [rewrite Hgs|rewrite Hgo; apply Hr]. cbn [w_ex s_oid]. intros Ho0 Hob0.
      destruct (same_object w s k k0 ob ob0 ltac:(congruence) Hob Hob0) as (-> & ->).
      right. unfold freshP. rewrite Hdead. reflexivity. }
  split; [exact Hmax|]. split; [destruct T as (_ & <- & _); exact (weff_now W2)|].
  split; [intros x sd0 Hne; rewrite Hgx; apply T, Hne|]. split; [rewrite Hgx; exact TH|rewrite Hgx; exact TF].
Qed.

(* SyncManager.update_entry at world level, in the two cases the leaves use: the side gets its first id (with path
   and hash), or keeps the id it has *)
Lemma upd_entry_create_w w e sd o p h en :
  Std w e en -> s_oid (gs en sd) = None -> s_path (gs en sd) = None ->
  al_get o (oids (w_st w) sd) = None -> tstr (Some o) = true -> tstr (Some p) = true -> nps (mk_conv true) p = p ->
  s_otype (gs en sd) <> Dir -> tchg (s_chg (gs en (negb sd))) = true ->
  let en1 := ss en sd (w_oid (gs en sd) (Some o)) in
  let en2 := prio_entry (env_of (cfg_std 1)) (ss en1 sd (w_path (gs en1 sd) (Some p))) 0 in
  let en3 := hash_upd en2 sd h in
  let en4 := ss en3 sd (w_ex (gs en3 sd) (ev_ex (s_ex (gs en2 sd)) true)) in
  exists w', upd_entry w e sd o (Some p) h = ROk w' /\ weff w w' e en4 (Some true).
Proof.
  intros (Hcfg & Ht & HI & Hn) Ho Hp Ha Hto Htp Hnp Hot Hc en1 en2 en3 en4.
  unfold upd_entry, get_e, lift, get_ent. rewrite Hn. cbn [rbind]. rewrite Ho. cbn [rbind].
  set (s0 := st_tape (w_st w) [TSwap false; TSwap false]).
  destruct env_of_std as (Hleg & Hoip & Hcvs).
  assert (Ha0: al_get o (oids s0 sd) = None) by (destruct sd; exact Ha).
  assert (Hnp0: nps (cvs (env_of (cfg_std 1)) sd) p = p) by (rewrite Hcvs; exact Hnp).
  destruct (upd_entry_create_eff (env_of (cfg_std 1)) Hoip s0 e sd o p h en false [TSwap false]
              (IdxJ_st_tape _ _ HI) Hn Ho Hp Ha0 Hto Htp Hnp0 Hot eq_refl) as (s' & H1 & F1).
  rewrite (E_std w Hcfg).
  destruct (st_op_ok w (fun s => update_entry (env_of (cfg_std 1)) s e sd (Some o) (Some p) h (Some true) false None) s' e _ _ H1 F1) as (H2 & W2).
  unfold oid_member in W2. rewrite Hc, orb_true_r in W2. eexists. split; [exact H2|exact W2].
Qed.

Lemma upd_entry_same_w w e sd o en :
  Std w e en -> s_oid (gs en sd) = Some o ->
  (forall p, s_path (gs en sd) = Some p -> nps (mk_conv true) p = p) -> tchg (s_chg (gs en (negb sd))) = true ->
  exists w', upd_entry w e sd o (s_path (gs en sd)) None = ROk w' /\
    weff w w' e (ss en sd (w_ex (gs en sd) (ev_ex (s_ex (gs en sd)) true))) (Some true).
Proof.
  intros (Hcfg & Ht & HI & Hn) Ho Hnp Hc.
  unfold upd_entry, get_e, lift, get_ent. rewrite Hn. cbn [rbind]. rewrite Ho, (proj2 (str_eqb_eq o o) eq_refl). cbn [rbind].
  set (s0 := st_tape (w_st w) [TSwap false; TSwap false]).
  destruct env_of_std as (Hleg & Hoip & Hcvs).
  assert (Ha0: al_get o (oids s0 sd) = Some e) by (destruct sd; exact (IdxJ_holder _ _ _ _ _ HI Hn Ho)).
  assert (Hnp0: forall p, s_path (gs en sd) = Some p -> nps (cvs (env_of (cfg_std 1)) sd) p = p) by (intros; rewrite Hcvs; auto).
  destruct (upd_entry_same_eff (env_of (cfg_std 1)) Hoip s0 e sd o en Hn Ho Ha0 Hnp0) as (s' & H1 & F1).
  rewrite (E_std w Hcfg).
  destruct (st_op_ok w (fun s => update_entry (env_of (cfg_std 1)) s e sd (Some o) (s_path (gs en sd)) None (Some true) false None) s' e _ _ H1 F1) as (H2 & W2).
  unfold oid_member in W2. rewrite Hc, orb_true_r in W2. eexists. split; [exact H2|exact W2].
Qed.

Lemma obj_at_hset w t pv k0 k' ob'' :
  prov_of w t = pv -> forall heap0, ProvModel.p_heap pv = ProvModel.hset heap0 k' ob'' -> (k' < length heap0)%nat ->
  nth_error (ProvModel.p_heap pv) k0 = if Nat.eqb k0 k' then Some ob'' else nth_error heap0 k0.
Proof.
  intros _ heap0 H Hlt. rewrite H. destruct (Nat.eqb_spec k0 k') as [Heq|Hne].
  - subst k0. apply nth_hset_same. exact Hlt.
  - apply nth_hset_other. exact Hne.
Qed.

(* what create_synced and upload_synced write on the changed side: sync_hash := hash, sync_path := path *)
Definition mark_synced (x : sidest) : sidest := w_spath (w_shash x (s_hash x)) (s_path x).

(* what create_synced / upload_synced of object k of side s leave: side s marked as synced, the other side with an id, the frame *)
Definition synced_ok (g : ghost) (w w' : world) (e : nat) (s : bool) (k : nat) (en' : StateModel.entry) : Prop :=
  SCtx g w' e en' /\
  s_oid (gs en' s) = Some (ostr_k k) /\ s_oid (gs en' (negb s)) <> None /\ s_hash (gs en' s) = s_shash (gs en' s) /\
  e_ign en' = INone /\ prov_of w' s = prov_of w s /\
  (forall x sd0, x <> e -> getx w' x sd0 = getx w x sd0) /\ (forall sd0, x_lg (getx w' e sd0) = x_lg (getx w e sd0)) /\
  (forall sd0 k0 cs0, g_get k0 (g_of g sd0) = Some cs0 -> obj_at w' sd0 k0 = obj_at w sd0 k0).

(* The engine changes (or makes) object k' of the other side's provider, whose log gains a snapshot of it, and
   rewrites entry e: side s keeps what a refresh reads, the other side points to k'. *)
Section Call.
Variables (g : ghost) (w w0 w' : world) (e : nat) (en en' : StateModel.entry) (s : bool)
          (pv : ProvModel.prov) (k' : nat) (ob' : ProvModel.obj) (ev : ProvModel.event).
Hypothesis SC : SCtx g w e en.
Hypothesis T : tmp_eq w w0 e.
Hypothesis Tprov : forall sd, prov_of w0 sd = prov_of w sd.
Hypothesis CP : cell_put (prov_of w (negb s)) pv k' ob' ev.
Hypothesis Hk'2 : (2 <= k')%nat.
Hypothesis Hkf : ProvModel.o_kind ob' = ProvModel.KFile.
Hypothesis Hpath : exists n, ProvModel.o_path ob' = [root_name (negb s); n] /\ name_ok n = true.
Hypothesis Hdead : forall ob, obj_at w (negb s) k' = Some ob -> ProvModel.o_exists ob = false -> ProvModel.o_exists ob' = false.
Hypothesis Hgk' : g_get k' (g_of g (negb s)) = None.
Hypothesis Hold : (obj_at w (negb s) k' = None /\ s_oid (gs en (negb s)) = None) \/ s_oid (gs en (negb s)) = Some (ostr_k k').

(* What the caller still owes is the entry's own clauses, from the few facts about the new world they can depend on. *)
Lemma sctx_call m :
  weff (with_prov w0 (negb s) pv) w' e en' m ->
  s_oid (gs en' (negb s)) = Some (ostr_k k') ->
  s_oid (gs en' s) = s_oid (gs en s) -> s_ex (gs en' s) = s_ex (gs en s) ->
  s_hash (gs en' s) = s_hash (gs en s) -> s_path (gs en' s) = s_path (gs en s) ->
  flagged en' = match m with Some b => b | None => flagged en end ->
  maxchg en' <= maxchg en ->
  (forall sd, s_oid (gs en' sd) <> None -> ShapeS (gs en' sd)) ->
  (forall evl' w'', (forall k0, obj_at w'' s k0 = obj_at w s k0) -> obj_at w'' (negb s) k' = Some ob' ->
     (forall k0, pd evl' s k0 = pd (real_evl w) s k0) -> pd evl' (negb s) k' = true -> EntOk evl' g w'' e en') ->
  SCtx g w' e en' /\ prov_of w' s = prov_of w s /\
  (forall x sd, x <> e -> getx w' x sd = getx w x sd) /\ (forall sd, x_lg (getx w' e sd) = x_lg (getx w e sd)) /\
  (forall sd k0 cs0, g_get k0 (g_of g sd) = Some cs0 -> obj_at w' sd k0 = obj_at w sd k0).
Proof.
  intros W Hot' Hos Hxs Hhs Hps Hfl Hmax Hsh' HE. destruct SC as [I He Hn Hr Hsh].
  pose proof (tmp_eq_prov _ _ _ (negb s) pv T) as T'. destruct T' as (_ & Tst & Tx & Tlg).
  assert (Hps': prov_of w' s = prov_of w s).
  { pose proof (prov_with_other w0 (negb s) pv) as Ps. rewrite Bool.negb_involutive in Ps. rewrite (weff_prov s W), Ps. apply Tprov. }
  destruct (cell_put_world g w w' (negb s) k' ob' ev I) as [Hprov Hpdm Hpdk Hobt' Hobt Hobs];
    [rewrite Bool.negb_involutive; exact Hps'|rewrite (weff_prov (negb s) W), prov_with_same; exact CP|assumption..|].
  rewrite Bool.negb_involutive in Hobs.
  assert (Hpds: forall k0, pd (real_evl w') s k0 = pd (real_evl w) s k0) by (intros; unfold pd, real_evl; rewrite Hps'; reflexivity).
  assert (Hlg: forall sd, x_lg (getx w' e sd) = x_lg (getx w e sd)) by (intros; rewrite (weff_getx e sd W); apply Tlg).
  assert (HI: Inv g w').
  { refine (inv_weff g w _ w' e en en' m I He Hn (tmp_eq_prov _ _ _ (negb s) pv T) W Hfl _ Hsh' (real_evl w') Hprov _ Hpdm _ _).
    - (* stamps *) destruct (i_clke I e en Hn) as (X & _). lia.
    - (* objects: only cell k' changes, and it is the engine's *)
      refine (both_sides s _ _ _); intros k0; [left; apply Hobs|].
      destruct (Nat.eq_dec k0 k') as [->|Hne]; [right; split; [|exact Hot']|left; apply Hobt, Hne].
      split; [exact Hgk'|]. intros x xn Hne Hxn Hox. destruct Hold as [(Hnone & _)|Hsome].
      + apply (proj2 (nth_error_Some _ _) (oid_lt_heap g w x xn (negb s) k' I Hxn Hox)). exact Hnone.
      + apply Hne. apply (idx_unique_ent _ _ _ _ _ _ _ (i_idx I) Hxn Hox Hn Hsome).
    - (* ids of e *) refine (both_sides s _ _ _); intros o Ho; [rewrite Hos; exact Ho|]. destruct Hold as [(_ & X)|X]; congruence.
    - (* the entry *) apply HE; assumption. }
  split; [|split; [exact Hps'|split; [intros x sd Hne; rewrite (weff_getx x sd W); apply Tx, Hne|split; [exact Hlg|]]]].
  - constructor; [exact HI|exact He|apply (weff_nth (en:=en) W); rewrite Tst; exact Hn| |exact Hsh'].
    refine (both_sides s _ _ _); intros k0 ob0 Ho0 Hob0.
    + rewrite Hos in Ho0. rewrite Hobs in Hob0. rewrite Hpds.
      destruct (Hr s k0 ob0 Ho0 Hob0) as [X|X]; [left; exact X|right; unfold freshP in *; rewrite Hxs, Hhs, Hps; exact X].
    + left. assert (k0 = k') by (apply ostr_k_inj; congruence). subst k0. exact Hpdk.
  - refine (both_sides s _ _ _); intros k0 cs0 Hg0; [apply Hobs|apply Hobt; congruence].
Qed.

(* Side s of the entry is the user's object k, changed, with its path; en' is en with side s marked as synced and the
   other side describing the engine's copy k' of it. *)
Section Synced.
Variables (k : nat) (ob : ProvModel.obj) (cs : list N).
Hypothesis Hign : e_ign en = INone.
Hypothesis Ho : s_oid (gs en s) = Some (ostr_k k).
Hypothesis Hob : obj_at w s k = Some ob.
Hypothesis Hg : g_get k (g_of g s) = Some cs.
Hypothesis Hsp : s_path (gs en s) = Some (pstr (ProvModel.o_path ob)).
Hypothesis Hc : tchg (s_chg (gs en s)) = true.
Hypothesis Hl' : ProvModel.o_exists ob' = true.
Hypothesis Hd' : ProvModel.o_data ob' = ProvModel.o_data ob.
Hypothesis Hleaf : leaf (ProvModel.o_path ob') = leaf (ProvModel.o_path ob).
Hypothesis Hs : gs en' s = mark_synced (gs en s).
Hypothesis Ht : gs en' (negb s) =
  mkSide File (Some (ostr_k k')) (Some (pstr (ProvModel.o_path ob'))) (Some (ProvModel.o_data ob))
         (Some (pstr (ProvModel.o_path ob'))) (Some (ProvModel.o_data ob)) ExExists (s_chg (gs en (negb s))) false.
Hypothesis Hi' : e_ign en' = INone.

(* side s gets its sync markers; the other side has just been written and has an event pending *)
Lemma EntOk_synced evl' w'' :
  (forall k0, obj_at w'' s k0 = obj_at w s k0) -> obj_at w'' (negb s) k' = Some ob' ->
  (forall k0, pd evl' s k0 = pd (real_evl w) s k0) -> pd evl' (negb s) k' = true ->
  EntOk evl' g w'' e en'.
Proof.
  intros Hobs Hobt Hpds Hpdt.
  pose proof (i_ents (sc_inv _ _ _ _ SC) e en (sc_e _ _ _ _ SC) (sc_en _ _ _ _ SC)) as EO.
  pose proof (sc_ready _ _ _ _ SC s k ob Ho Hob) as Hr.
  destruct (EntOk_full EO Ho Hob) as (Hk2 & [Ftrash _ Fpath _ _ _ _ Fown _ _]).
  rewrite Hign in Fown. destruct (Fown eq_refl cs Hg) as (P1 & _ & P3 & P4 & _).
  assert (Hos: s_oid (gs en' s) = Some (ostr_k k)) by (rewrite Hs; exact Ho).
  constructor; [left; exact Hi'|apply (some_side en' s); congruence|]. refine (both_sides s _ _ _).
  - constructor; rewrite Hs; unfold mark_synced; cbn [w_spath w_shash s_otype s_force s_oid s_chg s_path s_hash s_spath s_shash s_ex];
      [apply (ent_file _ _ _ _ _ EO)|apply (ent_force _ _ _ _ _ EO)|congruence|congruence|].
    intros o0 Ho0. exists k, ob. split; [congruence|]. split; [rewrite Hobs; exact Hob|]. split; [exact Hk2|].
    constructor; unfold flagP; rewrite ?Hs, ?Ht, ?Hi'; unfold mark_synced; cbn [w_spath w_shash s_oid s_chg s_path s_hash s_spath s_shash s_ex is_discarded].
    + exact Ftrash.
    + (* fo_K *) intros _. rewrite Hpds. destruct Hr as [X|X]; [left; exact X|right; right; exact X].
    + exact Fpath.
    + (* fo_spath *) right. exact Hsp.
    + (* fo_disc *) discriminate.
    + (* fo_c1 *) discriminate.
    + (* fo_c2 *) intros _ _. left. left. exact Hc.
    + (* fo_owner *) intros _ cs0 Hcs0. assert (cs0 = cs) by congruence. subst cs0.
      split; [exact P1|]. split; [exact P1|]. split; [exact P3|]. split; [exact P4|].
      intros _. split; [congruence|]. split; [apply P4; congruence|]. split; [left; reflexivity|].
      intros k0 Hk0. assert (k0 = k') by (apply ostr_k_inj; congruence). subst k0. exact Hgk'.
    + (* fo_owner2 *) intros _ cs0 _. split; [discriminate|congruence].
    + (* fo_mirror *) congruence.
  - constructor; rewrite Ht; cbn [s_otype s_force s_oid s_chg s_path s_hash s_spath s_shash s_ex]; try reflexivity; try discriminate.
    intros o0 Ho0. exists k', ob'. split; [congruence|]. split; [exact Hobt|]. split; [exact Hk'2|].
    constructor; unfold flagP; rewrite ?Ht, ?Hi', ?Bool.negb_involutive, ?Hos; cbn [s_oid s_chg s_path s_hash s_spath s_shash s_ex is_discarded];
      try discriminate; try congruence.
    + (* fo_K *) left. exact Hpdt.
    + (* fo_path *) right. reflexivity.
    + (* fo_spath *) right. reflexivity.
    + (* fo_c2 *) intros _ _. left. right. exact Hpdt.
    + (* fo_mirror *) intros _ _. rewrite Hd'. split; [exact Hl'|]. do 5 (split; [reflexivity|]). exists k, ob. split; [reflexivity|]. split; [rewrite Hobs; exact Hob|].
      split; [exact Hleaf|congruence].
Qed.

Lemma sctx_synced : weff (with_prov w0 (negb s) pv) w' e en' (Some true) -> synced_ok g w w' e s k en'.
Proof.
  intros W. unfold synced_ok.
  destruct (sctx_call (Some true) W) as (SC' & Rest);
    rewrite ?Hs, ?Ht; unfold mark_synced; cbn [w_spath w_shash s_oid s_ex s_hash s_path]; try reflexivity.
  - apply (flagged_side en' s); rewrite Hs; unfold mark_synced; cbn [w_spath w_shash s_chg s_oid]; [exact Hc|rewrite Ho; reflexivity].
  - apply N.eq_le_incl, maxchg_ext. refine (both_sides s _ _ _); [rewrite Hs|rewrite Ht]; reflexivity.
  - refine (both_sides s _ _ _); [rewrite Hs|rewrite Ht]; intros Hoid.
    + apply (ShapeS_ext _ (gs en s)); [reflexivity|reflexivity|apply (sc_shape _ _ _ _ SC s Hoid)].
    + left. split; [reflexivity|discriminate].
  - exact EntOk_synced.
  - split; [exact SC'|]. split; [exact Ho|]. split; [discriminate|]. split; [reflexivity|]. split; [exact Hi'|exact Rest].
Qed.
End Synced.
End Call.

(* one more plain write after the effect [weff w0 w] accumulated so far *)
Lemma plain_after w0 w e en0 en m sd f :
  nth_error (ents (w_st w0)) e = Some en0 -> weff w0 w e en m ->
  (forall x, s_oid (f x) = s_oid x /\ s_path (f x) = s_path x) ->
  exists w1, plain w e sd f = ROk w1 /\ weff w0 w1 e (ss en sd (f (gs en sd))) m.
Proof.
  intros Hn W Hf.
  destruct (plain_w w e sd f en (weff_nth W Hn) Hf) as (w1 & H1 & W1).
  exists w1. split; [exact H1|exact (weff_trans W W1)].
Qed.

Lemma verify_parent_root g w t n : Inv g w -> ProvModel.verify_parent (prov_of w t) [root_name t; n] = None.
Proof.
  intros I. pose proof (i_pwf I t) as W.
  destruct (sh_root1 (i_shape I t)) as (r1 & H1 & L1 & P1 & K1). unfold obj_at in H1.
  pose proof (info_path_live _ 1 r1 W H1 L1) as Hi. rewrite P1 in Hi.
  unfold ProvModel.verify_parent. cbn [removelast]. rewrite Hi. unfold ProvModel.info_of. cbn [ProvModel.i_kind]. rewrite K1. reflexivity.
Qed.

Lemma leaf_two (a n : ProvModel.name) : leaf [a; n] = n. Proof. reflexivity. Qed.

(* The leaves that copy a user's object to the other side: side s of the entry holds object k = ob, made by a user, with
   record cs in the ghost. *)
Section Leaf.
Variables (g : ghost) (w : world) (e : nat) (en : StateModel.entry) (s : bool) (k : nat) (ob : ProvModel.obj) (cs : list N)
          (n : ProvModel.name).
Hypothesis SC : SCtx g w e en.
Hypothesis Hign : e_ign en = INone.
Hypothesis Ho : s_oid (gs en s) = Some (ostr_k k).
Hypothesis Hob : obj_at w s k = Some ob.
Hypothesis Hg : g_get k (g_of g s) = Some cs.

Section Create.
Hypothesis Hot : s_oid (gs en (negb s)) = None.
Hypothesis Hpath : ProvModel.o_path ob = [root_name s; n].
Hypothesis Hnok : name_ok n = true.
Hypothesis Hsp : s_path (gs en s) = Some (pstr [root_name s; n]).
Hypothesis Hc : tchg (s_chg (gs en s)) = true.
Hypothesis Htf : x_tfile (getx w e s) = None.

Lemma create_run pv i :
  ProvModel.create (prov_of w (negb s)) [root_name (negb s); n] (ProvModel.o_data ob) = (pv, ProvModel.Ok i) ->
  exists w3 calls,
    create_synced (setx (tname_world w e s en (pstr [root_name s; n])) e s (set_tfile (ProvModel.o_data ob))) e s
                  (pstr [root_name (negb s); n]) = ROk (w3, calls, Finished) /\
    exists en3, synced_ok g w w3 e s k en3.
Proof.
  intros Ecr. pose proof SC as [I He Hn Hr _].
  pose proof (i_ents I e en He Hn) as EO.
  set (t := negb s) in *. set (p := [root_name t; n]) in *. set (data := ProvModel.o_data ob) in *.
  assert (Hpok: Forall (fun n => name_ok n = true) p) by (repeat constructor; [apply root_name_ok|exact Hnok]).
  destruct (downloaded_world w e s en (pstr [root_name s; n]) data Htf) as (T1 & H1prov & Htd).
  set (w1 := setx _ e s (set_tfile data)) in *.
  pose proof (i_pwf I t) as HWt.
  destruct (create_inv _ _ _ _ _ HWt Ecr) as (Hi & CP).
  set (k' := length (ProvModel.p_heap (prov_of w t))) in *.
  set (o' := new_obj (prov_of w t) p ProvModel.KFile data) in *.
  unfold create_synced. rewrite Htd. cbn [rbind]. fold t. rewrite (spath_pstr p Hpok), (H1prov t), Ecr, Hi.
  cbn [ProvModel.info_of o' new_obj ProvModel.i_data ProvModel.i_path ProvModel.i_oid ProvModel.o_kind ProvModel.o_data
       ProvModel.o_path ProvModel.o_oid]. fold k'. rewrite kstr_kid.
  pose proof (tmp_eq_prov _ _ _ t pv T1) as T2. set (w2 := with_prov w1 t pv) in *.
  pose proof (tmp_eq_std g w w2 e en I Hn T2) as S2. pose proof S2 as (_ & H2t & _ & H2n). destruct T2 as (_ & H2st & _).
  rewrite (get_e_nth _ _ _ H2n). cbn [rbind].
  destruct (plain_w w2 e t (fun y => w_shash y (Some data)) en H2n) as (wa & -> & Wa); [intros; split; reflexivity|]. cbn [rbind].
  destruct (plain_after _ _ _ _ _ _ t (fun y => w_spath y (Some (pstr p))) H2n Wa) as (wb & -> & Wb); [intros; split; reflexivity|]. cbn [rbind].
  destruct (plain_after _ _ _ _ _ _ s (fun y => w_shash y (s_hash (gs en s))) H2n Wb) as (wc & -> & Wc); [intros; split; reflexivity|]. cbn [rbind].
  destruct (plain_after _ _ _ _ _ _ s (fun y => w_spath y (s_path (gs en s))) H2n Wc) as (wd & -> & Wd); [intros; split; reflexivity|]. cbn [rbind].
  clear Wa Wb Wc.
  match type of Wd with weff _ _ _ ?EN _ => set (end_ := EN) in * end.
  (* the entry before update_entry: side s marked, side t still without an id *)
  assert (Hgt0: gs en t = mkSide File None None None None None ExUnknown (s_chg (gs en t)) false).
  { pose proof (ent_file _ _ _ _ _ EO t) as X1. pose proof (ent_force _ _ _ _ _ EO t) as X2.
    pose proof (so_empty_ex (eo_side EO t) Hot ltac:(rewrite Hign; reflexivity)) as X3.
    destruct (so_empty (eo_side EO t) Hot) as (_ & X4 & X5 & X6 & X7).
    destruct (gs en t); simpl in *; subst; reflexivity. }
  assert (Hgt: gs end_ t = w_spath (w_shash (gs en t) (Some data)) (Some (pstr p))) by (unfold end_, t; destruct s; reflexivity).
  assert (Hgs: gs end_ s = mark_synced (gs en s)) by (unfold end_, t; destruct s; reflexivity).
  assert (Hgi: e_ign end_ = INone) by (unfold end_; rewrite !ign_ss; exact Hign).
  assert (Hnt: negb t = s) by apply Bool.negb_involutive.
  pose proof (weff_std Wd S2) as Sd. pose proof Sd as (_ & _ & HdI & _).
  pose proof (heap_ge2 g w t I) as Hk'2. fold k' in Hk'2.
  assert (Hnew: obj_at w t k' = None) by (apply nth_error_None, Nat.le_refl).
  destruct (al_get (ostr_k k') (oids (w_st wd) t)) as [x|] eqn:Hfresh.
  { exfalso. destruct (idx_lookup _ _ _ _ HdI Hfresh) as (xn & Hxn & Hox). destruct (Nat.eq_dec x e) as [->|Hxe].
    - rewrite (weff_nth Wd H2n) in Hxn. injection Hxn as <-. rewrite Hgt, Hgt0 in Hox. discriminate.
    - rewrite (weff_nth_other _ _ _ _ _ x Wd Hxe), H2st in Hxn. apply (Nat.lt_irrefl k'), (oid_lt_heap g w x xn t k' I Hxn Hox). }
  destruct (upd_entry_create_w wd e t (ostr_k k') (pstr p) (Some data) end_) as (w4 & -> & W4);
    [exact Sd|rewrite Hgt, Hgt0; reflexivity|rewrite Hgt, Hgt0; reflexivity|exact Hfresh|apply tstr_ostr|apply tstr_pstr|apply nps_pstr, Hpok
    |rewrite Hgt, Hgt0; discriminate|rewrite Hnt, Hgs; exact Hc|].
  cbn [rbind]. exists w4, [mkCall t (PCreate p data) true [p]]. split; [reflexivity|].
  match type of W4 with weff _ _ _ ?EN _ => set (en3 := EN) in * end.
  pose proof (weff_trans Wd W4) as W24. cbn [mcomp] in W24.
  assert (Hf_t: gs en3 t = mkSide File (Some (ostr_k k')) (Some (pstr p)) (Some data) (Some (pstr p)) (Some data) ExExists (s_chg (gs en t)) false).
  { unfold en3. rewrite gs_ss_same, gs_hash_upd_same, !gs_prio0, !gs_ss_same, Hgt, Hgt0. reflexivity. }
  assert (Hf_s: gs en3 s = mark_synced (gs en s)).
  { rewrite <- Hgs, <- Hnt. unfold en3. rewrite gs_ss_other, gs_hash_upd_other, gs_prio0, !gs_ss_other. reflexivity. }
  assert (Hf_i: e_ign en3 = INone) by (unfold en3; rewrite ign_ss, ign_hash_upd, prio0_entry, !ign_ss; exact Hgi).
  destruct (g_get k' (g_of g t)) as [cs'|] eqn:Hgk'.
  { destruct (i_ghost I t k' cs' Hgk') as (_ & ob2 & r2 & Hob2 & _). congruence. }
  exists en3.
  apply (sctx_synced g w w1 w4 e en en3 s pv k' o' _ SC T1 H1prov CP) with (cs := cs) (ob := ob); fold t; auto.
  - (* Hpath *) exists n. auto.
  - (* Hdead *) intros ob0 Hob0. congruence.
  - (* Hsp *) rewrite Hsp, Hpath. reflexivity.
  - (* Hleaf *) rewrite Hpath. reflexivity.
Qed.

Lemma create_answers :
  answers (create_synced (setx (tname_world w e s en (pstr [root_name s; n])) e s (set_tfile (ProvModel.o_data ob))) e s
                  (pstr [root_name (negb s); n]))
    (fun r => snd r = Finished /\ exists en3, synced_ok g w (fst (fst r)) e s k en3)
    (fun _ => ProvModel.info_path (prov_of w (negb s)) [root_name (negb s); n] <> None).
Proof.
  pose proof (sc_inv _ _ _ _ SC) as I.
  destruct (ProvModel.create (prov_of w (negb s)) [root_name (negb s); n] (ProvModel.o_data ob)) as [pv [i|er]] eqn:Ecr.
  - destruct (create_run pv i Ecr) as (w3 & calls & -> & R).
    cbn. auto.
  - match goal with |- answers ?X _ _ => destruct X as [[[w3 calls] rs]|c] eqn:H end; cbn [answers].
    + (* a refused create ends in OutOfFragment on level 1 *)
      exfalso. destruct (downloaded_world w e s en (pstr [root_name s; n]) (ProvModel.o_data ob) Htf) as ((Hcfg & _) & Hprov & Htd).
      assert (Hpok: Forall (fun n => name_ok n = true) [root_name (negb s); n]) by (repeat constructor; [apply root_name_ok|exact Hnok]).
      unfold create_synced in H. rewrite Htd in H. cbn [rbind] in H. rewrite (spath_pstr _ Hpok), Hprov, Ecr in H.
      unfold gate, lvl in H. rewrite Hcfg, (i_cfg I) in H. destruct er; discriminate.
    + (* a create on a free path below the root is accepted *)
      intros Hnone. pose proof (i_pwf I (negb s)) as Wt.
      destruct (create_spec (prov_of w (negb s)) [root_name (negb s); n] (ProvModel.o_data ob) Wt
                  (info_path_none_free _ _ Wt Hnone) (verify_parent_root g w (negb s) n I)) as (pv' & Ecr' & _).
      congruence.
Qed.

End Create.

Lemma upload_run :
  s_oid (gs en (negb s)) <> None ->
  ProvModel.o_path ob = [root_name s; n] ->
  s_path (gs en s) = Some (pstr [root_name s; n]) -> tchg (s_chg (gs en s)) = true ->
  x_tfile (getx w e s) = None ->
  exists w3 calls,
    upload_synced (setx (tname_world w e s en (pstr [root_name s; n])) e s (set_tfile (ProvModel.o_data ob))) e s = ROk (w3, calls, true) /\
    exists en3, synced_ok g w w3 e s k en3.
Proof.
  intros Hpeer Hpath Hsp Hc Htf. pose proof SC as [I He Hn Hr _].
  pose proof (i_ents I e en He Hn) as EO.
  destruct (s_oid (gs en (negb s))) as [o'|] eqn:Hot; [|contradiction].
  destruct (so_full (eo_side EO (negb s)) _ Hot) as (k' & ob' & -> & Hobt & _).
  set (t := negb s) in *. set (data := ProvModel.o_data ob) in *.
  assert (Hnt: negb t = s) by apply Bool.negb_involutive.
  (* the peer is the engine's copy of ob: alive, and what its markers say *)
  destruct (EntOk_full EO Ho Hob) as (_ & FO). destruct (EntOk_full EO Hot Hobt) as (Hk2' & FOt).
  assert (Hnd: is_discarded (e_ign en) = false) by (rewrite Hign; reflexivity).
  pose proof (owner_peer _ g w e en s k ob cs k' Hnd FO Hg Hot) as Hgt.
  destruct (fo_mirror FOt Hnd Hgt) as (M1 & M2 & _ & _ & M5 & M6 & (k2 & ob2 & M7 & M8 & M9 & _)).
  rewrite Hnt in M7, M8. destruct (same_object w s k k2 ob ob2 ltac:(congruence) Hob M8) as (-> & ->).
  destruct (sh_files (i_shape I t) k' ob' Hk2' Hobt) as (Hkf' & n' & Hpn' & Hnok').
  destruct (downloaded_world w e s en (pstr [root_name s; n]) data Htf) as (T1 & H1prov & Htd).
  set (w1 := setx _ e s (set_tfile data)) in *.
  pose proof (i_pwf I t) as HWt. pose proof Hobt as Hobt0. unfold obj_at in Hobt0.
  destruct (upload_spec _ _ _ data HWt Hobt0 M1 Hkf') as (pv & Eup & CP).
  set (ob'' := ProvModel.set_data ob' data) in *.
  set (w2 := with_prov w1 t pv).
  pose proof (tmp_eq_std g w w1 e en I Hn T1) as (H1cfg & _ & _ & H1n).
  pose proof (tmp_eq_std g w w2 e en I Hn (tmp_eq_prov _ _ _ t pv T1)) as S2. pose proof S2 as (_ & H2t & _ & H2n).
  unfold upload_synced. rewrite Htd. cbn [rbind]. rewrite (get_e_nth w1 e en H1n). cbn [rbind]. fold t.
  rewrite Hot, (key_of_std w1 t k' H1cfg). cbn [rbind]. rewrite (H1prov t), Eup. fold w2.
  assert (Hid: ProvModel.i_data (ProvModel.info_of ob'') = Some data) by (unfold ProvModel.info_of, ob''; simpl; rewrite Hkf'; reflexivity).
  assert (Hio: kstr (ProvModel.i_oid (ProvModel.info_of ob'')) = ostr_k k').
  { unfold ProvModel.info_of, ob''. simpl. rewrite (pw_oid _ HWt _ _ Hobt0). reflexivity. }
  rewrite Hid, Hio.
  destruct (plain_w w2 e t (fun y => w_hash y (Some data)) en H2n) as (wa & -> & Wa); [intros; split; reflexivity|]. cbn [rbind].
  destruct (plain_after _ _ _ _ _ _ t (fun y => w_shash y (Some data)) H2n Wa) as (wb & -> & Wb); [intros; split; reflexivity|]. cbn [rbind].
  match type of Wb with weff _ _ _ ?EN _ => set (enb := EN) in * end.
  rewrite (get_e_nth _ _ _ (weff_nth Wb H2n)). cbn [rbind].
  assert (Hgt_b: gs enb t = w_shash (w_hash (gs en t) (Some data)) (Some data)) by (unfold enb; rewrite !gs_ss_same; reflexivity).
  assert (Hgs_b: gs enb s = gs en s) by (unfold enb, t; destruct s; reflexivity).
  rewrite Hgt_b, Hgs_b. cbn [w_shash w_hash s_spath]. rewrite M5, tstr_pstr. cbn [rbind].
  destruct (plain_after _ _ _ _ _ _ s (fun y => w_shash y (s_hash (gs en s))) H2n Wb) as (wc & -> & Wc); [intros; split; reflexivity|]. cbn [rbind].
  destruct (plain_after _ _ _ _ _ _ s (fun y => w_spath y (s_path (gs en s))) H2n Wc) as (wd & -> & Wd); [intros; split; reflexivity|]. cbn [rbind].
  clear Wa Wb Wc.
  match type of Wd with weff _ _ _ ?EN _ => set (end_ := EN) in * end.
  rewrite (get_e_nth _ _ _ (weff_nth Wd H2n)). cbn [rbind].
  assert (Hgt_d: gs end_ t = w_shash (w_hash (gs en t) (Some data)) (Some data)) by (rewrite <- Hgt_b; unfold end_, t; destruct s; reflexivity).
  assert (Hgs_d: gs end_ s = mark_synced (gs en s)) by (unfold end_; rewrite !gs_ss_same, Hgs_b; reflexivity).
  assert (Hgi: e_ign end_ = INone) by (unfold end_, enb; rewrite !ign_ss; exact Hign).
  rewrite Hgt_d. cbn [w_shash w_hash s_spath]. rewrite M5, <- M6.
  replace (s_path (gs en t)) with (s_path (gs end_ t)) by (rewrite Hgt_d; reflexivity).
  destruct (upd_entry_same_w wd e t (ostr_k k') end_ (weff_std Wd S2)) as (w4 & -> & W4);
    try (rewrite Hgt_d; cbn [w_shash w_hash s_oid s_path]); auto.
  { intros q Hq. rewrite M6 in Hq. injection Hq as <-. rewrite Hpn'. apply nps_pstr. repeat constructor; [apply root_name_ok|exact Hnok']. }
  { rewrite Hnt, Hgs_d. exact Hc. }
  cbn [rbind]. eexists w4, _. split; [reflexivity|].
  match type of W4 with weff _ _ _ ?EN _ => set (en3 := EN) in * end.
  pose proof (weff_trans Wd W4) as W24. cbn [mcomp] in W24.
  assert (Hf_t: gs en3 t = mkSide File (Some (ostr_k k')) (Some (pstr (ProvModel.o_path ob'))) (Some data)
                                  (Some (pstr (ProvModel.o_path ob'))) (Some data) ExExists (s_chg (gs en t)) false).
  { unfold en3. rewrite gs_ss_same, Hgt_d.
    pose proof (ent_file _ _ _ _ _ EO t) as X1. pose proof (ent_force _ _ _ _ _ EO t) as X2.
    revert X1 X2 Hot M2 M5 M6. destruct (gs en t). simpl. intros -> -> -> -> -> ->. reflexivity. }
  assert (Hf_s: gs en3 s = mark_synced (gs en s)) by (rewrite <- Hgs_d, <- Hnt; unfold en3; apply gs_ss_other).
  assert (Hf_i: e_ign en3 = INone) by (unfold en3; rewrite ign_ss; exact Hgi).
  exists en3.
  apply (sctx_synced g w w1 w4 e en en3 s pv k' ob'' _ SC T1 H1prov CP) with (cs := cs) (ob := ob); fold t; auto.
  - (* Hpath *) exists n'. auto.
  - (* Hdead *) intros ob0 Hob0 Hd0. congruence.
  - (* Hsp *) rewrite Hsp, Hpath. reflexivity.
Qed.

End Leaf.

Lemma upload_pres g w e en s k ob cs k' ob' n w3 calls up :
  SCtx g w e en -> e_ign en = INone ->
  s_oid (gs en s) = Some (ostr_k k) -> obj_at w s k = Some ob -> ProvModel.o_exists ob = true ->
  g_get k (g_of g s) = Some cs ->
  s_oid (gs en (negb s)) = Some (ostr_k k') -> obj_at w (negb s) k' = Some ob' ->
  ProvModel.o_path ob = [root_name s; n] ->
  s_path (gs en s) = Some (pstr [root_name s; n]) -> tchg (s_chg (gs en s)) = true ->
  x_tfile (getx w e s) = None ->
  upload_synced (setx (tname_world w e s en (pstr [root_name s; n])) e s (set_tfile (ProvModel.o_data ob))) e s = ROk (w3, calls, up) ->
  up = true /\ exists en3, SCtx g w3 e en3 /\
    s_oid (gs en3 s) = Some (ostr_k k) /\ s_oid (gs en3 (negb s)) <> None /\ s_hash (gs en3 s) = s_shash (gs en3 s) /\
    e_ign en3 = INone /\ prov_of w3 s = prov_of w s /\
    (forall x sd0, x <> e -> getx w3 x sd0 = getx w x sd0) /\ (forall sd0, x_lg (getx w3 e sd0) = x_lg (getx w e sd0)) /\
    (forall sd0 k0 cs0, g_get k0 (g_of g sd0) = Some cs0 -> obj_at w3 sd0 k0 = obj_at w sd0 k0).
Proof.
  intros SC Hign Ho Hob Hl Hg Hot Hobt Hpath Hsp Hc Htf H.
  assert (Hpeer: s_oid (gs en (negb s)) <> None) by congruence.
  destruct (upload_run g w e en s k ob cs n SC Hign Ho Hob Hg Hpeer Hpath Hsp Hc Htf) as (w3' & calls' & H' & R).
  rewrite H' in H. injection H as <- <- <-. split; [reflexivity|exact R].
Qed.

(* the clauses that are left of SideOk / FullOk for a discarded entry: so_file, so_nofrc, so_empty, and for a side with an id
   fo_disc, fo_path, fo_spath, in that order (fo_K binds live entries only) *)
Lemma EntOk_disc evl g w e en :
  e_ign en = IDiscarded -> (s_oid (e_l en) <> None \/ s_oid (e_r en) <> None) ->
  (forall sd, s_otype (gs en sd) = File /\ s_force (gs en sd) = false /\
     (s_oid (gs en sd) = None -> tchg (s_chg (gs en sd)) = false /\ s_path (gs en sd) = None /\ s_hash (gs en sd) = None /\
                                 s_spath (gs en sd) = None /\ s_shash (gs en sd) = None) /\
     (forall o, s_oid (gs en sd) = Some o -> exists k ob, o = ostr_k k /\ obj_at w sd k = Some ob /\ (2 <= k)%nat /\
        ProvModel.o_exists ob = false /\
        popt (s_path (gs en sd)) (pstr (ProvModel.o_path ob)) /\ popt (s_spath (gs en sd)) (pstr (ProvModel.o_path ob)))) ->
  EntOk evl g w e en.
Proof.
  intros Hi Hs H. assert (Hd: is_discarded (e_ign en) = true) by (rewrite Hi; reflexivity).
  constructor; [right; exact Hi|exact Hs|]. intros sd. destruct (H sd) as (A & B & C & D).
  constructor; auto.
  - intros _ X. congruence.
  - intros o Ho. destruct (D o Ho) as (k & ob & X1 & X2 & X3 & X4 & X5 & X6). exists k, ob. repeat (split; [assumption|]).
    constructor; auto; intros X; congruence.
Qed.

(* SyncEntry.ignore(DISCARDED), the end of delete_synced, on an entry that was not ignored *)
Definition discarded (en : StateModel.entry) : StateModel.entry :=
  mkEnt (w_chg (e_l en) CFalse) (w_chg (e_r en) CFalse) IDiscarded (e_prio en).

(* the end of delete_synced: the other side is marked trashed and the entry discarded *)
Lemma discard_w w e t en (cs : list call) :
  nth_error (ents (w_st w)) e = Some en -> e_ign en = INone ->
  exists w3,
    (w2 <- plain w e t (fun y => w_ex y ExTrashed) ;; en2 <- get_e w2 e ;;
     w3 <- (if is_conflicted (e_ign en2) then ROk w2 else AlgoModel.set_ignored w2 e IDiscarded) ;; ROk (w3, cs, Finished))
    = ROk (w3, cs, Finished) /\
    weff w w3 e (discarded (ss en t (w_ex (gs en t) ExTrashed))) (Some false).
Proof.
  intros Hn Hi.
  destruct (plain_w w e t (fun y => w_ex y ExTrashed) en Hn) as (wb & -> & Wb); [intros; split; reflexivity|]. cbn [rbind].
  pose proof (weff_nth Wb Hn) as Hnb.
  rewrite (get_e_nth _ _ _ Hnb). cbn [rbind]. rewrite ign_ss, Hi. cbn [is_conflicted].
  destruct (set_ignored_w wb e IDiscarded _ Hnb) as (wc & -> & Wc). cbn [rbind].
  unfold ign_entry, ign_member in Wc. rewrite ign_ss, Hi in Wc.
  exists wc. split; [reflexivity|exact (weff_trans Wb Wc)].
Qed.

(* Side s shows a trashed object; the other side's object, if there is one, has just been deleted. *)
Lemma EntOk_deleted evl evl' g w w' e en en' s k p :
  EntOk evl g w e en -> s_ex (gs en s) = ExTrashed -> s_oid (gs en s) = Some (ostr_k k) ->
  e_ign en' = IDiscarded -> gs en' s = w_chg (w_spath (gs en s) p) CFalse -> p = None \/ p = s_spath (gs en s) ->
  gs en' (negb s) = w_chg (w_ex (gs en (negb s)) ExTrashed) CFalse ->
  (forall k0, obj_at w' s k0 = obj_at w s k0) ->
  (forall k' ob', s_oid (gs en (negb s)) = Some (ostr_k k') -> obj_at w (negb s) k' = Some ob' ->
     obj_at w' (negb s) k' = Some (ProvModel.set_exists ob' false)) ->
  EntOk evl' g w' e en'.
Proof.
  intros EO Hex Ho Hi Hs Hp Ht Hobs Hpeer.
  apply EntOk_disc; [exact Hi|apply (some_side en' s); rewrite Hs; cbn [w_chg w_spath s_oid]; congruence|].
  refine (both_sides s _ _ _); [rewrite Hs|rewrite Ht]; cbn [w_chg w_spath w_ex s_otype s_force s_oid s_chg s_path s_hash s_spath s_shash tchg];
    (split; [apply (ent_file _ _ _ _ _ EO)|]); (split; [apply (ent_force _ _ _ _ _ EO)|]).
  - split; [congruence|]. intros o Ho'.
    destruct (so_full (eo_side EO s) _ Ho') as (k1 & ob & -> & Hob & Hk2 & FO).
    exists k1, ob. split; [reflexivity|]. split; [rewrite Hobs; exact Hob|]. split; [exact Hk2|].
    split; [apply (fo_trash FO Hex)|]. split; [apply (fo_path FO)|].
    destruct Hp as [->| ->]; [left; reflexivity|apply (fo_spath FO)].
  - split.
    { intros Hno. destruct (so_empty (eo_side EO (negb s)) Hno) as (_ & X). split; [reflexivity|exact X]. }
    intros o Ho'. destruct (so_full (eo_side EO (negb s)) _ Ho') as (k' & ob' & -> & Hob' & Hk2' & FO).
    pose proof (Hpeer k' ob' Ho' Hob') as Hob''.
    exists k', (ProvModel.set_exists ob' false). split; [reflexivity|]. split; [exact Hob''|]. split; [exact Hk2'|]. split; [reflexivity|].
    split; [apply (fo_path FO)|apply (fo_spath FO)].
Qed.

Lemma delete_run g w e en s k :
  SCtx g w e en -> e_ign en = INone -> s_ex (gs en s) = ExTrashed -> s_oid (gs en s) = Some (ostr_k k) ->
  delete_synced w e s = OutOfFragment X_DELETE_OTHER \/
  exists w3 calls, delete_synced w e s = ROk (w3, calls, Finished) /\
    exists en3, SCtx g w3 e en3 /\ is_discarded (e_ign en3) = true /\
    (forall x sd0, getx w3 x sd0 = getx w x sd0) /\
    (forall sd0 k0 cs0, g_get k0 (g_of g sd0) = Some cs0 -> obj_at w3 sd0 k0 = obj_at w sd0 k0).
Proof.
  intros SC Hign Hex Ho. pose proof SC as [I He Hn Hr Hsh].
  set (t := negb s) in *.
  pose proof (i_cfg I) as Hcfg. pose proof (i_ents I e en He Hn) as EO.
  assert (Hnd: is_discarded (e_ign en) = false) by (rewrite Hign; reflexivity).
  unfold delete_synced. rewrite (get_e_nth _ _ _ Hn). cbn [rbind].
  match goal with |- context [existsb ?F ?L] => destruct (existsb F L); [left; reflexivity|] end.
  match goal with |- context [existsb ?F ?L] => destruct (existsb F L); [left; reflexivity|] end.
  right. fold t.
  assert (Hsh3: forall en3 p, gs en3 s = w_chg (w_spath (gs en s) p) CFalse ->
                gs en3 t = w_chg (w_ex (gs en t) ExTrashed) CFalse -> forall sd, s_oid (gs en3 sd) <> None -> ShapeS (gs en3 sd)).
  { intros en3 p Hs Ht. refine (both_sides s _ _ _); fold t; intros _; right.
    - rewrite Hs. cbn [w_chg w_spath s_ex]. rewrite Hex. reflexivity.
    - rewrite Ht. reflexivity. }
  destruct (s_oid (gs en t)) as [o'|] eqn:Eot.
  - (* the peer object is deleted *)
    destruct (so_full (eo_side EO s) _ Ho) as (k1 & ob & Hk1 & Hob & _ & FO).
    apply ostr_k_inj in Hk1. subst k1.
    destruct (so_full (eo_side EO t) _ Eot) as (k' & ob' & -> & Hobt & Hk2' & FOt).
    (* a user made the trashed object: a mirror would be alive *)
    destruct (g_get k (g_of g s)) as [cs|] eqn:Hg.
    2:{ destruct (fo_mirror FO Hnd Hg) as (X & _). rewrite (fo_trash FO Hex) in X. discriminate. }
    pose proof (owner_peer _ g w e en s k ob cs k' Hnd FO Hg Eot) as Hgt.
    destruct (fo_mirror FOt Hnd Hgt) as (M1 & _).
    destruct (sh_files (i_shape I t) k' ob' Hk2' Hobt) as (Hkf' & n' & Hpn' & Hnok').
    cbn [rbind]. rewrite tstr_ostr, (key_of_std w t k' Hcfg). cbn [rbind].
    pose proof (i_pwf I t) as HWt. pose proof Hobt as Hobt0. unfold obj_at in Hobt0.
    destruct (delete_spec _ _ _ HWt Hobt0 M1 Hkf') as (pv & -> & CP).
    set (ob'' := ProvModel.set_exists ob' false) in *. set (w2 := with_prov w t pv).
    pose proof (tmp_eq_std g w w2 e en I Hn (tmp_eq_prov _ _ _ t pv (tmp_eq_refl w e))) as (_ & H2t & _ & H2n).
    destruct (plain_w w2 e s (fun y => w_spath y None) en H2n) as (wa & -> & Wa); [intros; split; reflexivity|]. cbn [rbind].
    match goal with |- context [ROk (_, ?CS, Finished)] =>
      destruct (discard_w wa e t _ CS (weff_nth Wa H2n)) as (w3 & -> & Wc);
        [rewrite ign_ss; exact Hign|] end.
    pose proof (weff_trans Wa Wc) as W24. cbn [mcomp] in W24. clear Wa Wc.
    match type of W24 with weff _ _ _ ?EN _ => set (en3 := EN) in * end.
    eexists w3, _. split; [reflexivity|]. exists en3.
    assert (Hf_s: gs en3 s = w_chg (w_spath (gs en s) None) CFalse) by (unfold en3, t; destruct s; reflexivity).
    assert (Hf_t: gs en3 t = w_chg (w_ex (gs en t) ExTrashed) CFalse) by (unfold en3, t; destruct s; reflexivity).
    destruct (sctx_call g w w w3 e en en3 s pv k' ob'' _ SC (tmp_eq_refl w e)
                (fun _ => eq_refl) CP) with (m := Some false) as (SC3 & _ & _ & _ & Hown);
      fold t; rewrite ?Hf_s, ?Hf_t; cbn [w_chg w_spath w_ex s_oid s_ex s_hash s_path]; try reflexivity; auto.
    + (* Hpath *) exists n'. auto.
    + (* stamps *) apply N.le_0_l.
    + (* shape *) apply (Hsh3 en3 _ Hf_s Hf_t).
    + (* the entry *) intros evl' w'' Hobs Hobt' Hpds Hpdt.
      apply (EntOk_deleted (real_evl w) evl' g w w'' e en en3 s k None EO Hex Ho); fold t; auto.
      intros k0 ob0 Hk0 Hob0. destruct (same_object w t k' k0 ob' ob0 ltac:(congruence) Hobt Hob0) as (-> & ->). auto.
    + split; [exact SC3|]. split; [reflexivity|]. split; [|exact Hown].
      intros. rewrite (weff_getx x sd0 W24). unfold getx, w2. rewrite x_with_prov. reflexivity.
  - (* never synchronised: nothing to delete *)
    cbn [rbind].
    destruct (discard_w w e t en [] Hn Hign) as (w3 & -> & W24).
    match type of W24 with weff _ _ _ ?EN _ => set (en3 := EN) in * end.
    eexists w3, _. split; [reflexivity|]. exists en3.
    assert (Hf_s: gs en3 s = w_chg (w_spath (gs en s) (s_spath (gs en s))) CFalse).
    { unfold en3, t. destruct en as [[] [] i q], s; reflexivity. }
    assert (Hf_t: gs en3 t = w_chg (w_ex (gs en t) ExTrashed) CFalse) by (unfold en3, t; destruct s; reflexivity).
    assert (Hobj: forall sd0 k0, obj_at w3 sd0 k0 = obj_at w sd0 k0) by (intros; apply obj_at_prov, (weff_prov sd0 W24)).
    assert (Hoid: forall sd, s_oid (gs en3 sd) = s_oid (gs en sd)) by (refine (both_sides s _ _ _); fold t; [rewrite Hf_s|rewrite Hf_t]; reflexivity).
    split; [|split; [reflexivity|split; [intros; apply (weff_getx x sd0 W24)|intros; apply Hobj]]].
    apply (sctx_entry_step g w w w3 e en en3 (Some false) I He Hn (tmp_eq_refl w e) W24);
      [reflexivity|apply N.le_0_l|apply (Hsh3 en3 _ Hf_s Hf_t)|reflexivity|exact Hoid| |].
    + apply (EntOk_deleted (real_evl w) (real_evl w) g w w3 e en en3 s k (s_spath (gs en s)) EO Hex Ho); fold t; auto.
      intros k0 ob0 Hk0. congruence.
    + intros sd0 k0 ob0. rewrite Hoid. intros Ho0 Hob0. destruct (Hr sd0 k0 ob0 Ho0 Hob0) as [X|X]; [left; exact X|right].
      revert sd0 k0 ob0 Ho0 Hob0 X. refine (both_sides s _ _ _); fold t; [rewrite Hf_s; auto|rewrite Eot; discriminate].
Qed.

