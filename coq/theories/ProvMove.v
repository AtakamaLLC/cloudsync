(* ProvMove.v — what MockProvider._rename_single_object and the loop of rename() do to the object
   table (ProvModel.rename_single / move_all), in the flavours other than path-style + case-insensitive:
   every moved cell gets its new path (and oid, for path-style), its old path key disappears, its new
   path key leads to it, every other key is untouched; and, whatever the state and the flavour, the heap
   cells and the log after one move and after the loop. *)
From Coq Require Import NArith List Bool Lia Arith.
From CS Require Import ProvModel ProvProofs ProvWf.
Import ListNotations.

Lemma the_cell {A} {h : list A} {q} {P : A -> Prop} : (exists x, nth_error h q = Some x /\ P x) ->
  forall x, nth_error h q = Some x -> P x.
Proof. intros [x' [H HP]] x Hx. rewrite Hx in H. inversion H. exact HP. Qed.

Definition mv (c : cfg) (old dest : path) (x : obj) : obj :=
  set_place x (new_path old dest x) (if c_oidpath c then KPath (new_path old dest x) else o_oid x).

(* characterisation of one move (_rename_single_object) *)
Lemma rename_single_char s q x dest ev : S_inv s -> nth_error (p_heap s) q = Some x ->
  dget (KPath (np (p_cfg s) (o_path x))) (p_dict s) = Some q ->
  exists s', rename_single s q dest ev = Some s' /\
    p_cfg s' = p_cfg s /\
    (ev = false -> p_log s' = p_log s) /\
    p_heap s' = hset (p_heap s) q (set_place x dest (if c_oidpath (p_cfg s) then KPath dest else o_oid x)) /\
    (forall P, dget (KPath P) (p_dict s') =
               if path_eqb P (np (p_cfg s) dest) then Some q
               else if path_eqb P (np (p_cfg s) (o_path x)) then None
               else dget (KPath P) (p_dict s)) /\
    (forall n, dget (KId n) (p_dict s') = dget (KId n) (p_dict s)).
Proof.
  intros HS Hx Hown. unfold rename_single. rewrite Hx.
  unfold unstore. assert (M : dmem (KPath (np (p_cfg s) (o_path x))) (p_dict s) = true) by (exact (dget_dmem _ _ _ Hown)).
  rewrite M.
  set (o' := set_place x dest (if c_oidpath (p_cfg s) then KPath dest else o_oid x)).
  set (d1 := dremove (o_oid x) (dremove (KPath (np (p_cfg s) (o_path x))) (p_dict s))).
  assert (Hro : o_oid x = if c_oidpath (p_cfg s) then KPath (o_path x) else KId (N.of_nat q)) by (apply (s_oid s HS); exact Hx).
  assert (Ho : o_oid o' = if c_oidpath (p_cfg s) then KPath (o_path o') else KId (N.of_nat q)).
  { simpl. destruct (c_oidpath (p_cfg s)); [reflexivity|exact Hro]. }
  assert (A := s_sane s HS).
  eexists. split; [reflexivity|].
  split; [destruct ev; reflexivity|]. split; [intros ->; reflexivity|].
  split; [destruct ev; reflexivity|]. split.
  - intros P. transitivity (dget (KPath P) (store (p_cfg s) d1 q o')); [destruct ev; reflexivity|].
    rewrite (store_dget_path _ _ _ _ _ _ A Ho). simpl.
    destruct (path_eqb P (np (p_cfg s) dest)); [reflexivity|].
    unfold d1. rewrite !dget_dremove, Hro. destruct (sane_cases _ A) as [X|[X1 X2]]; rewrite ?X, ?X1; simpl; [reflexivity|].
    rewrite (np_cs _ _ X2). destruct (path_eqb P (o_path x)); reflexivity.
  - intros n. transitivity (dget (KId n) (store (p_cfg s) d1 q o')); [destruct ev; reflexivity|].
    rewrite (store_dget_id _ _ _ _ _ _ Ho). unfold d1. rewrite !dget_dremove, Hro.
    destruct (c_oidpath (p_cfg s)) eqn:Hc; simpl; [reflexivity|].
    destruct (N.eqb n (N.of_nat q)) eqn:E1; [|reflexivity].
    apply N.eqb_eq in E1. subst n. symmetry. apply (s_idkey s HS Hc). apply nth_error_Some. congruence.
Qed.

(* ev: the move of the renamed object itself logs its rename event, the loop of rename() asks for none *)
Lemma rename_single_heap_log s r dest ev s2 : rename_single s r dest ev = Some s2 ->
  exists o', nth_error (p_heap s2) r = Some o' /\ o_path o' = dest /\
    (forall q, q <> r -> nth_error (p_heap s2) q = nth_error (p_heap s) q) /\
    if ev then exists e, p_log s2 = p_log s ++ [e] /\ e_kind e = EvRename /\ e_oid e = o_oid o' /\ e_path e = dest /\
                         e_exists e = o_exists o'
    else p_log s2 = p_log s.
Proof.
  unfold rename_single. destruct (nth_error (p_heap s) r) as [o|] eqn:E; [|discriminate].
  destruct (unstore (p_cfg s) (p_dict s) o) as [d1|]; [|discriminate].
  set (o' := set_place o dest (if c_oidpath (p_cfg s) then KPath dest else o_oid o)).
  intros H. inversion H; subst; clear H. exists o'.
  assert (Hr : r < length (p_heap s)) by (apply nth_error_Some; congruence).
  split; [destruct ev; apply nth_hset_same, Hr|]. split; [reflexivity|].
  split; [intros q Hq; destruct ev; apply nth_hset_other, Hq|].
  destruct ev; simpl; [eexists; repeat split; reflexivity|reflexivity].
Qed.

Lemma move_all_frame L : forall s old dest s', move_all s L old dest = Some s' ->
  p_log s' = p_log s /\ forall q, ~ In q L -> nth_error (p_heap s') q = nth_error (p_heap s) q.
Proof.
  induction L as [|q0 t IH]; intros s old dest s'; simpl.
  - intros H. inversion H. auto.
  - destruct (nth_error (p_heap s) q0) as [x|]; [|discriminate].
    destruct (rename_single s q0 (new_path old dest x) false) as [s1|] eqn:R; [|discriminate].
    intros H. destruct (IH _ _ _ _ H) as [IHl IHo].
    destruct (rename_single_heap_log _ _ _ _ _ R) as (_ & _ & _ & Ho & Hl).
    split; [congruence|]. intros q Hnin. rewrite IHo by tauto. apply Ho. intros ->. apply Hnin. left. reflexivity.
Qed.

Lemma move_all_app a : forall s b old dest,
  move_all s (a ++ b) old dest =
  match move_all s a old dest with Some s2 => move_all s2 b old dest | None => None end.
Proof.
  induction a as [|q t IH]; intros s b old dest; simpl; [reflexivity|].
  destruct (nth_error (p_heap s) q) as [x|]; [|reflexivity].
  destruct (rename_single s q (new_path old dest x) false) as [s1|]; [|reflexivity].
  apply IH.
Qed.

(* characterisation of the loop; the last four conjuncts are called C1 (the new path keys), C2 (the old path keys that are
   nobody's new one), C3 (the other path keys), C4 (the id keys) where they are used *)
Lemma move_all_char : forall L s old dest,
  S_inv s -> NoDup L ->
  (forall q, In q L -> exists x, nth_error (p_heap s) q = Some x /\
                                 dget (KPath (np (p_cfg s) (o_path x))) (p_dict s) = Some q) ->
  (forall q1 q2 x1 x2, In q1 L -> In q2 L -> q1 <> q2 ->
     nth_error (p_heap s) q1 = Some x1 -> nth_error (p_heap s) q2 = Some x2 ->
     np (p_cfg s) (new_path old dest x1) <> np (p_cfg s) (o_path x2) /\
     np (p_cfg s) (new_path old dest x1) <> np (p_cfg s) (new_path old dest x2)) ->
  exists s', move_all s L old dest = Some s' /\ p_cfg s' = p_cfg s /\ p_log s' = p_log s /\
    length (p_heap s') = length (p_heap s) /\
    (forall q x, nth_error (p_heap s) q = Some x -> In q L ->
                 nth_error (p_heap s') q = Some (mv (p_cfg s) old dest x)) /\
    (forall q, ~ In q L -> nth_error (p_heap s') q = nth_error (p_heap s) q) /\
    (forall q x, In q L -> nth_error (p_heap s) q = Some x ->
                 dget (KPath (np (p_cfg s) (new_path old dest x))) (p_dict s') = Some q) /\
    (forall P q x, In q L -> nth_error (p_heap s) q = Some x -> np (p_cfg s) (o_path x) = P ->
                   (forall q' x', In q' L -> nth_error (p_heap s) q' = Some x' ->
                                  np (p_cfg s) (new_path old dest x') <> P) ->
                   dget (KPath P) (p_dict s') = None) /\
    (forall P, (forall q x, In q L -> nth_error (p_heap s) q = Some x ->
                            np (p_cfg s) (new_path old dest x) <> P /\ np (p_cfg s) (o_path x) <> P) ->
               dget (KPath P) (p_dict s') = dget (KPath P) (p_dict s)) /\
    (forall n, dget (KId n) (p_dict s') = dget (KId n) (p_dict s)).
Proof.
  (* by induction from the end of the list: hypotheses and conclusions then all speak of the first state *)
  induction L as [|q t IH] using rev_ind; intros s old dest HS Hnd Hown Hsep.
  - exists s. simpl. repeat split; auto; intros; try contradiction.
  - apply NoDup_remove in Hnd as [Hnt Hq]. rewrite app_nil_r in Hnt, Hq.
    assert (Hin_t : forall q', In q' t -> In q' (t ++ [q])) by (intros; apply in_or_app; auto).
    assert (Hin_q : In q (t ++ [q])) by apply in_elt.
    assert (Hne_t : forall q', In q' t -> q' <> q) by (intros q' Hin ->; contradiction).
    destruct (IH s old dest HS Hnt (fun q' H => Hown q' (Hin_t q' H))
                (fun q1 q2 x1 x2 I1 I2 => Hsep q1 q2 x1 x2 (Hin_t q1 I1) (Hin_t q2 I2)))
      as (s' & M & Hc & Hl & Hlen & Hmv & Hst & C1 & C2 & C3 & C4).
    destruct (Hown q Hin_q) as [x [Hx Hk]].
    assert (Hx' : nth_error (p_heap s') q = Some x) by (rewrite (Hst q Hq); exact Hx).
    destruct (rename_single_char s' q x (new_path old dest x) false (S_move_all _ _ _ _ _ HS M) Hx')
      as (s1 & R & Hc1 & Hl1 & Hh1 & HP1 & HI1).
    { (* and still filed under its path *)
      rewrite Hc, C3; [exact Hk|]. intros q' x' Hin' Hx''.
      destruct (Hsep q' q x' x (Hin_t q' Hin') Hin_q (Hne_t q' Hin') Hx'' Hx) as [S1 _]. split; [exact S1|].
      intros E. pose proof (the_cell (Hown q' (Hin_t q' Hin')) x' Hx'') as Hk''. cbv beta in Hk''.
      rewrite E, Hk in Hk''. apply (Hne_t q' Hin'). congruence. }
    rewrite Hc in Hh1, HP1. fold (mv (p_cfg s) old dest x) in Hh1.
    exists s1. split; [rewrite move_all_app, M; simpl; rewrite Hx', R; reflexivity|].
    split; [congruence|]. split; [rewrite (Hl1 eq_refl); exact Hl|].
    split; [rewrite Hh1, hset_length; exact Hlen|].
    split; [|split; [|split; [|split; [|split]]]].
    + intros q' x' Hx'' Hin. rewrite Hh1. apply in_app_or in Hin as [Hin|[<-|[]]].
      * rewrite nth_hset_other by (apply Hne_t; exact Hin). apply Hmv; assumption.
      * assert (x' = x) by congruence. subst x'. apply nth_hset_same, nth_error_Some. congruence.
    + intros q' Hnin. rewrite Hh1, nth_hset_other by (intros ->; apply Hnin; exact Hin_q).
      apply Hst. intros Hin. apply Hnin. apply Hin_t. exact Hin.
    + intros q' x' Hin Hx''. rewrite HP1. apply in_app_or in Hin as [Hin|[<-|[]]].
      * destruct (Hsep q' q x' x (Hin_t q' Hin) Hin_q (Hne_t q' Hin) Hx'' Hx) as [S1 S2].
        rewrite (proj2 (path_eqb_false _ _) S2), (proj2 (path_eqb_false _ _) S1). apply C1; assumption.
      * assert (x' = x) by congruence. subst x'. rewrite path_eqb_refl. reflexivity.
    + intros P q' x' Hin Hx'' HP Hnew. rewrite HP1.
      rewrite (proj2 (path_eqb_false P _) (fun E => Hnew q x Hin_q Hx (eq_sym E))).
      destruct (path_eqb P (np (p_cfg s) (o_path x))) eqn:E2; [reflexivity|].
      apply in_app_or in Hin as [Hin|[<-|[]]].
      * apply (C2 P q' x' Hin Hx'' HP). intros q'' x'' Hin''. apply Hnew. apply Hin_t. exact Hin''.
      * assert (x' = x) by congruence. subst x'. rewrite HP, path_eqb_refl in E2. discriminate.
    + intros P HP. rewrite HP1. destruct (HP q x Hin_q Hx) as [N1 N2].
      rewrite (proj2 (path_eqb_false P _) (fun E => N1 (eq_sym E))), (proj2 (path_eqb_false P _) (fun E => N2 (eq_sym E))).
      apply C3. intros q' x' Hin'. apply HP. apply Hin_t. exact Hin'.
    + intros n. rewrite HI1. apply C4.
Qed.
