(* PropC17.v — property theorems for C17 (scheduling laws) about SchedModel.v.
   [pick_sorted et l] is SyncState.change() on the change set [l] listed in the set's iteration order, [et] = now - age as the
   code computes it ([earlier_than c now age], one float rounding [c_rnd c]); [change] (the table level) uses
   [threshold c now age last]: now - age, raised to _last_changed_time when age <= 0.  Theorems about arithmetic take the
   properties of the rounding they need as hypotheses ([bump_ok], [cfg_ok], [exact]); ideal arithmetic ([cfg_exact]) satisfies
   all of them, the IEEE-double instance [cfg_float] of the extracted model does not (C17_strictly_increasing_float_refuted). *)
From Coq Require Import QArith ZArith List Bool Lqa.
From CS Require Import Sx SchedModel SchedProofs GenSched SchedGenEq.
Import ListNotations.
Open Scope Q_scope.

(* the code's sorted(...) + first eligible  =  first-occurring minimum among the eligible entries *)
Theorem C17_sort_scan_is_first_min : forall et l, pick_sorted et l = pick_min et l.
Proof. exact pick_sorted_min. Qed.
Print Assumptions C17_sort_scan_is_first_min.

(* complete characterisation of the pick, including the tie rule (stable sort: set order decides) *)
Theorem C17_pick_spec : forall et l x,
  pick_sorted et l = Some x <->
  exists l1 l2, l = l1 ++ x :: l2 /\ eligible et (snd x) = true /\
    (forall y, In y l1 -> eligible et (snd y) = true -> key_lt (snd x) (snd y)) /\
    (forall y, In y l2 -> eligible et (snd y) = true -> key_le (snd x) (snd y)).
Proof. exact pick_spec. Qed.
Print Assumptions C17_pick_spec.

Theorem C17_picked_is_eligible : forall et l x,
  pick_sorted et l = Some x -> In x l /\ eligible et (snd x) = true.
Proof. exact picked_is_eligible. Qed.
Print Assumptions C17_picked_is_eligible.

(* lower priority value first, then the smaller max(changed) *)
Theorem C17_picked_is_min : forall et l x, pick_sorted et l = Some x ->
  forall y, In y l -> eligible et (snd y) = true -> key_le (snd x) (snd y).
Proof. exact picked_is_min. Qed.
Print Assumptions C17_picked_is_min.

Theorem C17_none_iff_nothing_eligible : forall et l,
  pick_sorted et l = None <-> forall y, In y l -> eligible et (snd y) = false.
Proof. exact pick_none. Qed.
Print Assumptions C17_none_iff_nothing_eligible.

(* eligibility = a side with a truthy stamp <= now - age, or a negative priority: the ONLY exception *)
Theorem C17_eligible_iff : forall et e,
  eligible et e = true <-> aged et (chL e) \/ aged et (chR e) \/ pri e < 0.
Proof. exact eligible_iff. Qed.
Print Assumptions C17_eligible_iff.

Theorem C17_negative_priority_immediate : forall et e, pri e < 0 -> eligible et e = true.
Proof. intros et e H. apply eligible_iff. auto. Qed.
Print Assumptions C17_negative_priority_immediate.

(* nothing with priority >= 0 is picked unless one of its sides carries a stamp that has aged *)
Theorem C17_not_before_aged : forall et l x, pick_sorted et l = Some x -> 0 <= pri (snd x) ->
  exists s, aged et (ch s (snd x)).
Proof.
  intros et l x H Hp. apply picked_is_eligible in H as [_ H].
  destruct (eligible_side _ _ H) as [Hn|Hs]; [lra|exact Hs].
Qed.
Print Assumptions C17_not_before_aged.

(* full strength "the LAST notification of the object has aged" (every changed side aged): false; what holds is
   C17_not_before_aged (one aged side suffices) and C17_history_not_before_aged below *)
Definition not_before_last_notification_full : Prop :=
  forall et l x, pick_sorted et l = Some x -> 0 <= pri (snd x) ->
    forall s, truthy (ch s (snd x)) = true -> orz (ch s (snd x)) <= et.
Theorem C17_not_before_last_notification_refuted : ~ not_before_last_notification_full.
Proof.
  (* LOCAL changed at 1, REMOTE at 10, now - age = 5 *)
  intros H. specialize (H 5 [(0%nat, mk 0 (Some 1) (Some 10))] _ eq_refl (Qle_refl 0) SR eq_refl).
  simpl in H. lra.
Qed.
Print Assumptions C17_not_before_last_notification_refuted.

(* full strength "within a priority the entry with the OLDEST change first": false, the key is max(); what holds
   is C17_picked_is_min ("older" = smaller max(changedL, changedR)) *)
Definition oldest_change_first_full : Prop :=
  forall et l x y, pick_sorted et l = Some x -> In y l -> eligible et (snd y) = true ->
    pri (snd y) == pri (snd x) -> oldest (snd x) <= oldest (snd y).
Theorem C17_oldest_change_first_refuted : ~ oldest_change_first_full.
Proof.
  (* A = (10, -), B = (5, 20), both eligible at 30: A is picked although B carries the older change *)
  intros H.
  specialize (H 30 [(0%nat, mk 0 (Some 10) None); (1%nat, mk 0 (Some 5) (Some 20))] _ (1%nat, mk 0 (Some 5) (Some 20))
                eq_refl (or_intror (or_introl eq_refl)) eq_refl (Qeq_refl 0)).
  vm_compute in H. apply H. reflexivity.
Qed.
Print Assumptions C17_oldest_change_first_refuted.

(* ageing zero (`if age <= 0: earlier_than = max(earlier_than, _last_changed_time)` in SyncState.change),
   list level: every entry with a truthy stamp <= now is eligible and something is picked (of the rounding only
   exactness at the one point now - 0 is needed) *)
Theorem C17_age_zero_all_eligible : forall c now l,
  c_rnd c (now - 0) == now ->
  (forall x, In x l -> exists s q, ch s (snd x) = Some q /\ ~ q == 0 /\ q <= now) ->
  (forall x, In x l -> eligible (earlier_than c now 0) (snd x) = true) /\
  (l <> [] -> exists x, pick_sorted (earlier_than c now 0) l = Some x).
Proof.
  intros c now l Hr Hl.
  assert (Hall : forall x, In x l -> eligible (earlier_than c now 0) (snd x) = true).
  { intros x Hx. destruct (Hl x Hx) as (s & q & E & Hq & Hle). apply (aged_eligible _ s).
    exists q. unfold earlier_than, fsub. rewrite Hr. auto. }
  split; [exact Hall|]. destruct l as [|x r]; [congruence|]. intros _.
  apply (pick_some _ _ x); auto using in_eq.
Qed.
Print Assumptions C17_age_zero_all_eligible.

(* table level: with ageing <= 0 an entry is eligible as soon as one truthy stamp is <= the last change stamp
   (or <= now - age), whatever the clock reads, and then change() does return an entry *)
Theorem C17_age_zero_eligible : forall c now age s e, age <= 0 ->
  (exists sd q, ch sd e = Some q /\ ~ q == 0 /\ (q <= last s \/ q <= earlier_than c now age)) ->
  eligible (threshold c now age (last s)) e = true.
Proof. exact age_zero_eligible. Qed.
Print Assumptions C17_age_zero_eligible.

Theorem C17_age_zero_change_some : forall c now age order s j e, age <= 0 ->
  order_ok order s = true -> nth_error (ents s) j = Some e -> inset e = true ->
  (exists sd q, ch sd e = Some q /\ ~ q == 0 /\ (q <= last s \/ q <= earlier_than c now age)) ->
  exists i, change c now age order s = Ok (Some i).
Proof.
  intros c now age order s j e Hage Hok En Hi Hst. pose proof (age_zero_eligible c now age s e Hage Hst) as He.
  destruct (change c now age order s) as [[i|]|] eqn:C; [eauto| |rewrite (change_ok _ _ _ _ _ Hok) in C; discriminate].
  rewrite (change_none _ _ _ _ _ C j e En Hi) in He. discriminate.
Qed.
Print Assumptions C17_age_zero_change_some.

(* history level: a stamp written by mark_changed (= the value _last_changed_time took) stays <= the last
   change stamp for ever, so until it is punted or overwritten its entry is eligible at ageing <= 0 for EVERY
   clock reading: same tick as other notifications, clock gone backwards.  ASSUMED here: the entry still carries
   the stamp mark_changed gave it ([ch sd e2 = Some (last s1)]; that mark_changed gives it is mark_changed_stamp).
   The hypotheses on mark_changed and on position i are not used: SchedProofs.age_zero_stamp_eligible is this
   statement without them *)
Theorem C17_age_zero_marked_eligible : forall c sd t i s0 s1 ops s2 now age e2, bump_ok c -> age <= 0 ->
  mark_changed c sd t i s0 = Ok s1 -> steps c ops s1 = Ok s2 ->
  nth_error (ents s2) i = Some e2 -> ch sd e2 = Some (last s1) -> ~ last s1 == 0 ->
  eligible (threshold c now age (last s2)) e2 = true.
Proof.
  intros c sd t i s0 s1 ops s2 now age e2 Hb Hage _ Hs _. exact (age_zero_stamp_eligible c s1 ops s2 sd e2 now age Hb Hage Hs).
Qed.
Print Assumptions C17_age_zero_marked_eligible.

(* the same-tick history (corpus/C17/age_zero_same_tick.json): the pending second change is picked by
   [change]; [change_v0] (no age <= 0 adjustment: threshold = now - age) returns None *)
Theorem C17_same_tick_second_change_old_refuted_new_picked :
  exists s, steps (cfg_exact (1 # 4) (1 # 4)) same_tick_history {| ents := []; last := 1 |} = Ok s /\
    member s 1 = true /\
    change_v0 (cfg_exact (1 # 4) (1 # 4)) 5 0 [1%nat] s = Ok None /\
    change (cfg_exact (1 # 4) (1 # 4)) 5 0 [1%nat] s = Ok (Some 1%nat).
Proof. eexists. split; [vm_compute; reflexivity|]. split; [|split]; vm_compute; reflexivity. Qed.
Print Assumptions C17_same_tick_second_change_old_refuted_new_picked.

(* what stays false BY DESIGN: "every pending change" without the stamp bound -- a punted entry's stamps are
   shifted punt_secs ahead of clock and last change stamp (that is the bounded deferral of
   C17_punt_bounded_delay); witness: create, notify at 5, punt, change(0) at 5; what holds is
   C17_age_zero_eligible / C17_age_zero_marked_eligible *)
Definition age_zero_every_pending_change_eligible_full : Prop :=
  forall c l0 ops s now order, cfg_ok c -> exact c ->
    steps c ops {| ents := []; last := l0 |} = Ok s -> order_ok order s = true ->
    forall j e, nth_error (ents s) j = Some e -> inset e = true ->
      (exists sd, truthy (ch sd e) = true) ->
      eligible (threshold c now 0 (last s)) e = true.
Theorem C17_age_zero_every_pending_change_eligible_refuted : ~ age_zero_every_pending_change_eligible_full.
Proof.
  intros H.
  assert (Hc : cfg_ok (cfg_exact (1 # 4) (1 # 4))) by (apply cfg_ok_exact; discriminate).
  specialize (H _ 1 [ONew; OSetOid 0 SL; OMark 0 SL 5; OPunt 0] _ 5 [0%nat] Hc (exact_cfg_exact _ _) eq_refl eq_refl
                0%nat _ eq_refl eq_refl (ex_intro _ SL eq_refl)).
  vm_compute in H. discriminate.
Qed.
Print Assumptions C17_age_zero_every_pending_change_eligible_refuted.

(* any two notifications of a history get strictly increasing stamps, each >= its clock reading,
   whatever the clock returns (equal readings, readings going backwards) *)
Theorem C17_change_times_strictly_increase : forall c ops i sd t j sd' t' s0 s1 s2 s3, bump_ok c ->
  mark_changed c sd t i s0 = Ok s1 -> steps c ops s1 = Ok s2 -> mark_changed c sd' t' j s2 = Ok s3 ->
  exists e1 e2 m1 m2,
    nth_error (ents s1) i = Some e1 /\ ch sd e1 = Some m1 /\
    nth_error (ents s3) j = Some e2 /\ ch sd' e2 = Some m2 /\
    m1 < m2 /\ t <= m1 /\ t' <= m2.
Proof. exact change_times_strictly_increase. Qed.
Print Assumptions C17_change_times_strictly_increase.

Example bump_ok_ideal : bump_ok (cfg_exact (1 # 4) (1 # 2)).
Proof. exact (bump_ok_exact (1 # 4) (1 # 2)). Qed.

(* for IEEE doubles the hypothesis fails at clock reading 2^44 (last + 0.001 rounds back to last) *)
Theorem C17_strictly_increasing_float_refuted : ~ bump_ok (cfg_float 0 0).
Proof. intros H. specialize (H (inject_Z (2 ^ 44))). vm_compute in H. discriminate. Qed.
Print Assumptions C17_strictly_increasing_float_refuted.

Theorem C17_punt_bounded_delay : forall c k e s now age, exact c -> 0 <= c_pL c -> 0 <= c_pR c ->
  healthy e -> 0 <= pri e -> truthy (ch s e) = true ->
  orz (ch s e) + inject_Z (Z.of_nat k) * c_punt c s + age <= now ->
  exists e', punts c k e = Ok e' /\ pri e' == pri e + inject_Z (Z.of_nat k) /\
    orz (ch s e') == orz (ch s e) + inject_Z (Z.of_nat k) * c_punt c s /\
    eligible (earlier_than c now age) e' = true.
Proof. exact punt_bounded_delay. Qed.
Print Assumptions C17_punt_bounded_delay.

(* an entry punted k times never goes before an eligible entry whose priority value is below p0 + k (only
   [exact c] and the punts matter: SchedProofs.punted_behind is this statement without the other hypotheses) *)
Theorem C17_no_starvation : forall c k e e' et l i y, exact c -> 0 <= c_pL c -> 0 <= c_pR c ->
  healthy e -> 0 <= pri e -> punts c k e = Ok e' ->
  In (i, e') l -> In y l -> eligible et (snd y) = true ->
  pri (snd y) < pri e + inject_Z (Z.of_nat k) ->
  pick_sorted et l <> Some (i, e').
Proof. exact no_starvation. Qed.
Print Assumptions C17_no_starvation.

Theorem C17_smaller_priority_first : forall et l x y, pick_sorted et l = Some x ->
  In y l -> eligible et (snd y) = true -> pri (snd y) < pri (snd x) -> False.
Proof. exact smaller_priority_first. Qed.
Print Assumptions C17_smaller_priority_first.

(* the converse of C17_picked_is_min: it IS picked once it is eligible and nothing eligible has a key <= its own *)
Theorem C17_picked_when_smallest : forall et l x, In x l -> eligible et (snd x) = true ->
  (forall y, In y l -> y <> x -> eligible et (snd y) = true -> key_lt (snd x) (snd y)) ->
  NoDup l -> pick_sorted et l = Some x.
Proof. exact picked_when_smallest. Qed.
Print Assumptions C17_picked_when_smallest.

(* a punt that leaves the priority <= 0 does not delay: stamps untouched *)
Theorem C17_punt_nonpositive_no_delay : forall c e, exact c -> pri e + 1 <= 0 ->
  punt c e = Ok (with_pri (pri e + 1) e).
Proof.
  intros c e Hx Hle. rewrite (punt_exact c e Hx), (proj2 (qltb_false 0 (pri e + 1))) by lra. reflexivity.
Qed.
Print Assumptions C17_punt_nonpositive_no_delay.

Example healthy_example : healthy (mk 0 (Some 10) None) /\ exact (cfg_exact (1 # 4) (1 # 2)).
Proof. split; [intros [] H; simpl in *; [split; [reflexivity|reflexivity]|discriminate]|exact (exact_cfg_exact _ _)]. Qed.

(* change() on the table: the pick is a member, eligible, minimal among ALL eligible members, for every
   iteration order of the set *)
Theorem C17_change_min : forall c now age order s i, change c now age order s = Ok (Some i) ->
  exists e, nth_error (ents s) i = Some e /\ inset e = true /\
    eligible (threshold c now age (last s)) e = true /\
    forall j e', nth_error (ents s) j = Some e' -> inset e' = true ->
      eligible (threshold c now age (last s)) e' = true -> key_le e e'.
Proof. exact change_min. Qed.
Print Assumptions C17_change_min.

Theorem C17_change_none : forall c now age order s, change c now age order s = Ok None ->
  forall j e', nth_error (ents s) j = Some e' -> inset e' = true ->
    eligible (threshold c now age (last s)) e' = false.
Proof. exact change_none. Qed.
Print Assumptions C17_change_none.

(* After ANY history of the operations of SchedModel.op: a pick with priority >= 0 has a side whose stamp has aged and whose
   originating notification (ghost nt) is >= the ageing interval old.  Exceptions, exactly: negative priority, and sides
   whose stamp was last written by set_aged or a raw assignment (nt = None).  set_force_sync is NOT an
   exception (it re-stamps with the current clock). *)
Theorem C17_history_not_before_aged : forall c l0 ops s now age order i, cfg_ok c ->
  steps c ops {| ents := []; last := l0 |} = Ok s ->
  change c now age order s = Ok (Some i) ->
  exists e, nth_error (ents s) i = Some e /\ inset e = true /\
    (pri e < 0 \/
     exists sd, aged (threshold c now age (last s)) (ch sd e) /\
                forall t, nt sd e = Some t -> t <= threshold c now age (last s)).
Proof. intros c l0 ops s now age order i Hc. apply history_from; [exact Hc|constructor]. Qed.
Print Assumptions C17_history_not_before_aged.

(* a positive ageing interval is measured on the clock itself (threshold = now - age): after ANY history a pick
   with priority >= 0 has a side whose stamp AND originating notification are at least `age` old on the clock,
   even when change stamps run ahead of the clock (several notifications in one tick, clock set back) *)
Theorem C17_history_not_before_aged_clock : forall c l0 ops s now age order i, cfg_ok c -> 0 < age ->
  steps c ops {| ents := []; last := l0 |} = Ok s ->
  change c now age order s = Ok (Some i) ->
  exists e, nth_error (ents s) i = Some e /\ inset e = true /\
    (pri e < 0 \/
     exists sd, aged (earlier_than c now age) (ch sd e) /\
                forall t, nt sd e = Some t -> t <= earlier_than c now age).
Proof.
  intros c l0 ops s now age order i Hc Ha Hs Hch. rewrite <- (threshold_pos c now age (last s) Ha).
  exact (history_from c {| ents := []; last := l0 |} ops s now age order i Hc (Forall_nil _) Hs Hch).
Qed.
Print Assumptions C17_history_not_before_aged_clock.

Theorem C17_threshold_positive_age_is_clock : forall c now age lst, 0 < age ->
  threshold c now age lst = earlier_than c now age.
Proof. exact threshold_pos. Qed.
Print Assumptions C17_threshold_positive_age_is_clock.

Example ahead_of_clock :
  exists s, steps (cfg_exact (1 # 4) (1 # 4)) ahead_history {| ents := []; last := 1 |} = Ok s /\
    last s = 5 + (1 # 1000) /\
    change (cfg_exact (1 # 4) (1 # 4)) 5 (1 # 1000) [0%nat; 1%nat] s = Ok None /\
    change (cfg_exact (1 # 4) (1 # 4)) 5 0 [0%nat; 1%nat] s = Ok (Some 0%nat).
Proof. eexists. split; [vm_compute; reflexivity|]. split; [|split]; vm_compute; reflexivity. Qed.

Example cfg_ok_ideal : cfg_ok (cfg_exact (1 # 4) (1 # 2)).
Proof. apply cfg_ok_exact; discriminate. Qed.
Example history_example :
  exists s, steps (cfg_exact (1 # 4) (1 # 2)) demo_history {| ents := []; last := 1 |} = Ok s /\
    change (cfg_exact (1 # 4) (1 # 2)) 13 2 [0%nat; 1%nat] s = Ok (Some 1%nat) /\
    change (cfg_exact (1 # 4) (1 # 2)) 13 3 [1%nat; 0%nat] s = Ok (Some 1%nat).
Proof. eexists. split; [vm_compute; reflexivity|]. split; vm_compute; reflexivity. Qed.

(* the formulas regenerated from the CURRENT source are the model's (the other tie runs the extracted model against
   a real SyncState: harness/checks/c17.py) *)
Theorem C17_gen_eligible_is_model : forall et e, gen_eligible et e = eligible et e.
Proof. exact gen_eligible_eq. Qed.
Print Assumptions C17_gen_eligible_is_model.

Theorem C17_gen_sort_key_is_model : forall a b, gen_key_ltb a b = key_ltb a b.
Proof. exact gen_key_ltb_eq. Qed.
Print Assumptions C17_gen_sort_key_is_model.

Theorem C17_gen_threshold_is_model : forall et age last_changed,
  gen_threshold_adj et age last_changed = threshold_adj et age last_changed.
Proof. exact gen_threshold_adj_eq. Qed.
Print Assumptions C17_gen_threshold_is_model.
