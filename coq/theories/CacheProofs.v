(* CacheProofs.v — the definitions the later files and the statements of C19 rest on ([prefixb], [view], [cut],
   [local_ok] with its instances [knodup], [files_leaf], [names_ok_at]) and the lemmas about the dict and tree
   primitives of CacheModel. *)
From Coq Require Import NArith List Bool.
From CS Require Import Sx Str ListFacts CacheModel.
Import ListNotations.

Lemma aget_aset {T} k k' (v : T) l : aget k' (aset k v l) = if N.eqb k' k then Some v else aget k' l.
Proof.
  induction l as [|[k2 v2] l IH]; simpl; [reflexivity|].
  destruct (N.eqb_spec k k2) as [->|Hk]; simpl.
  - destruct (N.eqb k' k2); reflexivity.
  - rewrite IH. destruct (N.eqb_spec k' k2) as [->|]; [|reflexivity].
    destruct (N.eqb_spec k2 k); congruence.
Qed.

Lemma aget_adel {T} k k' (l : list (N * T)) : aget k' (adel k l) = if N.eqb k' k then None else aget k' l.
Proof.
  unfold adel. induction l as [|[k2 v2] l IH]; simpl; [destruct (N.eqb k' k); reflexivity|].
  destruct (N.eqb_spec k k2) as [->|Hk]; simpl; rewrite IH.
  - destruct (N.eqb k' k2); reflexivity.
  - destruct (N.eqb_spec k' k2) as [->|]; [|reflexivity].
    destruct (N.eqb_spec k2 k); congruence.
Qed.

Lemma aget_app {T} k (l1 l2 : list (N * T)) :
  aget k (l1 ++ l2) = match aget k l1 with Some v => Some v | None => aget k l2 end.
Proof.
  induction l1 as [|[k' v'] l1 IH]; simpl; [reflexivity|].
  destruct (N.eqb k k'); [reflexivity|exact IH].
Qed.

Lemma aget_in {T} k (v : T) l : aget k l = Some v -> In (k, v) l.
Proof.
  induction l as [|[k' v'] l IH]; simpl; [discriminate|].
  destruct (N.eqb_spec k k') as [->|Hk]; intros H.
  - inversion H; subst. left. reflexivity.
  - right. apply IH. exact H.
Qed.

Lemma in_aget {T} k (v : T) l : In (k, v) l -> exists v', aget k l = Some v'.
Proof.
  induction l as [|[k' v'] l IH]; simpl; [tauto|].
  intros [H|H].
  - inversion H; subst. rewrite N.eqb_refl. eauto.
  - destruct (N.eqb k k'); [eauto|apply IH; exact H].
Qed.

Lemma aget_none_keys {T} k (l : list (N * T)) : aget k l = None -> ~ In k (map fst l).
Proof.
  intros E H. apply in_map_iff in H as [[k0 v] [<- H]]. apply in_aget in H as [v' H]. simpl in E. congruence.
Qed.

Lemma aget_nodup {T} k (v : T) l : NoDup (map fst l) -> In (k, v) l -> aget k l = Some v.
Proof.
  induction l as [|[k' v'] l IH]; simpl; [tauto|].
  intros Hnd [H|H].
  - inversion H; subst. rewrite N.eqb_refl. reflexivity.
  - inversion Hnd as [|? ? Hni Hnd']; subst.
    destruct (N.eqb_spec k k') as [->|Hk]; [|apply IH; assumption].
    exfalso. apply Hni. apply (in_map fst _ _ H).
Qed.

Lemma keys_aset {T} k (v : T) l :
  map fst (aset k v l) = match aget k l with Some _ => map fst l | None => map fst l ++ [k] end.
Proof.
  induction l as [|[k' v'] l IH]; simpl; [reflexivity|].
  destruct (N.eqb_spec k k') as [->|]; simpl; [reflexivity|]. rewrite IH. destruct (aget k l); reflexivity.
Qed.

Lemma aset_none {T} k (v : T) l : aget k l = None -> aset k v l = l ++ [(k, v)].
Proof.
  induction l as [|[k' v'] l IH]; simpl; [reflexivity|].
  destruct (N.eqb k k'); [discriminate|]. intros H. rewrite IH by exact H. reflexivity.
Qed.

Lemma aset_same {T} k (v : T) l : aget k l = Some v -> aset k v l = l.
Proof.
  induction l as [|[k' v'] l IH]; simpl; [discriminate|].
  destruct (N.eqb_spec k k') as [->|Hne]; intros H; [inversion H; reflexivity|]. rewrite IH; auto.
Qed.

Lemma keys_adel {T} k (l : list (N * T)) :
  map fst (adel k l) = filter (fun x => negb (N.eqb k x)) (map fst l).
Proof.
  unfold adel. induction l as [|[k' v'] l IH]; simpl; [reflexivity|].
  destruct (N.eqb k k'); simpl; [exact IH|]. rewrite IH. reflexivity.
Qed.

Lemma forallb_aset {T} (P : N * T -> bool) k (v : T) l :
  forallb P l = true -> P (k, v) = true -> forallb P (aset k v l) = true.
Proof.
  induction l as [|[k' v'] l IH]; simpl; intros H Hv.
  - rewrite Hv. reflexivity.
  - apply andb_true_iff in H as [H1 H2].
    destruct (N.eqb k k'); simpl.
    + rewrite Hv, H2. reflexivity.
    + rewrite H1. simpl. apply IH; assumption.
Qed.

Lemma forallb_adel {T} (P : N * T -> bool) k (l : list (N * T)) :
  forallb P l = true -> forallb P (adel k l) = true.
Proof.
  rewrite !forallb_forall. intros H x Hx. apply filter_In in Hx as [Hx _]. auto.
Qed.

Lemma node_ind' (P : node -> Prop) :
  (forall d i m kids, Forall (fun nc => P (snd nc)) kids -> P (Node d i m kids)) -> forall t, P t.
Proof.
  intros H. fix IH 1. intros [d i m kids]. apply H.
  induction kids as [|[n c] r IHr]; constructor; [apply IH|exact IHr].
Qed.

Fixpoint prefixb (p q : path) : bool :=
  match p, q with
  | [], _ => true
  | a :: p', b :: q' => N.eqb a b && prefixb p' q'
  | _ :: _, [] => false
  end.

Lemma prefixb_app p r : prefixb p (p ++ r) = true.
Proof. exact (prefix_by_app N.eqb N.eqb_eq p r). Qed.

Lemma prefixb_true p q : prefixb p q = true -> exists r, q = p ++ r.
Proof. apply (prefix_by_iff N.eqb N.eqb_eq). Qed.

Lemma prefixb_refl p : prefixb p p = true.
Proof. exact (prefix_by_refl N.eqb N.eqb_eq p). Qed.

Lemma prefixb_trans p q r : prefixb p q = true -> prefixb q r = true -> prefixb p r = true.
Proof.
  intros H1 H2. apply prefixb_true in H1 as [x ->]. apply prefixb_true in H2 as [y ->].
  rewrite <- app_assoc. apply prefixb_app.
Qed.

Lemma prefixb_snoc p n m r : prefixb (p ++ [n]) (p ++ m :: r) = N.eqb n m.
Proof. induction p; simpl; [rewrite andb_true_r; reflexivity|]. rewrite N.eqb_refl. exact IHp. Qed.

Lemma prefixb_snoc_self p n : prefixb (p ++ [n]) p = false.
Proof. induction p; simpl; [reflexivity|]. rewrite N.eqb_refl. exact IHp. Qed.

(* [view t q]: what a lookup of q shows of the node found, not its children; two trees with the same views answer
   get_oid, get_type and get_metadata by path alike, listdir and walk up to the order of the children *)
Definition entry := (bool * option oid * meta)%type.
Definition info (t : node) : entry := (n_dir t, n_id t, n_md t).
Definition view (t : node) (q : path) : option entry := option_map info (lookup q t).

Lemma view_cons t n q : view t (n :: q) = match aget n (n_kids t) with Some c => view c q | None => None end.
Proof. unfold view. simpl. destruct (aget n (n_kids t)); reflexivity. Qed.

Lemma view_some t q e : view t q = Some e <-> exists nd, lookup q t = Some nd /\ info nd = e.
Proof.
  unfold view. destruct (lookup q t) as [nd|]; simpl; split; try discriminate.
  - intros H. exists nd. split; congruence.
  - intros [x [Hx <-]]. congruence.
  - intros [x [Hx _]]. discriminate.
Qed.

Lemma lookup_app p r t :
  lookup (p ++ r) t = match lookup p t with Some nd => lookup r nd | None => None end.
Proof.
  revert t. induction p as [|n p IH]; intros t; simpl; [reflexivity|].
  destruct (aget n (n_kids t)); [apply IH|reflexivity].
Qed.

Lemma lookup_app_same p q r t t' S :
  lookup p t = Some S -> lookup q t' = Some S -> lookup (q ++ r) t' = lookup (p ++ r) t.
Proof. intros A B. rewrite !lookup_app, A, B. reflexivity. Qed.

Lemma info_dir t t' : info t = info t' -> n_dir t = n_dir t'.
Proof. unfold info. congruence. Qed.

Lemma info_descend n f t : info (descend n f t) = info t.
Proof. destruct t as [d i m kids]. simpl. destruct (aget n kids); reflexivity. Qed.

Lemma aget_descend n f t m :
  aget m (n_kids (descend n f t)) = if N.eqb m n then option_map f (aget n (n_kids t)) else aget m (n_kids t).
Proof.
  destruct t as [d i md kids]. simpl. destruct (aget n kids) as [c|] eqn:E; simpl.
  - rewrite aget_aset. destruct (N.eqb m n); reflexivity.
  - destruct (N.eqb_spec m n) as [->|]; [exact E|reflexivity].
Qed.

Lemma lookup_modify_below p f t r :
  lookup (p ++ r) (modify p f t) = match lookup p t with Some nd => lookup r (f nd) | None => None end.
Proof.
  revert t. induction p as [|n p IH]; intros t; [reflexivity|].
  simpl. rewrite aget_descend, N.eqb_refl.
  destruct (aget n (n_kids t)); [apply IH|reflexivity].
Qed.

Lemma view_modify_other p f t q : prefixb p q = false -> view (modify p f t) q = view t q.
Proof.
  revert t q. induction p as [|n p IH]; intros t q H; [discriminate|].
  destruct q as [|m q]; simpl modify.
  - unfold view. simpl. rewrite info_descend. reflexivity.
  - rewrite !view_cons, aget_descend. simpl in H.
    destruct (N.eqb_spec n m) as [<-|Hne].
    + rewrite N.eqb_refl. destruct (aget n (n_kids t)); [apply IH; exact H|reflexivity].
    + destruct (N.eqb_spec m n); [congruence|reflexivity].
Qed.

Lemma descend_ext n f g t : (forall c, f c = g c) -> descend n f t = descend n g t.
Proof. intros H. destruct t as [d i m kids]. simpl. destruct (aget n kids); [rewrite H|]; reflexivity. Qed.

Lemma remove_snoc p n t : remove (p ++ [n]) t = modify p (del_kid n) t.
Proof.
  revert t. induction p as [|a p IH]; intros t; [reflexivity|].
  cbn [app modify]. replace (remove (a :: p ++ [n]) t) with (descend a (remove (p ++ [n])) t) by (destruct p; reflexivity).
  apply descend_ext, IH.
Qed.

Lemma view_remove rp t q : rp <> [] -> view (remove rp t) q = if prefixb rp q then None else view t q.
Proof.
  destruct rp as [|n p _] using rev_ind; [congruence|]. intros _. rewrite remove_snoc.
  destruct (prefixb p q) eqn:Ep.
  - apply prefixb_true in Ep as [r ->]. unfold view. rewrite lookup_modify_below, lookup_app.
    destruct (lookup p t) as [[d i m kids]|]; [|destruct (prefixb _ _); reflexivity].
    destruct r as [|x r]; [rewrite app_nil_r, prefixb_snoc_self; reflexivity|].
    rewrite prefixb_snoc. simpl. rewrite aget_adel, (N.eqb_sym x n). destruct (N.eqb n x); reflexivity.
  - rewrite view_modify_other by exact Ep. destruct (prefixb (p ++ [n]) q) eqn:E; [|reflexivity].
    rewrite (prefixb_trans p _ q (prefixb_app p [n]) E) in Ep. discriminate.
Qed.

Lemma lookup_clear_kids t q : lookup q (clear_kids t) = match q with [] => Some (clear_kids t) | _ => None end.
Proof. destruct t, q; reflexivity. Qed.

Lemma info_clear_kids t : info (clear_kids t) = info t.
Proof. destruct t; reflexivity. Qed.

(* what delete leaves of the tree; the root itself stays and only loses its children *)
Definition cut (rp : path) (t : node) : node := match rp with [] => clear_kids t | _ => remove rp t end.

Lemma delete_loc_tree c rp : delete_loc c (LTree rp) = (ROk, with_root c (cut rp (c_root c))).
Proof. destruct rp; reflexivity. Qed.

Lemma view_cut rp t q :
  view (cut rp t) q = match q with [] => view t [] | _ => if prefixb rp q then None else view t q end.
Proof.
  destruct rp as [|n rp].
  - unfold view. simpl cut. rewrite lookup_clear_kids. destruct q; [simpl; rewrite info_clear_kids|]; reflexivity.
  - change (cut (n :: rp) t) with (remove (n :: rp) t). rewrite view_remove by discriminate.
    destruct q; reflexivity.
Qed.

Lemma lookup_cut_below rp t q : prefixb rp q = true -> q <> [] -> lookup q (cut rp t) = None.
Proof.
  intros Hp Hq. pose proof (view_cut rp t q) as V. rewrite Hp in V. unfold view in V.
  destruct q; [congruence|]. destruct (lookup _ (cut rp t)); [discriminate|reflexivity].
Qed.

(* the node mkdir -p continues in under the name n *)
Definition mk_kid (n : name) (t : node) : node :=
  match aget n (n_kids t) with Some c => if n_dir c then c else fresh_dir | None => fresh_dir end.

Lemma mkdirp_cons n p t :
  mkdirp (n :: p) t =
  add_kid n (mkdirp p (mk_kid n t))
    (match aget n (n_kids t) with Some c => if n_dir c then t else del_kid n t | None => del_kid n t end).
Proof.
  destruct t as [d i m kids]. unfold mk_kid. simpl.
  destruct (aget n kids) as [[[|] i' m' k']|]; simpl; rewrite ?aset_none by (rewrite aget_adel, N.eqb_refl; reflexivity); reflexivity.
Qed.

Lemma aget_mkdirp n p t x :
  aget x (n_kids (mkdirp (n :: p) t)) = if N.eqb x n then Some (mkdirp p (mk_kid n t)) else aget x (n_kids t).
Proof.
  rewrite mkdirp_cons. destruct t as [d i m kids]. simpl.
  destruct (aget n kids) as [c|]; [destruct (n_dir c)|]; simpl; rewrite aget_aset, ?aget_adel;
    destruct (N.eqb x n); reflexivity.
Qed.

Lemma info_mkdirp p t : info (mkdirp p t) = info t.
Proof.
  destruct p as [|n p]; [reflexivity|]. destruct t as [d i m kids]. simpl.
  destruct (aget n kids) as [[[|] ? ? ?]|]; reflexivity.
Qed.

Lemma mk_kid_dir n t : n_dir (mk_kid n t) = true.
Proof. unfold mk_kid. destruct (aget n (n_kids t)) as [[[|] ? ? ?]|]; reflexivity. Qed.

Lemma mkdirp_dir p t : n_dir t = true -> exists nd, lookup p (mkdirp p t) = Some nd /\ n_dir nd = true.
Proof.
  revert t. induction p as [|n p IH]; intros t Hd; [exists t; auto|].
  cbn [lookup]. rewrite aget_mkdirp, N.eqb_refl. apply IH, mk_kid_dir.
Qed.

(* a local condition that survives the dict edits of the tree operations; [dirs] = the node types that may get
   children (directories must be among them: [mkdir -p] adds below the fresh ones it makes) *)
Record local_ok (P : bool -> list name -> bool) (dirs : bool -> Prop) (okname : name -> Prop) : Prop := {
  lk_del : forall d ks n, P d ks = true -> P d (filter (fun x => negb (N.eqb n x)) ks) = true;
  lk_app : forall d ks n, dirs d -> okname n -> ~ In n ks -> P d ks = true -> P d (ks ++ [n]) = true;
  lk_nil : forall d, P d [] = true;
  lk_dir : dirs true
}.
Arguments lk_del {P dirs okname} _ d ks n.
Arguments lk_app {P dirs okname} _ d ks n.
Arguments lk_nil {P dirs okname} _ d.
Arguments lk_dir {P dirs okname} _.

Section Structural.
  Variable P : bool -> list name -> bool.
  Variable dirs : bool -> Prop.
  Variable okname : name -> Prop.
  Hypothesis HP : local_ok P dirs okname.

  Lemma all_nodes_here t : all_nodes P t = true -> P (n_dir t) (map fst (n_kids t)) = true.
  Proof. destruct t. simpl. intros H. apply andb_true_iff in H. apply H. Qed.

  Lemma all_nodes_kid t n c : all_nodes P t = true -> aget n (n_kids t) = Some c -> all_nodes P c = true.
  Proof.
    destruct t as [d i m kids]. simpl. intros H Hg. apply andb_true_iff in H as [_ H].
    rewrite forallb_forall in H. apply (H (n, c)), aget_in, Hg.
  Qed.

  Lemma all_nodes_lookup p t nd : all_nodes P t = true -> lookup p t = Some nd -> all_nodes P nd = true.
  Proof.
    revert t. induction p as [|n p IH]; intros t H Hl; simpl in Hl.
    - inversion Hl; subst; exact H.
    - destruct (aget n (n_kids t)) as [c|] eqn:E; [|discriminate].
      apply (IH c); [eapply all_nodes_kid; eauto|exact Hl].
  Qed.

  Lemma all_nodes_descend n f t :
    all_nodes P t = true ->
    (forall c, aget n (n_kids t) = Some c -> all_nodes P c = true -> all_nodes P (f c) = true) ->
    all_nodes P (descend n f t) = true.
  Proof.
    intros H Hf. pose proof (all_nodes_kid t n) as Hk. destruct t as [d i m kids]. simpl in *.
    destruct (aget n kids) as [c|] eqn:E; [|exact H].
    simpl. apply andb_true_iff in H as [H1 H2].
    rewrite keys_aset, E, H1. apply forallb_aset; [exact H2|]. apply Hf; auto.
    apply Hk; [rewrite H1, H2|]; reflexivity.
  Qed.

  Lemma all_nodes_modify p f t :
    all_nodes P t = true ->
    (forall nd, lookup p t = Some nd -> all_nodes P nd = true -> all_nodes P (f nd) = true) ->
    all_nodes P (modify p f t) = true.
  Proof.
    revert t. induction p as [|n p IH]; intros t H Hf; simpl.
    - apply Hf; auto.
    - apply all_nodes_descend; [exact H|]. intros c Hc Hac. apply IH; [exact Hac|].
      intros nd Hl. apply Hf. simpl. rewrite Hc. exact Hl.
  Qed.

  Lemma all_nodes_edit p f t :
    (forall nd, n_kids (f nd) = n_kids nd) -> (forall nd, n_dir (f nd) = n_dir nd) ->
    all_nodes P t = true -> all_nodes P (modify p f t) = true.
  Proof.
    intros Hk Hd H. apply all_nodes_modify; [exact H|]. intros nd _ Hn.
    specialize (Hk nd). specialize (Hd nd). destruct (f nd), nd. simpl in *. now subst.
  Qed.

  Lemma all_nodes_del_kid n t : all_nodes P t = true -> all_nodes P (del_kid n t) = true.
  Proof.
    destruct t as [d i m kids]. simpl. intros H. apply andb_true_iff in H as [H1 H2].
    rewrite keys_adel, (lk_del HP _ _ _ H1). simpl. apply forallb_adel. exact H2.
  Qed.

  Lemma all_nodes_remove rp t : all_nodes P t = true -> all_nodes P (remove rp t) = true.
  Proof.
    destruct rp as [|n p _] using rev_ind; [auto|]. rewrite remove_snoc. intros H.
    apply all_nodes_modify; [exact H|]. intros nd _. apply all_nodes_del_kid.
  Qed.

  Lemma all_nodes_clear t : all_nodes P (clear_kids t) = true.
  Proof. destruct t as [d i m kids]. simpl. rewrite (lk_nil HP). reflexivity. Qed.

  Lemma all_nodes_cut rp t : all_nodes P t = true -> all_nodes P (cut rp t) = true.
  Proof. destruct rp; [intros _; apply all_nodes_clear|apply all_nodes_remove]. Qed.

  Lemma all_nodes_add_kid n c t :
    okname n -> dirs (n_dir t) -> all_nodes P t = true -> all_nodes P c = true ->
    all_nodes P (add_kid n c t) = true.
  Proof.
    destruct t as [d i m kids]. simpl. intros Hn Hd H Hc.
    apply andb_true_iff in H as [H1 H2].
    apply andb_true_iff. split; [|apply forallb_aset; assumption].
    rewrite keys_aset. destruct (aget n kids) eqn:E; [exact H1|].
    apply (lk_app HP); [exact Hd|exact Hn|apply aget_none_keys; exact E|exact H1].
  Qed.

  Lemma all_nodes_fresh : all_nodes P fresh_dir = true.
  Proof. simpl. rewrite (lk_nil HP). reflexivity. Qed.

  Lemma all_nodes_mkdirp p t :
    Forall okname p -> dirs (n_dir t) -> all_nodes P t = true -> all_nodes P (mkdirp p t) = true.
  Proof.
    revert t. induction p as [|n p IH]; intros t Hp Hd H; [exact H|].
    inversion Hp as [|? ? Hn Hp']; subst. rewrite mkdirp_cons. unfold mk_kid.
    assert (Hother : all_nodes P (add_kid n (mkdirp p fresh_dir) (del_kid n t)) = true).
    { apply all_nodes_add_kid; [exact Hn|destruct t; exact Hd|apply all_nodes_del_kid; exact H|].
      apply IH; [exact Hp'|apply (lk_dir HP)|apply all_nodes_fresh]. }
    destruct (aget n (n_kids t)) as [c|] eqn:E; [|exact Hother].
    destruct (n_dir c) eqn:Dc; [|exact Hother].
    apply all_nodes_add_kid; [exact Hn|exact Hd|exact H|].
    apply IH; [exact Hp'|rewrite Dc; apply (lk_dir HP)|apply (all_nodes_kid _ _ _ H E)].
  Qed.
End Structural.
Arguments all_nodes_here {P t}.
Arguments all_nodes_kid {P t n c}.
Arguments all_nodes_lookup {P p t nd}.
Arguments all_nodes_del_kid {P dirs okname} HP n t.
Arguments all_nodes_remove {P dirs okname} HP rp t.
Arguments all_nodes_clear {P dirs okname} HP t.
Arguments all_nodes_cut {P dirs okname} HP rp t.
Arguments all_nodes_add_kid {P dirs okname} HP n c t.
Arguments all_nodes_fresh {P dirs okname} HP.
Arguments all_nodes_mkdirp {P dirs okname} HP p t.

Fixpoint nodupb (l : list N) : bool :=
  match l with [] => true | x :: r => negb (mem x r) && nodupb r end.

Lemma nodupb_nodup l : nodupb l = true <-> NoDup l.
Proof. exact (nodupb_NoDup N.eqb N.eqb_eq l). Qed.

(* the three instances: names unique per folder; files have no children; names normalised and non-empty *)
Definition PK (_ : bool) (ks : list name) : bool := nodupb ks.
Definition PF (d : bool) (ks : list name) : bool := d || match ks with [] => true | _ => false end.
Definition knodup (t : node) : bool := all_nodes PK t.
Definition files_leaf (t : node) : bool := all_nodes PF t.
Definition names_ok_at (fold : N -> N) (_ : bool) (ks : list name) : bool := forallb (name_ok fold) ks.

Lemma PK_ok : local_ok PK (fun _ => True) (fun _ => True).
Proof.
  unfold PK. split; [intros _ ks n|intros _ ks n _ _ Hn|reflexivity|exact I];
    rewrite !nodupb_nodup.
  - apply NoDup_filter.
  - intros H. apply nodup_snoc; assumption.
Qed.

Lemma PF_ok : local_ok PF (fun d => d = true) (fun _ => True).
Proof.
  split; try reflexivity.
  - intros [] ks n; [reflexivity|]. destruct ks; [reflexivity|discriminate].
  - intros d ks n ->. reflexivity.
  - intros []; reflexivity.
Qed.

Lemma names_ok_at_ok fold : local_ok (names_ok_at fold) (fun _ => True) (fun n => name_ok fold n = true).
Proof.
  split; try reflexivity; unfold names_ok_at.
  - intros _ ks n. rewrite !forallb_forall. intros H x Hx. apply filter_In in Hx as [Hx _]. auto.
  - intros _ ks n _ Hn _ H. rewrite forallb_app, H. simpl. rewrite Hn. reflexivity.
Qed.

Lemma name_ok_iff fold k : name_ok fold k = true <-> fold k = k /\ k <> 0%N.
Proof. unfold name_ok. rewrite andb_true_iff, negb_true_iff, N.eqb_eq, N.eqb_neq. reflexivity. Qed.

Lemma path_names_ok fold t : forall rp nd,
  keys_ok fold t = true -> lookup rp t = Some nd -> forallb (name_ok fold) rp = true.
Proof.
  intros rp. revert t. induction rp as [|n rp IH]; intros t nd Ht Hl; [reflexivity|].
  simpl in Hl. destruct (aget n (n_kids t)) as [c|] eqn:E; [|discriminate].
  simpl. rewrite (IH c nd (all_nodes_kid Ht E) Hl), andb_true_r.
  apply all_nodes_here in Ht.
  rewrite forallb_forall in Ht. apply Ht, (in_map fst _ _ (aget_in _ _ _ E)).
Qed.

Lemma index_in t : knodup t = true ->
  forall o rp, In (o, rp) (index t) <-> exists nd, lookup rp t = Some nd /\ n_id nd = Some o.
Proof.
  induction t as [d i m kids IH] using node_ind'. intros HK o rp.
  unfold knodup in HK. simpl in HK. apply andb_true_iff in HK as [HK1 HK2].
  apply nodupb_nodup in HK1. rewrite forallb_forall in HK2. rewrite Forall_forall in IH.
  simpl index. rewrite in_app_iff, in_flat_map. split.
  - intros [Hin|[[n c] [Hnc Hin]]].
    + destruct i; [|destruct Hin]. destruct Hin as [[= <- <-]|[]]. eexists. split; reflexivity.
    + apply in_map_iff in Hin as [[o' rp'] [[= <- <-] Hin]].
      apply (IH _ Hnc (HK2 _ Hnc)) in Hin as [nd [Hl Hid]]. exists nd. split; [|exact Hid].
      simpl. rewrite (aget_nodup n c kids HK1 Hnc). exact Hl.
  - intros [nd [Hl Hid]]. destruct rp as [|n rp]; simpl in Hl.
    + left. injection Hl as <-. simpl in Hid. subst i. left. reflexivity.
    + right. destruct (aget n kids) as [c|] eqn:E; [|discriminate]. apply aget_in in E.
      exists (n, c). split; [exact E|]. apply in_map_iff. exists (o, rp). split; [reflexivity|].
      apply (IH _ E (HK2 _ E)). eauto.
Qed.
