(* PropC11.v — property theorems for C11 (sync-state index integrity) about StateModel.v; each Theorem is followed by
   Print Assumptions.  The clauses (i)-(iv) are defined in StateProofs.v.  The refutations on w_changeset, w_kids, w_changed,
   w_kids2 and the Examples are by evaluation; most other Theorems are `exact` a lemma of the State*Proofs files. *)
From Coq Require Import NArith List Bool.
From CS Require Import Sx Str PathModel PathLaws StateModel StateProofs StatePathProofs StateGuardModel StateFolderProofs StateUpdateProofs.
Import ListNotations.

(* the empty state satisfies clauses (i), (ii) and (iv); (iii) follows from (i), next theorem *)
Theorem C11_idx_init : IdxJ init_state /\ cs_exact init_state.
Proof. exact idx_init. Qed.
Print Assumptions C11_idx_init.

Theorem C11_found_implies_unique : forall s, idx_found s -> idx_unique s.
Proof. exact idx_found_unique. Qed.
Print Assumptions C11_found_implies_unique.

(* clause (iv) at full strength is FALSE of the faithful model: witness w_changeset
   (update; local id removed; remote id assigned) leaves entry 0 pending without (flag and id). *)
Theorem C11_changeset_exact_refuted : ~ changeset_exact_full.
Proof.
  intros H.
  destruct (run_ops E_id init_state w_changeset) as [s|] eqn:R; [|vm_compute in R; discriminate].
  specialize (H _ _ _ R). vm_compute in R. injection R as <-.
  specialize (H 0 _ eq_refl eq_refl). destruct H as [H _]. specialize (H eq_refl). vm_compute in H. discriminate.
Qed.
Print Assumptions C11_changeset_exact_refuted.

(* legacy = true (the code before /repo commits 029c8f6 and ccb41ee): a folder placed below its own previous path
   (witness w_kids), and the changed-flag repair with both sides flagged without ids (witness w_changed, next theorem),
   recurse without bound *)
Theorem C11_legacy_update_kids_terminates_refuted : ~ legacy_setters_terminate_full.
Proof. intros H. apply (H E_old (w_kids 20)); [reflexivity|]. vm_compute. reflexivity. Qed.
Print Assumptions C11_legacy_update_kids_terminates_refuted.

Theorem C11_legacy_changed_setter_terminates_refuted : ~ legacy_setters_terminate_full.
Proof. intros H. apply (H E_old w_changed); [reflexivity|]. vm_compute. reflexivity. Qed.
Print Assumptions C11_legacy_changed_setter_terminates_refuted.

(* legacy = false: the witnesses of the two theorems above run to completion ... *)
Theorem C11_fixed_witnesses_terminate :
  (exists s, run_ops E_id init_state (w_kids 1) = Ok s) /\ (exists s, run_ops E_id init_state w_changed = Ok s).
Proof. split; eexists; vm_compute; reflexivity. Qed.
Print Assumptions C11_fixed_witnesses_terminate.

(* ... the write of `changed` returns with one unit of fuel, for every state and value ... *)
Theorem C11_set_changed_total : forall E f fin e sd v s,
  legacy E = false -> e < length (ents s) -> exists s', exec E (S f) (CChg fin e sd v) s = Ok s'.
Proof. exact set_changed_total. Qed.
Print Assumptions C11_set_changed_total.

(* ... and _update_kids skips the renamed folder itself, whatever the recursive call would do ... *)
Theorem C11_kid_step_skips_self : forall E rec e sd pp p s en,
  legacy E = false -> get_ent s e = Ok en -> kid_step E rec e sd pp p e s = Ok s.
Proof.
  intros E rec e sd pp p s en Hl He. unfold kid_step. rewrite He. simpl.
  destruct (s_path (gs en sd)) as [sp|]; [|reflexivity].
  destruct sp as [|c sp]; [reflexivity|]. simpl.
  destruct (is_subpath (cvs E sd) pp (c :: sp) true) as [|[|c0 r0]]; try reflexivity.
  rewrite Hl, PeanoNat.Nat.eqb_refl. reflexivity.
Qed.
Print Assumptions C11_kid_step_skips_self.

(* ... but termination of the setters is false for legacy = false as well: a folder moved below one of its own child
   folders (three events, witness w_kids2) makes the two folders children of each other's move *)
Theorem C11_update_kids_terminates_refuted : ~ setters_terminate_full.
Proof. intros H. apply (H E_id (w_kids2 40)); [reflexivity|]. vm_compute. reflexivity. Qed.
Print Assumptions C11_update_kids_terminates_refuted.

(* What holds (clauses (i)-(iii); IdxJ = idx_found /\ idx_slots, idx_unique follows):
   for EVERY state satisfying the invariant (not only reachable ones), every provider
   environment E, every recorded set order on the tape. *)

(* ent[side].oid = v  (SideState.__setattr__ -> SyncState._change_oid, incl. ousting the previous
   holder through the intercepted setter and both iteration orders of set([old, new])) *)
Theorem C11_set_oid_preserves : forall E s e sd v s', IdxJ s -> set_oid E s e sd v = Ok s' -> IdxJ s'.
Proof. exact set_oid_pres. Qed.
Print Assumptions C11_set_oid_preserves.

(* ent[side].path = v  (SideState.__setattr__ -> SyncState._change_path) for an entry that is not a
   folder: re-filing under the new path, removal for None / '', the "ousted entry" branch (impossible
   under the invariant), priority reset.  No env_ok and no guard (legacy code included); folders: C11_set_path_folder_preserves. *)
Theorem C11_set_path_nonfolder_preserves : forall E s e sd v s' en,
  IdxJ s -> get_ent s e = Ok en -> s_otype (gs en sd) <> Dir -> set_path E s e sd v = Ok s' -> IdxJ s'.
Proof. exact set_path_file_pres. Qed.
Print Assumptions C11_set_path_nonfolder_preserves.

Theorem C11_set_changed_preserves : forall E s e sd v s', IdxJ s -> set_changed E s e sd v = Ok s' -> IdxJ s'.
Proof. exact set_changed_pres. Qed.
Print Assumptions C11_set_changed_preserves.

Theorem C11_set_priority_preserves : forall E s e v s', IdxJ s -> set_priority E s e v = Ok s' -> IdxJ s'.
Proof. exact set_priority_pres. Qed.
Print Assumptions C11_set_priority_preserves.

(* ent.ignored = v, ent.ignore(DISCARDED) *)
Theorem C11_set_ignored_preserves : forall s e v s', IdxJ s -> set_ignored s e v = Ok s' -> IdxJ s'.
Proof. exact set_ignored_pres. Qed.
Print Assumptions C11_set_ignored_preserves.

Theorem C11_mark_changed_preserves : forall E s e sd s', IdxJ s -> mark_changed E s e sd = Ok s' -> IdxJ s'.
Proof. exact mark_changed_pres. Qed.
Print Assumptions C11_mark_changed_preserves.

Theorem C11_finished_preserves : forall E s e s', IdxJ s -> finished E s e = Ok s' -> IdxJ s'.
Proof. exact finished_pres. Qed.
Print Assumptions C11_finished_preserves.

(* any sequence of covered operations (assignments of oid / changed / hash / sync_hash / sync_path /
   exists / otype / force_sync / ignored / priority, mark_changed, finished, discard), from any
   state satisfying the invariant, for every E (legacy included) and without guards.  The other operations (path assignment,
   update_entry, update, split, move-a-side) need env_ok and their guards: C11_idx_run; forget_oid: C11_forget_refuted. *)
Theorem C11_idx_partial : forall E ops s s',
  forallb (fun ot => op_covered (fst ot)) ops = true -> IdxJ s -> run_ops E s ops = Ok s' ->
  idx_found s' /\ idx_slots s' /\ idx_unique s'.
Proof.
  intros E ops s s' Hc HJ H. pose proof (idx_run_partial E ops s s' Hc HJ H) as [Hf Hs].
  exact (conj Hf (conj Hs (idx_found_unique s' Hf))).
Qed.
Print Assumptions C11_idx_partial.

(* non-vacuity: a covered sequence that runs to completion from a non-empty indexed state *)
Example C11_partial_nonvacuous :
  exists s s', run_ops E_id init_state [ (OUpdate false (Some File) (Some w_o1) (Some w_pbx) None (Some true) None, [TSwap false]) ] = Ok s /\
    run_ops E_id s [ (OSet 0 false (FOid (Some w_o2)), [TSwap false]); (OMark 0 true, []); (OFinished 0, []); (ODiscard 0, []) ] = Ok s' /\
    oids s' false = [(w_o2, 0)] /\ slot_get s' false w_pbx w_o2 = Some 0.
Proof. eexists. eexists. split; [vm_compute; reflexivity|]. split; [vm_compute; reflexivity|]. split; vm_compute; reflexivity. Qed.

(* Preservation for the operations the engine uses: every state satisfying the invariant, every
   argument, every provider environment E with env_ok E (the code as it is: legacy = false; both path
   conventions satisfy PathLaws.conv_ok: a case-insensitive one has a case fold with fold_ok), every tape.  Results other than [Ok] (the
   assertion failures of the code, RecursionError = out of fuel, a tape that does not fit) are excluded by the
   hypothesis "... = Ok s'".  The guards are boolean functions of the state BEFORE the operation. *)

(* the guard relation: b strictly below a, on case-folded path components (what is_subpath / join compare) *)
Theorem C11_below_decidable : forall cv a b, belowb cv a b = true <-> below cv a b.
Proof. exact belowb_spec. Qed.
Print Assumptions C11_below_decidable.

(* environments of the shape un_env builds satisfy env_ok as soon as they describe the current code (legacy = false) *)
Theorem C11_env_ok_wire : forall oipf csf pf inf, env_ok (mkEnv oipf (fun sd => mk_conv (csf sd)) pf inf false).
Proof. exact env_ok_wire. Qed.
Print Assumptions C11_env_ok_wire.

(* ent[side].path = v for EVERY entry, folders included (_change_path + _update_kids with the recursion through
   the children's own setters, the provider lookups of an oid_is_path side, sync_path rewriting), under the
   guard path_guardb: a folder is not placed strictly below its own previous path.  Without the guard the setters
   need not even terminate: C11_update_kids_terminates_refuted (open finding C11-F4). *)
Theorem C11_set_path_folder_preserves : forall E s e sd v s',
  env_ok E -> IdxJ s -> path_guardb E s e sd v = true -> set_path E s e sd v = Ok s' -> IdxJ s'.
Proof. exact set_path_pres. Qed.
Print Assumptions C11_set_path_folder_preserves.

(* SyncState.update_entry, all branches (replacement of a discarded entry by a fresh one on an oid_is_path side,
   id, type, path, hash, exists with the TRASHED -> LIKELY_TRASHED rule, mark_changed) *)
Theorem C11_update_entry_preserves : forall E s e sd oid path h ex changed ot s',
  env_ok E -> IdxJ s -> ue_guardb E s e sd oid path ot = true ->
  update_entry E s e sd oid path h ex changed ot = Ok s' -> IdxJ s'.
Proof. exact update_entry_pres. Qed.
Print Assumptions C11_update_entry_preserves.

(* SyncState.update: one provider event, all branches (lookup by id; prior_oid: re-use of a discarded trashed
   entry, rename detection, merge of two entries by moving the other side, stale path lookups with
   un-discarding; new entry; clock tick; update_entry).  upd_guardb checks, for each entry the event can land on,
   the guard of the path assignment, and the guard of the side move of the merge branch. *)
Theorem C11_update_preserves : forall E s sd ot oid path h ex prior s',
  env_ok E -> IdxJ s -> upd_guardb E s sd ot oid path prior = true ->
  update E s sd ot oid path h ex prior = Ok s' -> IdxJ s'.
Proof. exact update_pres. Qed.
Print Assumptions C11_update_preserves.

(* SyncState.split (fresh entry, side move, SideState.clear, the get_all / lookup_path assertions, mark_changed): no guard *)
Theorem C11_split_preserves : forall E s e s', env_ok E -> IdxJ s -> split E s e = Ok s' -> IdxJ s'.
Proof. exact split_pres. Qed.
Print Assumptions C11_split_preserves.

(* SyncEntry.__setitem__ (dst[side] = src[side]), both announcement orders (id then path / path then None).
   mv_guardb: if dst is a folder that already has a path on that side, the incoming path is not strictly below
   it and, when an id comes along, the side is not oid_is_path. *)
Theorem C11_setitem_preserves : forall E s dst src sd s',
  env_ok E -> IdxJ s -> mv_guardb E s dst src sd = true -> move_side E s dst src sd = Ok s' -> IdxJ s'.
Proof. exact move_side_pres. Qed.
Print Assumptions C11_setitem_preserves.

(* ... and the second half of that guard is needed: on an oid_is_path side _update_kids can hand the incoming id
   to a child of the destination folder, after which __setitem__ writes it back into the destination (finding
   C11-F5, witness replayed on the real SyncState: corpus/C11/w5_setitem_rekeyed_child.json) *)
Theorem C11_setitem_refuted : ~ setitem_preserves_full.
Proof. exact setitem_refuted. Qed.
Print Assumptions C11_setitem_refuted.

(* SyncState.forget_oid (no caller in the engine) removes the slots of an entry that keeps its id *)
Theorem C11_forget_refuted : ~ forget_preserves_full.
Proof. exact forget_refuted. Qed.
Print Assumptions C11_forget_refuted.

(* one operation of the whole modelled alphabet (events, all field assignments incl. path, ignored, priority,
   split, finished, mark_changed, move-a-side, update_entry, discard; forget_oid is the one exclusion) *)
Theorem C11_apply_op_preserves : forall E s o s',
  env_ok E -> IdxJ s -> op_guardb E s o = true -> apply_op E s o = Ok s' -> IdxJ s'.
Proof. exact apply_op_guarded_pres. Qed.
Print Assumptions C11_apply_op_preserves.

(* every state reached from the empty state satisfies clauses (i)-(iii), after EVERY operation of
   EVERY sequence over that alphabet in which each operation satisfies its guard in the state it is applied to
   (guardedb: fold over the list; the guard excludes the C11-F4 class, the C11-F5 class and forget_oid). *)
Theorem C11_idx_reachable : forall E ops s',
  env_ok E -> guardedb E init_state ops = true -> In (Ok s') (trace_ops E init_state ops) ->
  idx_found s' /\ idx_slots s' /\ idx_unique s'.
Proof.
  intros E ops s' HE Hg Hin. pose proof (idx_trace E ops init_state HE (proj1 idx_init) Hg s' Hin) as [Hf Hs].
  exact (conj Hf (conj Hs (idx_found_unique s' Hf))).
Qed.
Print Assumptions C11_idx_reachable.

(* the bits printed by the extracted guard model (coq/bin/stateguard, StateGuardModel.run) decide that hypothesis *)
Theorem C11_guard_trace_decides : forall E l s, guardedb E s l = forallb (N.eqb 1) (guard_trace E s l).
Proof.
  intros E. induction l as [|o l IH]; intros s; simpl; [reflexivity|].
  destruct (op_guardb E s (fst o)); simpl; [|reflexivity].
  destruct (step E s o); [apply IH|reflexivity].
Qed.
Print Assumptions C11_guard_trace_decides.

(* C11_idx_reachable from any state satisfying the invariant, for the final state of a run *)
Theorem C11_idx_run : forall E ops s s',
  env_ok E -> IdxJ s -> guardedb E s ops = true -> run_ops E s ops = Ok s' -> IdxJ s'.
Proof. exact idx_run. Qed.
Print Assumptions C11_idx_run.

Definition nv_o3 : str := [111;51]%N.
Definition nv_o4 : str := [111;52]%N.
Definition nv_r3 : str := [114;51]%N.
Definition nv_abf : str := [47;97;47;98;47;102]%N.
Definition nv_z : str := [47;122]%N.
Definition nv_zg : str := [47;122;47;103]%N.
Definition nv_zbf : str := [47;122;47;98;47;102]%N.
Definition nv_zbf2 : str := [47;122;47;98;47;102;50]%N.
(* three nested objects; the top folder is renamed (children and grandchild re-filed); an event with prior_oid
   merges two entries (the remote side moves); split; finished; move-a-side; discard.  Ops and tapes as recorded
   on the real SyncState (model and implementation agree on every step). *)
Definition nv_run : list (op * list titem) :=
  [ (OUpdate false (Some Dir) (Some w_o1) (Some w_pa) None (Some true) None, [TSwap false]);
    (OUpdate false (Some Dir) (Some w_o2) (Some w_pab) None (Some true) None, [TSwap false]);
    (OUpdate false (Some File) (Some nv_o3) (Some nv_abf) (Some 1%N) (Some true) None, [TSwap false]);
    (OUpdate false (Some Dir) (Some w_o1) (Some nv_z) None (Some true) None, [TOrder [0;1;2]; TOrder [0;1;2]]);
    (OSet 2 true (FOid (Some nv_r3)), [TSwap false]);
    (OUpdate false (Some File) (Some nv_o4) (Some nv_zg) (Some 2%N) (Some true) None, [TSwap false]);
    (OUpdate false (Some File) (Some nv_o3) (Some nv_zbf2) (Some 1%N) (Some true) (Some nv_o4),
       [TSwap true; TSwap false; TSwap false; TSwap true]);
    (OSplit 3, [TSwap true; TSwap false; TOrder [0;1;3;4]]);
    (OFinished 0, []);
    (OMove 1 0 false, [TSwap true; TSwap false; TOrder [1;3;4]]);
    (ODiscard 2, []) ].
Example C11_reachable_nonvacuous :
  guardedb E_id init_state nv_run = true /\
  exists s, run_ops E_id init_state nv_run = Ok s /\ length (ents s) = 5 /\
    oids s false = [(nv_o3, 4); (w_o1, 1)] /\ oids s true = [(nv_r3, 3)] /\ slot_get s false nv_z w_o1 = Some 1.
Proof. split; [vm_compute; reflexivity|]. eexists. split; [vm_compute; reflexivity|]. repeat split; vm_compute; reflexivity. Qed.

(* the folder rename on its own: after the first three events the guard holds for entry 0 going to /z, the call
   runs to completion, and child and grandchild are filed under the new paths *)
Example C11_set_path_folder_nonvacuous :
  exists s s', run_ops E_id init_state (firstn 3 nv_run) = Ok s /\
    path_guardb E_id s 0 false (Some nv_z) = true /\
    set_path E_id (st_tape s [TOrder [0;1;2]; TOrder [0;1;2]]) 0 false (Some nv_z) = Ok s' /\
    slot_get s' false nv_zbf nv_o3 = Some 2.
Proof. eexists. eexists. split; [vm_compute; reflexivity|]. split; [vm_compute; reflexivity|]. split; vm_compute; reflexivity. Qed.

(* the guard rejects exactly the step of the C11-F4 witness that places the folder below its own child *)
Example C11_guard_rejects_F4 : guardedb E_id init_state (w_kids2 1) = false /\ guardedb E_id init_state (firstn 2 (w_kids2 1)) = true.
Proof. split; vm_compute; reflexivity. Qed.
