(* CodecCommitProofs.v — C08: the dirty-set / storage_commit mechanism of CodecModel.v (set_nth is ListFacts.upd_nth: its
   lemmas are there).  The invariant [Inv] / [G] of the variant that clears storage_id when the row of a trash entry is
   deleted ([clr] = true) is kept by one _storage_update, by the commit loop and by every allowed operation of a history,
   and after a commit it gives [exact]: the store holds exactly the serialisations of the live entries, whatever the
   iteration order of the dirty set.  Then the statements of the property as Props of [clr] with the witness histories
   that refute them for [clr] = false, and the full-strength codec statements with their witnesses. *)
From Coq Require Import NArith ZArith List Bool Lia Permutation.
From CS Require Import Sx Str ListFacts CodecModel CodecProofs.
Import ListNotations.
Local Open Scope N_scope.
Local Arguments ser_entry : simpl never.
Local Arguments tuplify : simpl never.
Local Arguments is_trash : simpl never.

Lemma mem_nat_In : forall n l, mem_nat n l = true <-> In n l.
Proof.
  induction l as [|x r IH]; simpl; [split; [discriminate|tauto]|].
  rewrite orb_true_iff, IH, Nat.eqb_eq. tauto.
Qed.

Lemma add_dirty_In : forall n d m, In m (add_dirty n d) <-> m = n \/ In m d.
Proof.
  intros n d m. unfold add_dirty. destruct (mem_nat n d) eqn:E.
  - apply mem_nat_In in E. split; [tauto|]. intros [->|H]; assumption.
  - rewrite in_app_iff. simpl. split; [intros [H|[H|[]]]; auto | intros [H|H]; auto].
Qed.

Lemma ids_remove : forall i r, ids (remove_id i r) = filter (fun j => negb (N.eqb j i)) (ids r).
Proof.
  induction r as [|[j p] r IH]; simpl; [reflexivity|].
  destruct (N.eqb j i); simpl; now rewrite IH.
Qed.

Lemma in_ids_remove : forall i r j, In j (ids (remove_id i r)) <-> In j (ids r) /\ j <> i.
Proof.
  intros i r j. rewrite ids_remove, filter_In, negb_true_iff, N.eqb_neq. tauto.
Qed.

Lemma remove_absent : forall i r, ~ In i (ids r) -> remove_id i r = r.
Proof.
  induction r as [|[j p] r IH]; simpl; intros H; [reflexivity|].
  destruct (N.eqb_spec j i) as [->|Hne]; simpl; [tauto|]. f_equal. apply IH. tauto.
Qed.

Lemma has_id_In : forall i r, has_id i r = true <-> In i (ids r).
Proof.
  intros i r. unfold has_id. rewrite existsb_exists. unfold ids. rewrite in_map_iff. split.
  - intros [x [Hx He]]. apply N.eqb_eq in He. eauto.
  - intros [x [He Hx]]. exists x. split; [assumption|]. now apply N.eqb_eq.
Qed.

Lemma le_maxid : forall r i, In i (ids r) -> i <= maxid r.
Proof.
  unfold maxid. induction r as [|[j p] r IH]; simpl; intros i H; [tauto|].
  destruct H as [->|H]; [lia|]. specialize (IH _ H). lia.
Qed.

Lemma row_of_In : forall r i p, NoDup (ids r) -> In (i, p) r -> row_of i r = Some p.
Proof.
  induction r as [|[j x] r IH]; simpl; intros i p Hn H; [tauto|].
  inversion Hn as [|? ? Hnot Hn']; subst.
  destruct H as [H|H].
  - injection H as -> ->. now rewrite N.eqb_refl.
  - destruct (N.eqb_spec j i) as [->|Hne].
    + exfalso. apply Hnot. exact (in_map fst _ _ H).
    + now apply IH.
Qed.

Lemma row_of_absent : forall r i, ~ In i (ids r) -> row_of i r = None.
Proof.
  induction r as [|[j x] r IH]; simpl; intros i H; [reflexivity|].
  destruct (N.eqb_spec j i) as [->|Hne]; [tauto|]. apply IH. tauto.
Qed.

Lemma nodup_payload : forall r i p q, NoDup (ids r) -> In (i, p) r -> In (i, q) r -> p = q.
Proof.
  intros r i p q Hn Hp Hq. apply (row_of_In _ _ _ Hn) in Hp, Hq. congruence.
Qed.

Definition upd_rows (i : N) (p : mp) (r : list (N * mp)) : list (N * mp) :=
  map (fun row => if N.eqb (fst row) i then (i, p) else row) r.

Lemma ids_upd : forall i p r, ids (upd_rows i p r) = ids r.
Proof.
  induction r as [|[j x] r IH]; simpl; [reflexivity|].
  destruct (N.eqb_spec j i) as [->|Hne]; simpl; now rewrite IH.
Qed.

Lemma in_upd_self : forall i p r, In i (ids r) -> In (i, p) (upd_rows i p r).
Proof.
  induction r as [|[j x] r IH]; simpl; intros H; [tauto|].
  destruct (N.eqb_spec j i) as [->|Hne]; [now left|]. right. apply IH. destruct H; [congruence|assumption].
Qed.

Lemma in_upd_other : forall i p r j q, j <> i -> In (j, q) r -> In (j, q) (upd_rows i p r).
Proof.
  induction r as [|[k x] r IH]; simpl; intros j q Hne H; [tauto|].
  destruct H as [H|H].
  - injection H as -> ->. destruct (N.eqb_spec j i); [congruence|now left].
  - right. now apply IH.
Qed.

Definition clean (e : entry) (r : list (N * mp)) : Prop :=
  match e_sid e with
  | Some i => is_trash e = false /\ exists p, pack (ser_entry e) = Some p /\ In (i, p) r
  | None => is_trash e = true
  end.

Lemma clean_live e r i : e_sid e = Some i ->
  clean e r <-> is_trash e = false /\ exists p, pack (ser_entry e) = Some p /\ In (i, p) r.
Proof. intros H. unfold clean. rewrite H. reflexivity. Qed.

Lemma clean_noid e r : e_sid e = None -> clean e r <-> is_trash e = true.
Proof. intros H. unfold clean. rewrite H. reflexivity. Qed.

(* the coupling of entries and rows; P = the positions that may be unclean (in [G]: the dirty set, shrinking
   as the commit loop goes).  Row ids and the storage ids of the entries are in one-to-one correspondence. *)
Record Inv (P : nat -> Prop) (es : list entry) (st : store) : Prop := mkInv {
  I_nodup : NoDup (ids (rows st));
  I_row : forall n i, nth_error (map e_sid es) n = Some (Some i) -> In i (ids (rows st));
  I_inj : forall n m i, nth_error (map e_sid es) n = Some (Some i) ->
                        nth_error (map e_sid es) m = Some (Some i) -> n = m;
  I_own : forall i, In i (ids (rows st)) -> exists n, nth_error (map e_sid es) n = Some (Some i);
  I_clean : forall n e, nth_error es n = Some e -> ~ P n -> clean e (rows st);
  I_ctr : pol st = PMock -> forall i, In i (ids (rows st)) -> i < ctr st
}.

(* every entry can be serialised (64-bit integers): no commit raises ESer *)
Definition Ser (es : list entry) : Prop := forall e, In e es -> ints_ok (ser_entry e) = true.

Lemma Ser_pack es e : Ser es -> In e es -> pack (ser_entry e) = Some (tuplify (ser_entry e)).
Proof. intros HS He. apply pack_ok, HS, He. Qed.

(* Apart from the cleanness of the entries outside [P], the invariant reads the entries through the
   positions of their storage ids only. *)
Lemma Inv_sids : forall (P Q : nat -> Prop) es es' st,
  Inv P es st ->
  (forall n i, nth_error (map e_sid es') n = Some (Some i) <-> nth_error (map e_sid es) n = Some (Some i)) ->
  (forall n e, nth_error es' n = Some e -> ~ Q n -> clean e (rows st)) -> Inv Q es' st.
Proof.
  intros P Q es es' st [a b c d e f] Hs Hc. constructor; try assumption.
  - intros n i H. apply Hs in H. eauto.
  - intros n m i H H'. apply Hs in H, H'. eauto.
  - intros i Hi. destruct (d i Hi) as [n Hn]. exists n. apply Hs, Hn.
Qed.

Lemma Inv_weaken_in : forall (P Q : nat -> Prop) es st,
  (forall n e, nth_error es n = Some e -> P n -> Q n) -> Inv P es st -> Inv Q es st.
Proof.
  intros P Q es st H HI. apply (Inv_sids P Q es es st HI); [tauto|].
  intros n x Hn Hq. apply (I_clean _ _ _ HI n x Hn). intro Hp. apply Hq. eauto.
Qed.

Lemma Inv_weaken : forall (P Q : nat -> Prop) es st,
  (forall n, P n -> Q n) -> Inv P es st -> Inv Q es st.
Proof. intros P Q es st H. apply Inv_weaken_in. auto. Qed.

Lemma fresh_next : forall P es st, Inv P es st -> ~ In (next_id st) (ids (rows st)).
Proof.
  intros P es st HI Hin. unfold next_id in Hin. destruct (pol st) eqn:Ep.
  - apply le_maxid in Hin. lia.
  - pose proof (I_ctr _ _ _ HI Ep _ Hin). lia.
Qed.

(* Entry [n] goes from [e] to [e'] and the store from [st] to [st'] so that: the row ids follow the
   storage id of the entry (its old id leaves, its new one, the old or a fresh one, is there), the rows
   of the other entries stay, and [e'] is clean.  Then entry [n] may leave the set of exceptions. *)
Lemma Inv_set : forall P es st n e e' st'
  (HI : Inv P es st) (Hn : nth_error es n = Some e)
  (Hnodup : NoDup (ids (rows st')))
  (Hids : forall j, In j (ids (rows st')) <-> In j (ids (rows st)) /\ e_sid e <> Some j \/ e_sid e' = Some j)
  (Hnew : forall j, e_sid e' = Some j -> e_sid e = Some j \/ ~ In j (ids (rows st)))
  (Hkeep : forall j p, In (j, p) (rows st) -> e_sid e <> Some j -> In (j, p) (rows st'))
  (Hclean' : clean e' (rows st'))
  (Hctr' : pol st' = PMock -> forall j, In j (ids (rows st')) -> j < ctr st'),
  Inv (fun m => P m /\ m <> n) (set_nth n e' es) st'.
Proof.
  intros P es st n e e' st' [Hnd Hrow Hinj Hown Hclean Hctr] Hn Hnd' Hids Hnew Hkeep Hcl Hctr'.
  assert (Hsid : nth_error (map e_sid es) n = Some (e_sid e)) by (rewrite nth_error_map, Hn; reflexivity).
  assert (Hs : forall m, nth_error (map e_sid (set_nth n e' es)) m =
                         if Nat.eqb m n then Some (e_sid e') else nth_error (map e_sid es) m).
  { intros m. rewrite map_upd. apply (nth_upd_in _ _ Hsid). }
  (* no other entry has the id of entry n *)
  assert (Hother : forall m j, m <> n -> nth_error (map e_sid es) m = Some (Some j) -> e_sid e <> Some j).
  { intros m j Hne Hm E. apply Hne, (Hinj m n j); [exact Hm | rewrite Hsid, E; reflexivity]. }
  constructor.
  - exact Hnd'.
  - intros m j. rewrite Hs. destruct (Nat.eqb_spec m n) as [->|Hne]; intros Hm; apply Hids.
    + right. congruence.
    + left. split; [eapply Hrow, Hm | eapply Hother; eassumption].
  - assert (X : forall m j, m <> n -> e_sid e' = Some j -> nth_error (map e_sid es) m = Some (Some j) -> False).
    { intros m j Hne E Hm. destruct (Hnew j E) as [E'|Hf]; [exact (Hother m j Hne Hm E') | exact (Hf (Hrow m j Hm))]. }
    intros m m' j. rewrite !Hs.
    destruct (Nat.eqb_spec m n) as [->|Hne], (Nat.eqb_spec m' n) as [->|Hne']; intros Hm Hm';
      [reflexivity | destruct (X m' j) | destruct (X m j) | eapply Hinj; eassumption]; congruence.
  - intros j Hj. apply Hids in Hj as [[Hj Hne]|Hj].
    + destruct (Hown j Hj) as [m Hm]. exists m. rewrite Hs.
      destruct (Nat.eqb_spec m n) as [->|_]; [|exact Hm]. rewrite Hsid in Hm. congruence.
    + exists n. rewrite Hs, Nat.eqb_refl, Hj. reflexivity.
  - intros m x. rewrite (nth_upd_in _ _ Hn). destruct (Nat.eqb_spec m n) as [->|Hne]; intros Hm HP.
    + injection Hm as <-. exact Hcl.
    + assert (Hc : clean x (rows st)) by (apply (Hclean m x Hm); tauto).
      destruct (e_sid x) as [j|] eqn:Ex; [|exact (proj2 (clean_noid _ _ Ex) (proj1 (clean_noid _ _ Ex) Hc))].
      apply (clean_live _ _ _ Ex). destruct (proj1 (clean_live _ _ _ Ex) Hc) as [Ht [p [Hp Hin]]].
      split; [exact Ht|]. exists p. split; [exact Hp|].
      apply Hkeep; [exact Hin|]. apply (Hother m j Hne). rewrite nth_error_map, Hm. simpl. now rewrite Ex.
  - exact Hctr'.
Qed.

(* the fields of an entry without its storage id: what _storage_update never changes *)
Definition body (e : entry) : entry := set_sid e None.

(* one _storage_update in the variant that clears the id of a deleted trash row *)
Lemma upd_one_inv : forall P es st n e,
  Inv P es st -> Ser es -> nth_error es n = Some e ->
  exists e' st',
    upd_one true e st = (e', st', ENone) /\ body e' = body e /\
    Inv (fun m => P m /\ m <> n) (set_nth n e' es) st'.
Proof.
  intros P es st n e HI HS Hn.
  pose proof (Ser_pack es e HS (nth_error_In _ _ Hn)) as Hser.
  pose proof HI as [Hnd Hrow _ _ _ Hctr].
  assert (Hin : forall i, e_sid e = Some i -> In i (ids (rows st))).
  { intros i E. apply (Hrow n). rewrite nth_error_map, Hn, <- E. reflexivity. }
  unfold upd_one. rewrite Hser. destruct (e_sid e) as [i|] eqn:Esid; destruct (is_trash e) eqn:Etr.
  - (* delete the row of a trash entry, clear its id *)
    eexists _, _. refine (conj eq_refl (conj eq_refl _)).
    apply (Inv_set P es st n e _ _ HI Hn); cbn [st_delete rows pol ctr set_sid e_sid]; rewrite ?Esid.
    + (* Hnodup *) rewrite ids_remove. now apply NoDup_filter.
    + (* Hids: i, the old id, leaves; there is no new one *) intros j. rewrite in_ids_remove. intuition congruence.
    + (* Hnew *) discriminate.
    + (* Hkeep *) intros j p. unfold remove_id. rewrite filter_In, negb_true_iff, N.eqb_neq. cbn [fst]. intuition congruence.
    + (* Hclean': without id, and trash *) apply clean_noid; [reflexivity|exact Etr].
    + (* Hctr' *) intros Hp j Hj. apply in_ids_remove in Hj. now apply Hctr.
  - (* update the row of a live entry *)
    unfold st_update. rewrite (proj2 (has_id_In i (rows st)) (Hin i eq_refl)).
    eexists e, _. refine (conj eq_refl (conj eq_refl _)).
    fold (upd_rows i (tuplify (ser_entry e)) (rows st)).
    apply (Inv_set P es st n e _ _ HI Hn); cbn [rows pol ctr]; rewrite ?ids_upd, ?Esid.
    + (* Hnodup *) exact Hnd.
    + (* Hids: the ids are unchanged, and i, old and new id, is among them *)
      intros j. destruct (N.eq_dec i j) as [<-|Hne]; [pose proof (Hin i eq_refl)|]; intuition congruence.
    + (* Hnew *) auto.
    + (* Hkeep *) intros j p H1 H2. apply in_upd_other; [congruence | exact H1].
    + (* Hclean' *) apply (clean_live _ _ i Esid). split; [exact Etr|]. exists (tuplify (ser_entry e)).
      split; [exact Hser | apply in_upd_self, Hin; reflexivity].
    + (* Hctr' *) exact Hctr.
  - (* a trash entry that never had a row: nothing moves *)
    exists e, st. refine (conj eq_refl (conj eq_refl _)).
    apply (Inv_set P es st n e _ _ HI Hn); rewrite ?Esid.
    + (* Hnodup *) exact Hnd.
    + (* Hids: no id before, none after *) intros j. intuition congruence.
    + (* Hnew *) discriminate.
    + (* Hkeep *) auto.
    + (* Hclean' *) apply (clean_noid _ _ Esid). exact Etr.
    + (* Hctr' *) exact Hctr.
  - (* create the row of a new live entry: its id is fresh *)
    pose proof (fresh_next P es st HI) as Hfresh. set (k := next_id st) in *.
    unfold st_create. fold k. rewrite (remove_absent _ _ Hfresh).
    eexists (set_sid e (Some k)), _. refine (conj eq_refl (conj eq_refl _)).
    assert (Hids : ids (rows st ++ [(k, tuplify (ser_entry e))]) = ids (rows st) ++ [k]) by apply map_app.
    apply (Inv_set P es st n e _ _ HI Hn); cbn [rows pol ctr set_sid e_sid]; rewrite ?Hids, ?Esid.
    + (* Hnodup *) now apply nodup_snoc.
    + (* Hids: no old id; the new id k joins *) intros j. rewrite in_app_iff. simpl. intuition congruence.
    + (* Hnew: k is fresh *) intros j [= <-]. auto.
    + (* Hkeep *) intros j p H _. apply in_app_iff. now left.
    + (* Hclean' *) apply (clean_live _ _ k); [reflexivity|]. split; [exact Etr|]. exists (tuplify (ser_entry e)).
      split; [exact Hser | apply in_app_iff; right; now left].
    + (* Hctr' *) intros Hp j Hj. rewrite Hp. apply in_app_iff in Hj. destruct Hj as [Hj|[<-|[]]].
      * specialize (Hctr Hp _ Hj). lia.
      * unfold k, next_id. rewrite Hp. lia.
Qed.

Lemma body_ser : forall e e', body e' = body e -> ser_entry e' = ser_entry e.
Proof.
  intros e e' H. change (ser_entry (body e') = ser_entry (body e)). now rewrite H.
Qed.

Lemma body_trash : forall e e', body e' = body e -> is_trash e' = is_trash e.
Proof.
  intros e e' H. change (is_trash (body e') = is_trash (body e)). now rewrite H.
Qed.

Lemma Ser_set_body : forall es n e e', Ser es -> nth_error es n = Some e -> body e' = body e ->
  Ser (set_nth n e' es).
Proof.
  intros es n e e' HS Hn Hb x Hx. apply in_upd in Hx as [->|Hx]; [|apply HS, Hx].
  rewrite (body_ser _ _ Hb). apply HS, (nth_error_In _ _ Hn).
Qed.

Lemma Ser_set_nth : forall es n e s, Ser es -> nth_error es n = Some e -> Ser (set_nth n (set_sid e s) es).
Proof. intros es n e s HS Hn. now apply (Ser_set_body es n e). Qed.

Lemma commit_loop_inv : forall ord P es st,
  Inv P es st -> Ser es ->
  exists es' st', commit_loop true ord es st = (es', st', ENone) /\
    map body es' = map body es /\ Ser es' /\ Inv (fun m => P m /\ ~ In m ord) es' st'.
Proof.
  induction ord as [|n r IH]; intros P es st HI HS.
  - exists es, st. refine (conj eq_refl (conj eq_refl (conj HS _))).
    eapply Inv_weaken; [|exact HI]. simpl. tauto.
  - simpl. destruct (nth_error es n) as [e|] eqn:En.
    + destruct (upd_one_inv P es st n e HI HS En) as [e' [st' [Hu [Hb HI']]]].
      rewrite Hu.
      assert (HS' : Ser (set_nth n e' es)) by (eapply Ser_set_body; eauto).
      destruct (IH _ _ _ HI' HS') as [es2 [st2 [Hc [Hb2 [HS2 HI2]]]]].
      exists es2, st2. refine (conj Hc (conj _ (conj HS2 _))).
      * rewrite Hb2, map_upd, Hb. apply upd_same. now rewrite nth_error_map, En.
      * eapply Inv_weaken; [|exact HI2]. simpl. intros m [[Hp Hne] Hr].
        split; [assumption|]. intros [->|H]; tauto.
    + destruct (IH _ _ _ HI HS) as [es2 [st2 [Hc [Hb2 [HS2 HI2]]]]].
      exists es2, st2. refine (conj Hc (conj Hb2 (conj HS2 _))).
      eapply Inv_weaken_in; [|exact HI2]. simpl. intros m x Hm [Hp Hr].
      split; [assumption|]. intros [<-|H]; [|tauto].
      (* position n is beyond the end of the list, so m <> n *)
      assert (Hl : length (map body es2) = length (map body es)) by now rewrite Hb2.
      rewrite !map_length in Hl. apply nth_error_None in En.
      assert (n < length es2)%nat by (apply nth_error_Some; congruence). lia.
Qed.

(* the invariant of a SyncState between operations: every entry outside the dirty set is clean *)
Definition G (ps : pstate) : Prop :=
  Inv (fun m => In m (dirty ps)) (ents ps) (sto ps) /\ Ser (ents ps).

Definition inclb (a b : list nat) : bool := forallb (fun x => mem_nat x b) a.

Lemma inclb_incl : forall a b, inclb a b = true -> incl a b.
Proof.
  intros a b H x Hx. unfold inclb in H. rewrite forallb_forall in H. apply mem_nat_In. now apply H.
Qed.

(* what the theorems require of one operation: serialisable field values, no write that bypasses
   updated(), no restart, and a commit that iterates over (at least) the whole dirty set *)
Definition hop_okb (h : hop) (ps : pstate) : bool :=
  match h with
  | HNew e => ints_ok (ser_entry e)
  | HSet _ e => ints_ok (ser_entry e)
  | HSilent _ _ => false
  | HCommit ord => inclb (dirty ps) ord
  | HFmax _ => true
  | HLoad => false
  end.
Fixpoint hist_okb (clr : bool) (hs : list hop) (ps : pstate) : bool :=
  match hs with
  | [] => true
  | h :: r => hop_okb h ps && hist_okb clr r (fst (step clr h ps))
  end.

Lemma commit_good : forall ps ord, G ps -> incl (dirty ps) ord ->
  exists ps', commit true ord ps = (ps', ENone) /\ dirty ps' = [] /\
              map body (ents ps') = map body (ents ps) /\ G ps'.
Proof.
  intros ps ord [HI HS] Hinc.
  destruct (commit_loop_inv ord _ _ _ HI HS) as [es' [st' [Hc [Hb [HS' HI']]]]].
  unfold commit. rewrite Hc. eexists. split; [reflexivity|]. simpl.
  refine (conj eq_refl (conj Hb (conj _ HS'))). simpl.
  eapply Inv_weaken; [|exact HI']. simpl. intros n [Hd Hn]. apply Hn. now apply Hinc.
Qed.

Lemma G_init : forall pl, G (init pl).
Proof.
  intros pl. split.
  - constructor; simpl.
    + constructor.
    + intros [|n] i H; discriminate.
    + intros [|n] m i H; discriminate.
    + intros i [].
    + intros [|n] e H; discriminate.
    + intros _ i [].
  - intros e [].
Qed.

Lemma step_good : forall h ps, G ps -> hop_okb h ps = true ->
  exists ps', step true h ps = (ps', ENone) /\ G ps'.
Proof.
  intros h ps [HI HS] Hok. destruct h as [e|n e|n e|ord|k|]; cbn [hop_okb] in Hok; try discriminate; cbn [step].
  - (* HNew: an entry without id at the end, dirty *)
    eexists. split; [reflexivity|]. split; simpl.
    + apply (Inv_sids _ _ _ _ _ HI).
      * intros m i. rewrite map_app. split; intros H.
        -- apply nth_error_snoc_inv in H as [H|[_ H]]; [exact H | discriminate].
        -- rewrite nth_error_app1; [exact H | apply nth_error_Some; congruence].
      * intros m x Hx Hd. rewrite add_dirty_In in Hd. apply nth_error_snoc_inv in Hx as [Hx|[-> _]]; [|tauto].
        apply (I_clean _ _ _ HI m x Hx). tauto.
    + intros x Hx. apply in_app_iff in Hx as [Hx|[<-|[]]]; [apply HS, Hx | exact Hok].
  - (* HSet: same id, new fields, dirty *)
    destruct (nth_error (ents ps) n) as [old|] eqn:En; [|exists ps; split; [reflexivity | split; assumption]].
    eexists. split; [reflexivity|]. split; simpl.
    + apply (Inv_sids _ _ _ _ _ HI).
      * rewrite map_upd, upd_same; [tauto | now rewrite nth_error_map, En].
      * intros m x. rewrite (nth_upd_in _ _ En), add_dirty_In. destruct (Nat.eqb_spec m n); [tauto|].
        intros Hx Hd. apply (I_clean _ _ _ HI m x Hx). tauto.
    + intros x Hx. apply in_upd in Hx as [->|Hx]; [exact Hok | apply HS, Hx].
  - destruct (commit_good ps ord (conj HI HS) (inclb_incl _ _ Hok)) as [ps' [Hc [_ [_ HG]]]].
    exists ps'. split; assumption.
  - eexists. split; [reflexivity|]. destruct HI as [Hnd Hrow Hinj Hown Hclean Hctr].
    split; [constructor; simpl; auto|exact HS].
Qed.

Lemma exec_good : forall hs ps, G ps -> hist_okb true hs ps = true ->
  G (fst (exec true hs ps)) /\ Forall (fun e => e = ENone) (snd (exec true hs ps)).
Proof.
  induction hs as [|h r IH]; intros ps HG Hok; simpl.
  - split; [assumption|constructor].
  - simpl in Hok. apply andb_true_iff in Hok. destruct Hok as [Hh Hr].
    destruct (step_good h ps HG Hh) as [ps1 [Hs HG1]]. rewrite Hs in *. simpl in Hr.
    destruct (IH ps1 HG1 Hr) as [HG2 Herr].
    destruct (exec true r ps1) as [ps2 errs]. simpl in *. split; [assumption|].
    constructor; [reflexivity|assumption].
Qed.

(* "persisted = in memory" *)
Definition exact (ps : pstate) : Prop :=
  NoDup (ids (rows (sto ps))) /\
  (* no stale and no missing rows: the rows are exactly the serialisations of the live entries *)
  (forall i p, In (i, p) (rows (sto ps)) <->
     exists n e, nth_error (ents ps) n = Some e /\ is_trash e = false /\ e_sid e = Some i /\
                 pack (ser_entry e) = Some p) /\
  (* every live entry has a row id, and live entries do not share one *)
  (forall n e, nth_error (ents ps) n = Some e -> is_trash e = false -> e_sid e <> None) /\
  (forall n m e e' i, nth_error (ents ps) n = Some e -> nth_error (ents ps) m = Some e' ->
     e_sid e = Some i -> e_sid e' = Some i -> n = m).

Lemma exact_of_G : forall ps, G ps -> dirty ps = [] -> exact ps.
Proof.
  intros ps [[Hnd Hrow Hinj Hown Hclean Hctr] HS] Hd. rewrite Hd in Hclean.
  assert (Hc : forall n e, nth_error (ents ps) n = Some e -> clean e (rows (sto ps))).
  { intros n e Hn. apply (Hclean n e Hn). intros []. }
  split; [assumption|]. split; [|split].
  - intros i p. split.
    + intros Hin. destruct (Hown i (in_map fst _ _ Hin)) as [n Hn].
      rewrite nth_error_map in Hn. destruct (nth_error (ents ps) n) as [e|] eqn:En; [|discriminate].
      simpl in Hn. injection Hn as Hsid. destruct (proj1 (clean_live _ _ _ Hsid) (Hc n e En)) as [Ht [q [Hq Hin']]].
      exists n, e. repeat split; try assumption.
      rewrite Hq. f_equal. eapply nodup_payload; eauto.
    + intros [n [e [En [Ht [Hsid Hp]]]]]. destruct (proj1 (clean_live _ _ _ Hsid) (Hc n e En)) as [_ [q [Hq Hin']]].
      congruence.
  - intros n e En Ht Hsid. pose proof (proj1 (clean_noid _ _ Hsid) (Hc n e En)). congruence.
  - intros n m e e' i En Em Hs Hs'. apply (Hinj n m i); rewrite nth_error_map.
    + rewrite En. simpl. now rewrite Hs.
    + rewrite Em. simpl. now rewrite Hs'.
Qed.

Lemma exact_view : forall ps, Ser (ents ps) -> exact ps -> live_view ps = want ps /\ stale ps = [].
Proof.
  intros ps HS [Hnd [Hrows [Hsid Hinj]]]. split.
  - unfold live_view, want. apply map_ext_in. intros e He.
    destruct (is_trash e) eqn:Et; [reflexivity|].
    apply In_nth_error in He. destruct He as [n En].
    destruct (e_sid e) as [i|] eqn:Es; [|exfalso; eapply Hsid; eauto].
    pose proof (Ser_pack _ e HS (nth_error_In _ _ En)) as Hp.
    rewrite Hp. apply row_of_In; [assumption|]. apply Hrows. exists n, e. repeat split; assumption.
  - unfold stale. apply filter_nil. intros i Hi. apply negb_false_iff.
    unfold ids in Hi. apply in_map_iff in Hi. destruct Hi as [[j p] [Hj Hin]]. simpl in Hj. subst j.
    apply Hrows in Hin. destruct Hin as [n [e [En [Ht [Hs _]]]]].
    unfold owned_live. apply existsb_exists. exists e. split; [eapply nth_error_In; eauto|].
    rewrite Ht, Hs. simpl. apply N.eqb_refl.
Qed.

Lemma commit_exact : forall ps ord, G ps -> incl (dirty ps) ord ->
  snd (commit true ord ps) = ENone /\ exact (fst (commit true ord ps)).
Proof.
  intros ps ord HG Hinc. destruct (commit_good ps ord HG Hinc) as [ps' [Hc [Hd [_ HG']]]].
  rewrite Hc. split; [reflexivity | now apply exact_of_G].
Qed.

Lemma commit_never_raises : forall hs ps0,
  G ps0 -> hist_okb true hs ps0 = true -> Forall (fun e => e = ENone) (snd (exec true hs ps0)).
Proof. intros hs ps0 HG Hok. now destruct (exec_good hs ps0 HG Hok). Qed.

Definition snapshot (ps : pstate) : list (option mp) * list N := (live_view ps, stale ps).

Lemma want_body : forall ps ps', map body (ents ps') = map body (ents ps) -> want ps' = want ps.
Proof.
  intros ps ps' H. unfold want.
  rewrite <- (map_map body (fun b => if is_trash b then None else pack (ser_entry b))), H. apply map_map.
Qed.

(* order independence, as a statement about the variant [clr] *)
Definition commit_order_independent_full (clr : bool) : Prop :=
  forall pl hs ord1 ord2,
    hist_okb clr hs (init pl) = true ->
    Permutation ord1 ord2 ->
    incl (dirty (fst (exec clr hs (init pl)))) ord1 ->
    snapshot (fst (commit clr ord1 (fst (exec clr hs (init pl))))) =
    snapshot (fst (commit clr ord2 (fst (exec clr hs (init pl))))).

Definition commit_exact_full (clr : bool) : Prop :=
  forall pl hs ord,
    hist_okb clr hs (init pl) = true ->
    incl (dirty (fst (exec clr hs (init pl)))) ord ->
    snd (commit clr ord (fst (exec clr hs (init pl)))) = ENone /\
    exact (fst (commit clr ord (fst (exec clr hs (init pl))))).

(* what the snapshot shows after a commit is fixed by the fields of the entries before it, whatever the order *)
Lemma commit_snapshot : forall ps ord, G ps -> incl (dirty ps) ord ->
  snapshot (fst (commit true ord ps)) = (want ps, []).
Proof.
  intros ps ord HG Hinc. destruct (commit_good ps ord HG Hinc) as [p [Hc [Hd [Hb HG']]]].
  rewrite Hc. unfold snapshot. cbn [fst].
  destruct (exact_view p (proj2 HG') (exact_of_G p HG' Hd)) as [V S]. rewrite V, S, (want_body ps p Hb). reflexivity.
Qed.

Definition w_side (oid : mp) : side :=
  mkSide OFile (MInt 0%Z) MNil MNil MNil MNil MNil oid XUnknown MNil MNil MNil None false (MFloat 0).
Definition w_ent (o0 o1 : mp) : entry := mkEntry (w_side o0) (w_side o1) INone (MInt 0%Z) None.
Definition w_a : mp := MStr [97]. Definition w_b : mp := MStr [98]. Definition w_x : mp := MStr [120].
(* two one-sided entries a, b are stored; b loses its id to a (a rename a->b over b on a path-id
   provider): b is trash, its row 2 is deleted, it keeps storage_id 2; then a new entry x is created
   while b is marked dirty once more *)
Definition w_hist : list hop :=
  [ HNew (w_ent w_a MNil); HNew (w_ent w_b MNil); HCommit [0; 1]%nat;
    HSet 1%nat (w_ent MNil MNil); HSet 0%nat (w_ent w_b MNil); HCommit [1; 0]%nat;
    HNew (w_ent MNil w_x); HSet 1%nat (w_ent MNil MNil) ].
Definition w_good : list nat := [1; 2]%nat.      (* trash entry first: harmless *)
Definition w_bad : list nat := [2; 1]%nat.       (* new entry first: it gets rowid 2, then the trash entry deletes row 2 *)

Lemma w_hist_ok : forall ord, inclb [2; 1]%nat ord = true ->
  hist_okb false w_hist (init PSqlite) = true /\ incl (dirty (fst (exec false w_hist (init PSqlite)))) ord.
Proof. intros ord H. split; [vm_compute; reflexivity | apply inclb_incl; vm_compute; exact H]. Qed.

(* an entry is stored, then its fields are replaced by a write that bypasses updated(): nothing is dirty, the row is stale *)
Definition silent_hist : list hop :=
  [ HNew (w_ent w_a MNil); HCommit [0]%nat; HSilent 0%nat (w_ent w_b MNil) ].

Definition codec_roundtrip_full : Prop :=
  forall sid e e', roundtrip sid e = Some e' -> same_synced e e'.
Definition list_hash_entry : entry :=
  mkEntry (mkSide OFile (MInt 0%Z) (MList [MInt 1%Z]) MNil MNil MNil MNil (MStr [97]) XExists MNil MNil MNil None false (MFloat 0))
          (w_side MNil) INone (MInt 0%Z) None.
Definition intkey_entry : entry :=
  mkEntry (mkSide OFile (MInt 0%Z) (MMap [(MInt 1%Z, MInt 2%Z)]) MNil MNil MNil MNil (MStr [97]) XExists MNil MNil MNil None false (MFloat 0))
          (w_side MNil) INone (MInt 0%Z) None.
Definition written_rows_load : Prop :=
  forall sid e w, pack (ser_entry e) = Some w -> mtime_ok (s_mtime (e_s0 e)) = true ->
                  mtime_ok (s_mtime (e_s1 e)) = true -> load_row sid w <> None.
