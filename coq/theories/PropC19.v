(* PropC19.v — property theorems for C19 (hierarchical path/id cache stays coherent).

   Reading guide.  [step cf c op] = (outcome, state after the call) is the model of one public
   API call of HierarchicalCache; [exec] folds it over an operation list.  [Inv] = names unique
   per folder, files have no children, no id is held by two nodes, the root is a folder.
   [tame] = every stored name is in normal form (case fold) and non-empty.  [c_ghosts] = the
   ids the real code keeps in its id dict for nodes that are NOT in the tree any more.
   [make_node cf c d p o m] = what [step] does for create (d = false) / mkdir (d = true) in a tame state.

   What is true of the faithful model and what is not:
   * [Inv] holds in every reachable state, whatever the operations and their outcomes.
   * The two views are inverse of each other in tame states, for ids that are not ghosts.
   * The full-strength property is FALSE of the code: two open defect classes (an id of an
     ancestor; an insertion at the root path), each with a witness below ([..._refuted]) that is
     replayed on the real code by harness/checks/c19.py.  In the model, as in the code, rename stores the new
     name normalised. *)
From Coq Require Import NArith List Bool.
From CS Require Import Sx Str CacheModel CacheProofs CacheInv CacheLaws CacheTame CacheDict.
Import ListNotations.
Local Open Scope N_scope.

(* a case-sensitive and a case-insensitive provider; the empty cache with root id 9 *)
Definition cf_cs : cfg := {| cf_fold := fun n => n; cf_tmpl := [1; 2]%N |}.
Definition cf_ci : cfg := {| cf_fold := fold_std; cf_tmpl := [1; 2]%N |}.
Definition c0 : cache := init 9 [].

Theorem C19_inv_init : forall r m, Inv (init r m).
Proof. exact inv_init. Qed.
Print Assumptions C19_inv_init.

(* every operation, whatever it answers (ok or exception), leaves the invariant intact *)
Theorem C19_inv_step : forall cf c op, Inv c -> Inv (snd (step cf c op)).
Proof. exact step_inv. Qed.
Print Assumptions C19_inv_step.

Theorem C19_inv_reachable : forall cf ops r m, Inv (exec cf (init r m) ops).
Proof. intros cf ops r m. apply exec_inv, inv_init. Qed.
Print Assumptions C19_inv_reachable.

(* the clauses of Inv spelled out on lookups; C19_names_unique_mod_case uses only [tame], C19_no_cycle holds
   of every tree *)
Theorem C19_ids_unique : forall c q1 q2 o,
  Inv c -> has_id (c_root c) q1 o -> has_id (c_root c) q2 o -> q1 = q2.
Proof. intros c q1 q2 o HI. exact (inv_uniq _ HI q1 q2 o). Qed.
Print Assumptions C19_ids_unique.

Theorem C19_file_has_no_children : forall c q nd n,
  Inv c -> lookup q (c_root c) = Some nd -> n_dir nd = false -> lookup (q ++ [n]) (c_root c) = None.
Proof.
  intros c q nd n HI Hl Hd. rewrite lookup_app, Hl.
  pose proof (all_nodes_here (all_nodes_lookup (inv_leaf _ HI) Hl)) as H. unfold PF in H. rewrite Hd in H.
  simpl. destruct (n_kids nd); [reflexivity|discriminate].
Qed.
Print Assumptions C19_file_has_no_children.

Theorem C19_names_unique_mod_case : forall cf c q nd k1 k2,
  Inv c -> tame cf c = true -> lookup q (c_root c) = Some nd ->
  In k1 (map fst (n_kids nd)) -> In k2 (map fst (n_kids nd)) -> cf_fold cf k1 = cf_fold cf k2 -> k1 = k2.
Proof.
  intros cf c q nd k1 k2 _ Ht Hl H1 H2 Hf.
  pose proof (all_nodes_here (all_nodes_lookup Ht Hl)) as H. rewrite forallb_forall in H.
  apply H, name_ok_iff in H1. apply H, name_ok_iff in H2. destruct H1, H2. congruence.
Qed.
Print Assumptions C19_names_unique_mod_case.

(* acyclic by construction: the tree is an inductive term; the code's weak parent pointers are not modelled *)
Theorem C19_no_cycle : forall t p, lookup p t = Some t -> p = [].
Proof. exact no_cycle. Qed.
Print Assumptions C19_no_cycle.

(* tame states are closed under the regular operations (tameness alone suffices: [Inv c] is not used) *)
Theorem C19_tame_step : forall cf, fold_ok cf -> forall c op,
  Inv c -> tame cf c = true -> op_regular cf op = true -> tame cf (snd (step cf c op)) = true.
Proof. intros cf Hf c op _ Ht Hr. apply (step_keeps_tame cf Hf); assumption. Qed.
Print Assumptions C19_tame_step.

Theorem C19_regular_sequences_stay_modelled : forall cf ops r m,
  fold_ok cf -> forallb (op_regular cf) ops = true ->
  tame cf (exec cf (init r m) ops) = true /\ Inv (exec cf (init r m) ops).
Proof.
  intros cf ops r m Hf Hr. split; [apply exec_keeps_tame; [exact Hf|reflexivity|exact Hr]|apply exec_inv, inv_init].
Qed.
Print Assumptions C19_regular_sequences_stay_modelled.

(* ... and along such a sequence the model never answers RUnmodelled: the theorems below apply at every step *)
Theorem C19_regular_never_unmodelled : forall cf ops r m x,
  fold_ok cf -> forallb (op_regular cf) ops = true ->
  fst (step cf (exec cf (init r m) ops) x) <> RUnmodelled.
Proof. intros cf ops r m x Hf Hr. apply tame_step_modelled, (C19_regular_sequences_stay_modelled cf ops r m Hf Hr). Qed.
Print Assumptions C19_regular_never_unmodelled.

Theorem C19_path_oid_inverse : forall cf c o p,
  Inv c -> tame cf c = true -> get_path c o = Some p -> get_oid cf c p = Some o.
Proof.
  intros cf c o p HI Ht H. unfold get_path in H. destruct (loc_map c o) as [|rp|] eqn:E; try discriminate.
  injection H as <-. apply (loc_map_tree _ _ _ HI) in E as [_ [nd [Hl Hi]]].
  destruct (tame_path _ _ _ _ Ht Hl) as [H1 H2]. rewrite H2.
  apply get_oid_spec. rewrite H1. exists nd. auto.
Qed.
Print Assumptions C19_path_oid_inverse.

Theorem C19_oid_path_inverse : forall cf c o p,
  Inv c -> tame cf c = true -> aget o (c_ghosts c) = None ->
  get_oid cf c p = Some o -> get_path c o = Some (map (cf_fold cf) p).
Proof.
  intros cf c o p HI Ht Hg H. apply get_oid_spec in H. rewrite (get_path_spec c o _ HI Hg H).
  destruct H as [nd [Hl _]]. destruct (tame_path _ _ _ _ Ht Hl) as [_ H2]. rewrite H2. reflexivity.
Qed.
Print Assumptions C19_oid_path_inverse.

Theorem C19_inverse_views_reachable : forall cf ops r m o p,
  fold_ok cf -> forallb (op_regular cf) ops = true ->
  let c := exec cf (init r m) ops in
  (get_path c o = Some p -> get_oid cf c p = Some o) /\
  (aget o (c_ghosts c) = None -> get_oid cf c p = Some o -> get_path c o = Some (map (cf_fold cf) p)).
Proof.
  intros cf ops r m o p Hf Hr c. destruct (C19_regular_sequences_stay_modelled cf ops r m Hf Hr) as [Ht HI].
  split; [apply C19_path_oid_inverse|apply C19_oid_path_inverse]; assumption.
Qed.
Print Assumptions C19_inverse_views_reachable.

Theorem C19_delete_path_forgets_subtree : forall cf c p rel o,
  Inv c -> tame cf c = true -> map (cf_fold cf) (p ++ rel) <> [] ->
  get_oid cf c (p ++ rel) = Some o -> aget o (c_ghosts c) = None ->
  let c' := snd (step cf c (ODelete None (Some p))) in
  get_oid cf c' (p ++ rel) = None /\ get_path c' o = None.
Proof.
  intros cf c p rel o HI Ht Hne Hh Hg c'. apply get_oid_spec in Hh. rewrite map_app in *.
  unfold c', step. rewrite Ht. simpl. unfold loc_path.
  destruct (lookup (map (cf_fold cf) p) (c_root c)) as [x|] eqn:E.
  - destruct (delete_loc_forgets c (map (cf_fold cf) p) _ o HI (prefixb_app _ _) Hne Hh Hg) as [A B].
    split; [|exact (get_path_none _ o (delete_loc_inv c _ HI) B)].
    rewrite get_oid_lookup, map_app. cbv zeta in A. rewrite A. reflexivity.
  - exfalso. destruct Hh as [z [Hz _]]. rewrite lookup_app, E in Hz. discriminate.
Qed.
Print Assumptions C19_delete_path_forgets_subtree.

Theorem C19_delete_oid_forgets_subtree : forall cf c o0 rp rel o popt,
  Inv c -> tame cf c = true -> o0 <> rid c -> aget o0 (c_ghosts c) = None ->
  has_id (c_root c) rp o0 -> has_id (c_root c) (rp ++ rel) o -> aget o (c_ghosts c) = None ->
  let c' := snd (step cf c (ODelete (Some o0) popt)) in
  lookup (rp ++ rel) (c_root c') = None /\ get_path c' o = None.
Proof.
  intros cf c o0 rp rel o popt HI Ht Hr Hg0 H0 Hh Hg c'. unfold c', step. rewrite Ht. simpl. rewrite loc_oid_map.
  destruct (N.eqb_spec o0 (rid c)); [contradiction|].
  rewrite (proj2 (loc_map_tree c o0 rp HI) (conj Hg0 H0)).
  assert (Hne : rp ++ rel <> []).
  { intros He. apply app_eq_nil in He as [-> _]. apply Hr. symmetry. apply rid_root, H0. }
  destruct (delete_loc_forgets c rp (rp ++ rel) o HI (prefixb_app _ _) Hne Hh Hg) as [A B].
  split; [exact A|exact (get_path_none _ o (delete_loc_inv c _ HI) B)].
Qed.
Print Assumptions C19_delete_oid_forgets_subtree.

(* create / mkdir over an existing folder forgets everything that was below it *)
Theorem C19_replace_forgets_subtree : forall cf c d p o m rel o',
  fold_ok cf -> Inv c -> tame cf c = true -> map (cf_fold cf) rel <> [] ->
  get_oid cf c (p ++ rel) = Some o' -> aget o' (c_ghosts c) = None -> o <> Some o' ->
  let c' := snd (make_node cf c d p o m) in
  fst (make_node cf c d p o m) = ROk ->
  get_path c' o' = None /\ (forall q, ~ has_id (c_root c') q o').
Proof.
  intros cf c d p o m rel o' Hf HI _ Hrel Hh Hg Hne c' Hok. apply get_oid_spec in Hh. rewrite map_app in Hh.
  assert (Hu : unknown c' o').
  { unfold c', make_node in *. destruct (negb (md_ok_opt cf m)); [discriminate|].
    apply (insert_node_forgets cf c _ _ (map (cf_fold cf) rel)); auto using (fold_fold cf Hf).
    intros r [x [Hx Hi]]. destruct r; [|discriminate]. injection Hx as <-. exact (Hne Hi). }
  split; [|exact (proj1 Hu)]. exact (get_path_none _ _ (make_node_inv cf c d p o m HI) Hu).
Qed.
Print Assumptions C19_replace_forgets_subtree.

Theorem C19_rename_moves_subtree : forall cf c p q S,
  (forall n, cf_fold cf (cf_fold cf n) = cf_fold cf n) ->
  Inv c -> tame cf c = true -> n_id (c_root c) <> None ->
  map (cf_fold cf) p <> [] -> q <> [] ->
  lookup (map (cf_fold cf) p) (c_root c) = Some S ->
  fst (step cf c (ORename p q)) = ROk ->
  lookup (map (cf_fold cf) q) (c_root (snd (step cf c (ORename p q)))) = Some S /\
  c_ghosts (snd (step cf c (ORename p q))) = c_ghosts c.
Proof. exact rename_moves_subtree. Qed.
Print Assumptions C19_rename_moves_subtree.

Corollary C19_rename_moves_lookups : forall cf c p q S rel,
  (forall n, cf_fold cf (cf_fold cf n) = cf_fold cf n) ->
  Inv c -> tame cf c = true -> n_id (c_root c) <> None ->
  map (cf_fold cf) p <> [] -> q <> [] ->
  lookup (map (cf_fold cf) p) (c_root c) = Some S ->
  fst (step cf c (ORename p q)) = ROk ->
  get_oid cf (snd (step cf c (ORename p q))) (q ++ rel) = get_oid cf c (p ++ rel).
Proof.
  intros cf c p q S rel Hidem HI Ht Hr Hp Hq Hl Hok.
  destruct (rename_moves_subtree cf c p q S Hidem HI Ht Hr Hp Hq Hl Hok) as [A _].
  rewrite !get_oid_lookup, !map_app, (lookup_app_same _ _ _ _ _ S Hl A). reflexivity.
Qed.
Print Assumptions C19_rename_moves_lookups.

(* Refinement to a plain dictionary: [dict_of t] is the association list path -> (type, id, metadata) of
   everything in the tree; lookups in the tree are lookups in that list.  Delete is the invalidation of the
   subtree in the list, pointwise on lookups; rename and create are stated for the moved / the new entries. *)
Theorem C19_refines_dict : forall t q,
  knodup t = true -> dict_get q (dict_of t) = view t q.
Proof.
  intros t. induction t as [d i m kids IH] using node_ind'. intros [|n q] HK; [reflexivity|].
  unfold knodup in HK. simpl in HK. apply andb_true_iff in HK as [HK1 HK2].
  rewrite view_cons. simpl. rewrite dict_get_kids by (apply nodupb_nodup, HK1).
  destruct (aget n kids) as [c|] eqn:E; [|reflexivity]. apply aget_in in E.
  rewrite Forall_forall in IH. rewrite forallb_forall in HK2. apply (IH _ E q (HK2 _ E)).
Qed.
Print Assumptions C19_refines_dict.

Theorem C19_dict_delete_commutes : forall cf c p q,
  Inv c -> tame cf c = true -> map (cf_fold cf) p <> [] ->
  lookup (map (cf_fold cf) p) (c_root c) <> None ->
  dict_get q (dict_of (c_root (snd (step cf c (ODelete None (Some p)))))) =
  dict_get q (dict_remove (map (cf_fold cf) p) (dict_of (c_root c))).
Proof.
  intros cf c p q HI Ht Hne Hex.
  rewrite C19_refines_dict by apply inv_knodup, step_inv, HI. rewrite dict_get_remove, C19_refines_dict by apply inv_knodup, HI.
  unfold step. rewrite Ht. cbn [negb get_node]. unfold loc_path.
  destruct (lookup (map (cf_fold cf) p) (c_root c)); [|congruence].
  rewrite delete_loc_tree. simpl. rewrite view_cut. destruct q; [|reflexivity].
  destruct (map (cf_fold cf) p); [congruence|reflexivity].
Qed.
Print Assumptions C19_dict_delete_commutes.

Theorem C19_dict_rename_commutes : forall cf c p q S rel,
  (forall n, cf_fold cf (cf_fold cf n) = cf_fold cf n) ->
  Inv c -> tame cf c = true -> n_id (c_root c) <> None ->
  map (cf_fold cf) p <> [] -> q <> [] ->
  lookup (map (cf_fold cf) p) (c_root c) = Some S ->
  fst (step cf c (ORename p q)) = ROk ->
  dict_get (map (cf_fold cf) q ++ rel) (dict_of (c_root (snd (step cf c (ORename p q))))) =
  dict_get (map (cf_fold cf) p ++ rel) (dict_of (c_root c)).
Proof.
  intros cf c p q S rel Hidem HI Ht Hr Hp Hq Hl Hok.
  destruct (rename_moves_subtree cf c p q S Hidem HI Ht Hr Hp Hq Hl Hok) as [A _].
  rewrite C19_refines_dict by apply inv_knodup, step_inv, HI. rewrite C19_refines_dict by apply inv_knodup, HI.
  unfold view. rewrite (lookup_app_same _ _ _ _ _ S Hl A). reflexivity.
Qed.
Print Assumptions C19_dict_rename_commutes.

Theorem C19_dict_create_commutes : forall cf c d p o m,
  fold_ok cf -> Inv c -> map (cf_fold cf) p <> [] ->
  (forall x, o = Some x -> x <> rid c /\ (forall q, ~ has_id (c_root c) q x)) ->
  fst (make_node cf c d p o m) = ROk ->
  dict_get (map (cf_fold cf) p) (dict_of (c_root (snd (make_node cf c d p o m)))) = Some (d, o, md_or m).
Proof.
  intros cf c d p o m Hf HI Hne Hfresh Hok.
  rewrite C19_refines_dict by apply inv_knodup, make_node_inv, HI.
  unfold make_node in *. destruct (negb (md_ok_opt cf m)); [discriminate|].
  destruct (insert_node_fresh cf c (Node d o (md_or m) []) (map (cf_fold cf) p) HI Hne) as [A _];
    [rewrite map_map; apply map_ext, Hf|exact Hfresh|exact Hok|].
  unfold view. rewrite A. reflexivity.
Qed.
Print Assumptions C19_dict_create_commutes.

(* Refuted full-strength statements (each witness is replayed on the real code by the check: corpus/C19/*.json) *)

(* ancestor id: "every cached id resolves to a path" *)
Definition cached_ids_resolve_full : Prop :=
  forall (cf : cfg) (ops : list op) (o : N), let c := exec cf c0 ops in
  get_type_l c (loc_oid c o) <> None -> get_path c o <> None.

Definition ghost_witness : list op :=
  [OMkdir [97] (Some 1) None; OMkdir [97; 98] None None; OSetOid [97; 98] (Some 1) (Some true)]%N.

Theorem C19_cached_ids_resolve_refuted : ~ cached_ids_resolve_full.
Proof.
  intros H. specialize (H cf_cs ghost_witness 1%N). vm_compute in H.
  apply H; [discriminate|reflexivity].
Qed.
Print Assumptions C19_cached_ids_resolve_refuted.

Theorem C19_cached_ids_resolve_partial : forall c o rp,
  Inv c -> aget o (c_ghosts c) = None -> has_id (c_root c) rp o -> get_path c o = Some (clean rp).
Proof. exact get_path_spec. Qed.
Print Assumptions C19_cached_ids_resolve_partial.

(* full statement: a regular call never ends in AttributeError / TypeError; refuted by the ghost witness
   followed by delete(oid=1).  No partial statement: ghosts are reachable by regular calls. *)
Definition no_internal_error_full : Prop :=
  forall (cf : cfg) (ops : list op) (x : op), forallb (op_regular cf) (ops ++ [x]) = true ->
  match fst (step cf (exec cf c0 ops) x) with RErr EAttr | RErr EType => False | _ => True end.

Theorem C19_no_internal_error_refuted : ~ no_internal_error_full.
Proof.
  intros H. specialize (H cf_cs ghost_witness (ODelete (Some 1%N) None) eq_refl). vm_compute in H. exact H.
Qed.
Print Assumptions C19_no_internal_error_refuted.

(* ancestor id, with the root's id: get_oid says the root has id 9, get_path 9 says nothing;
   the true part is C19_oid_path_inverse (hypothesis: the id is no ghost) *)
Definition inverse_without_ghost_hyp_full : Prop :=
  forall (cf : cfg) (ops : list op) (o : N) (p : list N), forallb (op_regular cf) ops = true ->
  let c := exec cf c0 ops in get_oid cf c p = Some o -> get_path c o <> None.

Theorem C19_inverse_root_ghost_refuted : ~ inverse_without_ghost_hyp_full.
Proof.
  intros H.
  specialize (H cf_cs [OMkdir [97] None None; OCreate [97; 98] (Some 9) None]%N 9%N [] eq_refl eq_refl).
  vm_compute in H. apply H. reflexivity.
Qed.
Print Assumptions C19_inverse_root_ghost_refuted.

(* root-path insertion: it stores a child named '': id -> path -> id fails *)
Definition path_oid_inverse_full : Prop :=
  forall (cf : cfg) (ops : list op) (o : N) (p : list N),
  let c := exec cf c0 ops in get_path c o = Some p -> get_oid cf c p = Some o.

Theorem C19_path_oid_inverse_refuted : ~ path_oid_inverse_full.
Proof.
  intros H. specialize (H cf_cs [OCreate [] (Some 1) None] 1 [] eq_refl).
  vm_compute in H. discriminate.
Qed.
Print Assumptions C19_path_oid_inverse_refuted.
(* the partial statement is C19_path_oid_inverse (tame states) / C19_inverse_views_reachable *)

(* case-insensitive rename('/a','/A'): the new name is stored normalised, the law holds *)
Example ex_ci_rename_repaired :
  let c := exec cf_ci c0 [OCreate [97] (Some 1) None; ORename [97] [65]] in
  get_path c 1 = Some [97] /\ get_oid cf_ci c [65] = Some 1.
Proof. vm_compute. auto. Qed.

Definition ex_ops : list op :=
  [OMkdir [97] (Some 1) None; OCreate [97; 98] (Some 2) (Some [(1, 1)]); OMkdir [98] (Some 3) None;
   ORename [97] [98; 97]; OUpdate [98; 97; 98] false (Some 4) None true]%N.

Example ex_regular : forallb (op_regular cf_ci) ex_ops = true. Proof. reflexivity. Qed.
Example ex_tame : tame cf_ci (exec cf_ci c0 ex_ops) = true. Proof. vm_compute. reflexivity. Qed.
Example ex_inverse : get_path (exec cf_ci c0 ex_ops) 4%N = Some [98; 97; 98]%N
                     /\ get_oid cf_ci (exec cf_ci c0 ex_ops) [66; 65; 98]%N = Some 4%N.
Proof. vm_compute. auto. Qed.
Example ex_rename_ok : fst (step cf_cs (exec cf_cs c0 [OMkdir [97] (Some 1) None; OCreate [97; 98] (Some 2) None]%N)
                                 (ORename [97] [98]%N)) = ROk.
Proof. vm_compute. reflexivity. Qed.
Example ex_fold_ok : fold_ok cf_ci /\ fold_ok cf_cs.
Proof. split; [apply fold_ok_std|apply fold_ok_id]. Qed.
