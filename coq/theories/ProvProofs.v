(* ProvProofs.v — facts about ProvModel.v that need no invariant: lookups, which errors a call can give, the preservation
   principle (what the six primitive state changes keep, every call keeps) and its instances, the queries, connect, the
   hash law; the lookups after dremove / dset and dedup at the end serve the Algo files as well. *)
From Coq Require Import NArith List Bool Lia Arith.
From CS Require Export ListFacts.
From CS Require Import Str StrLemmas ProvModel.
Import ListNotations.

Lemma path_eqb_eq a b : path_eqb a b = true <-> a = b.
Proof. exact (list_eqb_eq str_eqb str_eqb_eq a b). Qed.

Lemma key_eqb_eq a b : key_eqb a b = true <-> a = b.
Proof.
  destruct a as [x|p], b as [y|q]; simpl; split; intros H; try congruence.
  - apply N.eqb_eq in H. congruence.
  - inversion H. apply N.eqb_refl.
  - apply path_eqb_eq in H. congruence.
  - inversion H. apply path_eqb_eq. reflexivity.
Qed.

Lemma key_eqb_refl a : key_eqb a a = true.
Proof. apply key_eqb_eq. reflexivity. Qed.

Lemma hset_upd_at h r o : hset h r o = upd_at h r o.
Proof. revert r. induction h as [|x h IH]; intros [|r]; simpl; congruence. Qed.

Lemma hset_length h r o : length (hset h r o) = length h.
Proof. rewrite hset_upd_at. apply upd_at_length. Qed.

Lemma nth_hset_same h r o : r < length h -> nth_error (hset h r o) r = Some o.
Proof.
  intros H. destruct (nth_error h r) as [x|] eqn:E; [|apply nth_error_None in E; lia].
  rewrite hset_upd_at. exact (nth_upd_at_same h r o x E).
Qed.

Lemma nth_hset_other h r q o : q <> r -> nth_error (hset h r o) q = nth_error h q.
Proof. intros H. rewrite hset_upd_at. apply nth_upd_at_other. congruence. Qed.

Lemma nth_hset h r q o x : nth_error (hset h r o) q = Some x -> (q = r /\ x = o) \/ nth_error h q = Some x.
Proof.
  rewrite hset_upd_at, nth_upd_at. destruct (Nat.eqb_spec q r) as [->|Hne]; [|auto].
  destruct (nth_error h r); intros H; inversion H; auto.
Qed.

Lemma get_spec s k r x : get s k = Some (r, x) <-> dget k (p_dict s) = Some r /\ nth_error (p_heap s) r = Some x.
Proof.
  unfold get. destruct (dget k (p_dict s)) as [r'|]; [|split; [discriminate|intros [H _]; discriminate]].
  destruct (nth_error (p_heap s) r') as [x'|] eqn:E; split; try discriminate.
  - intros H. inversion H; subst. auto.
  - intros [H1 H2]. congruence.
  - intros [H1 H2]. congruence.
Qed.

Lemma get_live_spec s k r o :
  get_live s k = Some (r, o) <->
  dget k (p_dict s) = Some r /\ nth_error (p_heap s) r = Some o /\ o_exists o = true.
Proof.
  rewrite <- and_assoc, <- get_spec. unfold get_live.
  destruct (get s k) as [[r' o']|]; [|split; [discriminate|intros [H _]; discriminate]].
  destruct (o_exists o') eqn:X; split; try discriminate.
  - intros H. inversion H; subst. auto.
  - intros [H _]. exact H.
  - intros [H L]. inversion H; subst. congruence.
Qed.

Lemma fst_rmap {T U} (f : T -> U) x : fst (rmap f x) = fst x.
Proof. destruct x as [s [v|e]]; reflexivity. Qed.

Lemma snd_rmap_ne {T U} (f : T -> U) x e : snd x <> Err e -> snd (rmap f x) <> Err e.
Proof. destruct x as [s [v|e']]; simpl; [discriminate|]. intros H X. apply H. inversion X. reflexivity. Qed.

Lemma run_ops_inv (P : prov -> Prop) :
  (forall s o, P s -> P (fst (step s o))) ->
  forall ops s, P s -> P (fst (run_ops s ops)).
Proof.
  intros Hs. induction ops as [|o t IH]; intros s H; simpl; [exact H|].
  pose proof (Hs s o H) as H1. destruct (step s o) as [s1 r]. simpl in H1.
  pose proof (IH s1 H1) as H2. destruct (run_ops s1 t) as [s2 rs]. exact H2.
Qed.

(* possible_conflict of MockProvider.rename *)
Definition conflict_at (s : prov) (k : key) (p : path) : option obj :=
  match get s (pkey s p) with
  | Some (_, x) => if key_eqb (o_oid x) k then None else (if o_exists x then Some x else None)
  | None => None
  end.

(* the end of ProvModel.rename (its local function finish); rename is convertible to a term that ends in it
   (ProvRename.rename_unfold) *)
Definition rename_finish (c : cfg) (k prior : key) (r : nat) (s2 : prov) : prov * res key :=
  match nth_error (p_heap s2) r with
  | None => (s2, Err EUnspecified)
  | Some o2 =>
    if c_oidpath c
    then (if key_eqb (o_oid o2) prior then (s2, Err EAssert) else (s2, Ok (o_oid o2)))
    else (if key_eqb (o_oid o2) k then (s2, Ok (o_oid o2)) else (s2, Err EAssert))
  end.

Lemma rename_finish_fst c k prior r s2 : fst (rename_finish c k prior r s2) = s2.
Proof.
  unfold rename_finish. destruct (nth_error (p_heap s2) r) as [o2|]; [|reflexivity].
  destruct (c_oidpath c); [destruct (key_eqb (o_oid o2) prior)|destruct (key_eqb (o_oid o2) k)]; reflexivity.
Qed.

Lemma rename_finish_ok c k prior r s2 s' k' : rename_finish c k prior r s2 = (s', Ok k') ->
  s' = s2 /\ exists o2, nth_error (p_heap s2) r = Some o2 /\ k' = o_oid o2 /\ (c_oidpath c = false -> o_oid o2 = k).
Proof.
  unfold rename_finish. destruct (nth_error (p_heap s2) r) as [o2|]; [|discriminate].
  destruct (c_oidpath c).
  - destruct (key_eqb (o_oid o2) prior); [discriminate|]. intros H. inversion H; subst.
    split; [reflexivity|]. exists o2. repeat split. discriminate.
  - destruct (key_eqb (o_oid o2) k) eqn:E; [|discriminate]. intros H. inversion H; subst.
    split; [reflexivity|]. exists o2. repeat split. intros _. apply key_eqb_eq. exact E.
Qed.

Lemma rename_finish_specified c k prior r s2 o' : nth_error (p_heap s2) r = Some o' ->
  snd (rename_finish c k prior r s2) <> Err EUnspecified.
Proof.
  intros H. unfold rename_finish. rewrite H.
  destruct (c_oidpath c); [destruct (key_eqb (o_oid o') prior)|destruct (key_eqb (o_oid o') k)]; simpl; discriminate.
Qed.

Lemma listdir_err s k e : listdir s k = Err e -> e = ENotFound.
Proof.
  unfold listdir. destruct (get_live s k) as [[r o]|]; [destruct (o_kind o)|]; intros H; inversion H; reflexivity.
Qed.

Lemma verify_parent_err s p e : verify_parent s p = Some e -> e <> EUnspecified.
Proof.
  unfold verify_parent. destruct p as [|a [|b t]]; try discriminate.
  destruct (info_path s (removelast (a :: b :: t))) as [i|]; [destruct (i_kind i)|]; intros H; inversion H; discriminate.
Qed.

Lemma delete_err s k s' e : delete s k = (s', Err e) -> e <> EUnspecified.
Proof.
  unfold delete. destruct (get_live s k) as [[r o]|]; [|discriminate].
  destruct (o_kind o); [discriminate|].
  destruct (listdir s (o_oid o)) as [[|i l]|e'] eqn:L; try discriminate.
  - intros H. inversion H. discriminate.
  - intros H. inversion H; subst. rewrite (listdir_err _ _ _ L). discriminate.
Qed.

Lemma create_cases s p d :
  (exists e, create s p d = (s, Err e) /\ e <> EUnspecified) \/
  (info_path s p = None /\ verify_parent s p = None /\
   create s p d = (fst (alloc s p KFile d), Ok (info_of (snd (alloc s p KFile d))))).
Proof.
  unfold create. destruct (has_forbidden (p_cfg s) p); [left; eexists; split; [reflexivity|discriminate]|].
  destruct (info_path s p); [left; eexists; split; [reflexivity|discriminate]|].
  destruct (verify_parent s p) as [e|] eqn:V; [left; exists e; split; [reflexivity|eapply verify_parent_err; eauto]|].
  right. auto.
Qed.

Lemma mkdir_cases s p :
  (exists e, mkdir s p = (s, Err e) /\ e <> EUnspecified) \/
  (exists i, info_path s p = Some i /\ i_kind i = KDir /\ mkdir s p = (s, Ok (i_oid i))) \/
  (info_path s p = None /\ verify_parent s p = None /\
   mkdir s p = (fst (alloc s p KDir 0%N), Ok (o_oid (snd (alloc s p KDir 0%N))))).
Proof.
  unfold mkdir. destruct (verify_parent s p) as [e|] eqn:V; [left; exists e; split; [reflexivity|eapply verify_parent_err; eauto]|].
  destruct (has_forbidden (p_cfg s) p); [left; eexists; split; [reflexivity|discriminate]|].
  destruct (info_path s p) as [i|]; [|right; right; auto].
  destruct (i_kind i) eqn:K; [left; eexists; split; [reflexivity|discriminate]|].
  right. left. exists i. auto.
Qed.

(* whatever the six primitive state changes keep, every API call keeps *)
Section Preserve.
  Variable P : prov -> Prop.
  Hypothesis P_emit : forall s e, P s -> P (emit s e).
  Hypothesis P_cursor : forall s c, P s -> P (with_cursor s c).
  Hypothesis P_alloc : forall s p kd d, P s ->
    let r := length (p_heap s) in
    let o := {| o_path := p; o_oid := if c_oidpath (p_cfg s) then KPath p else KId (N.of_nat r);
                o_kind := kd; o_data := d; o_exists := true |} in
    P (with_dict (with_heap s (p_heap s ++ [o])) (store (p_cfg s) (p_dict s) r o)).
  Hypothesis P_exists : forall s r o b, P s -> nth_error (p_heap s) r = Some o ->
    P (with_heap s (hset (p_heap s) r (set_exists o b))).
  Hypothesis P_data : forall s r o d, P s -> nth_error (p_heap s) r = Some o ->
    P (with_heap s (hset (p_heap s) r (set_data o d))).
  Hypothesis P_place : forall s r o d1 dest, P s -> nth_error (p_heap s) r = Some o ->
    unstore (p_cfg s) (p_dict s) o = Some d1 ->
    let o' := set_place o dest (if c_oidpath (p_cfg s) then KPath dest else o_oid o) in
    P (with_dict (with_heap s (hset (p_heap s) r o')) (store (p_cfg s) d1 r o')).

  Lemma P_alloc_full s p kd d : P s -> P (fst (alloc s p kd d)).
  Proof. intros H. unfold alloc. simpl. apply P_emit. apply P_alloc. exact H. Qed.

  Lemma P_create s p d : P s -> P (fst (create s p d)).
  Proof.
    intros H. destruct (create_cases s p d) as [[e [-> _]]|(_ & _ & ->)]; [exact H|].
    exact (P_alloc_full s p KFile d H).
  Qed.

  Lemma P_mkdir s p : P s -> P (fst (mkdir s p)).
  Proof.
    intros H. destruct (mkdir_cases s p) as [[e [-> _]]|[(i & _ & _ & ->)|(_ & _ & ->)]]; [exact H|exact H|].
    exact (P_alloc_full s p KDir 0%N H).
  Qed.

  Lemma P_delete s k : P s -> P (fst (delete s k)).
  Proof.
    intros H. unfold delete.
    destruct (get_live s k) as [[r o]|] eqn:E; [|exact H].
    apply get_live_spec in E as [_ [E _]].
    destruct (o_kind o).
    - simpl. apply P_emit. apply P_exists; assumption.
    - destruct (listdir s (o_oid o)) as [[|? ?]|e]; simpl; try exact H.
      apply P_emit. apply P_exists; assumption.
  Qed.

  Lemma P_upload s k d : P s -> P (fst (upload s k d)).
  Proof.
    intros H. unfold upload.
    destruct (get_live s k) as [[r o]|] eqn:E; [|exact H].
    apply get_live_spec in E as [_ [E _]].
    destruct (o_kind o); simpl; [|exact H].
    apply P_emit. apply P_data; assumption.
  Qed.

  Lemma P_rename_single s r dest ev s' : P s -> rename_single s r dest ev = Some s' -> P s'.
  Proof.
    intros H. unfold rename_single.
    destruct (nth_error (p_heap s) r) as [o|] eqn:E; [|discriminate].
    destruct (unstore (p_cfg s) (p_dict s) o) as [d1|] eqn:U; [|discriminate].
    intros X; inversion X; subst; clear X.
    destruct ev; [apply P_emit|]; apply P_place; assumption.
  Qed.

  Lemma P_move_all refs : forall s old dest s', P s -> move_all s refs old dest = Some s' -> P s'.
  Proof.
    induction refs as [|q t IH]; intros s old dest s' H; simpl.
    - intros X; inversion X; subst; exact H.
    - destruct (nth_error (p_heap s) q) as [x|]; [|discriminate].
      destruct (rename_single s q (new_path old dest x) false) as [s1|] eqn:E; [|discriminate].
      intros X. apply (IH s1 old dest s'); [|exact X]. eapply P_rename_single; eassumption.
  Qed.

  Lemma P_rename s k p : P s -> P (fst (rename s k p)).
  Proof.
    intros H. unfold rename.
    destruct (get_live s k) as [[r o]|] eqn:E; [|exact H].
    fold (conflict_at s k p). set (pc := conflict_at s k p).
    destruct (verify_parent s p); [exact H|].
    (* rename()'s local [conflict] *)
    match goal with |- context [match ?c with Some e => (s, Err e) | None => _ end] => destruct c end; [exact H|].
    assert (Hd : P (fst (match pc with Some x => delete s (o_oid x) | None => (s, Ok tt) end))).
    { destruct pc; [apply P_delete; exact H|exact H]. }
    destruct (match pc with Some x => delete s (o_oid x) | None => (s, Ok tt) end) as [s1 [u|e]]; simpl in Hd; [|exact H].
    destruct (path_eqb (o_path o) p); [exact Hd|].
    destruct p as [|n p']; [exact H|].
    destruct (o_kind o).
    - destruct (rename_single s1 r (n :: p') true) as [s2|] eqn:R; [|exact Hd].
      change (P (fst (rename_finish (p_cfg s) k (o_oid o) r s2))). rewrite rename_finish_fst.
      eapply P_rename_single; eassumption.
    - destruct (negb (move_specified s1 r (o_path o) (n :: p'))); [exact H|].
      destruct (move_all s1 (moved_refs s1 (o_path o)) (o_path o) (n :: p')) as [s2|] eqn:M; [|exact H].
      destruct (rename_single s2 r (n :: p') true) as [s3|] eqn:R; [|exact H].
      change (P (fst (rename_finish (p_cfg s) k (o_oid o) r s3))). rewrite rename_finish_fst.
      eapply P_rename_single; [|eassumption]. eapply P_move_all; eassumption.
  Qed.

  Lemma P_step s o : P s -> P (fst (step s o)).
  Proof.
    intros H. destruct o; unfold step; rewrite ?fst_rmap; try exact H.
    - apply P_create, H.
    - apply P_mkdir, H.
    - apply P_rename, H.
    - apply P_upload, H.
    - apply P_delete, H.
    - unfold read_events. destruct (Nat.leb (p_cursor s) (length (p_log s))); simpl; [apply P_cursor|]; exact H.
    - destruct c; simpl; apply P_cursor; exact H.
  Qed.

  Lemma P_run_ops ops : forall s, P s -> P (fst (run_ops s ops)).
  Proof. exact (run_ops_inv P P_step ops). Qed.
End Preserve.

Definition oid_inv (s : prov) : Prop :=
  forall r x, nth_error (p_heap s) r = Some x ->
    o_oid x = if c_oidpath (p_cfg s) then KPath (o_path x) else KId (N.of_nat r).

Lemma oid_inv_init c : oid_inv (init c).
Proof.
  intros r x H. simpl in H. destruct r as [|r]; simpl in H; [|destruct r; discriminate].
  inversion H; subst; simpl. reflexivity.
Qed.

Lemma oid_inv_app s o : oid_inv s ->
  o_oid o = (if c_oidpath (p_cfg s) then KPath (o_path o) else KId (N.of_nat (length (p_heap s)))) ->
  oid_inv (with_heap s (p_heap s ++ [o])).
Proof. intros H Ho q x Hx. apply nth_error_snoc_inv in Hx as [Hx|[-> ->]]; [exact (H _ _ Hx)|exact Ho]. Qed.

Lemma oid_inv_hset s r o' : oid_inv s ->
  o_oid o' = (if c_oidpath (p_cfg s) then KPath (o_path o') else KId (N.of_nat r)) ->
  oid_inv (with_heap s (hset (p_heap s) r o')).
Proof. intros H Ho q x Hx. apply nth_hset in Hx as [[-> ->]|Hx]; [exact Ho|exact (H _ _ Hx)]. Qed.

Lemma oid_inv_step s o : oid_inv s -> oid_inv (fst (step s o)).
Proof.
  apply (P_step oid_inv); auto.
  - (* P_alloc *) intros s0 p kd d H. refine (oid_inv_app s0 _ H _). reflexivity.
  - (* P_exists *) intros s0 r o0 b H Ho. exact (oid_inv_hset s0 r (set_exists o0 b) H (H _ _ Ho)).
  - (* P_data *) intros s0 r o0 d H Ho. exact (oid_inv_hset s0 r (set_data o0 d) H (H _ _ Ho)).
  - (* P_place *) intros s0 r o0 d1 dest H Ho _. refine (oid_inv_hset s0 r _ H _). simpl.
    specialize (H _ _ Ho). destruct (c_oidpath (p_cfg s0)); [reflexivity|exact H].
Qed.

Definition heap_ext (s0 s : prov) : Prop :=
  forall r x, nth_error (p_heap s0) r = Some x ->
    exists y, nth_error (p_heap s) r = Some y /\ o_kind y = o_kind x.

Lemma heap_ext_hset s0 s r o o' : heap_ext s0 s -> nth_error (p_heap s) r = Some o -> o_kind o' = o_kind o ->
  heap_ext s0 (with_heap s (hset (p_heap s) r o')).
Proof.
  intros H Ho Hk q x Hx. destruct (H _ _ Hx) as [y [Hy Hky]]. simpl.
  destruct (Nat.eq_dec q r) as [->|Hne].
  - exists o'. split; [apply nth_hset_same; apply nth_error_Some; congruence|congruence].
  - exists y. split; [rewrite nth_hset_other by exact Hne; exact Hy|exact Hky].
Qed.

Lemma heap_ext_step s0 s o : heap_ext s0 s -> heap_ext s0 (fst (step s o)).
Proof.
  apply (P_step (heap_ext s0)); auto.
  - (* P_alloc *) intros s1 p kd d H r0 o0 q x Hx. destruct (H _ _ Hx) as [y [Hy Hk]]. exists y. split; [|exact Hk].
    simpl. rewrite nth_error_app1; [exact Hy|]. apply nth_error_Some. congruence.
  - (* P_exists *) intros s1 r o0 b H Ho. exact (heap_ext_hset s0 s1 r o0 (set_exists o0 b) H Ho eq_refl).
  - (* P_data *) intros s1 r o0 d H Ho. exact (heap_ext_hset s0 s1 r o0 (set_data o0 d) H Ho eq_refl).
  - (* P_place *) intros s1 r o0 d1 dest H Ho _. apply (heap_ext_hset s0 s1 r o0); auto.
Qed.

Lemma log_append_only s o : exists l, p_log (fst (step s o)) = p_log s ++ l.
Proof.
  apply (P_step (fun s' => exists l, p_log s' = p_log s ++ l)); simpl; auto.
  - (* P_emit *) intros s1 e [l Hl]. exists (l ++ [e]). rewrite Hl, app_assoc. reflexivity.
  - exists []. rewrite app_nil_r. reflexivity.
Qed.

Definition cursor_ok (s : prov) : Prop := p_cursor s <= length (p_log s).

Lemma hash_oid_info s k : hash_oid s k = match info_oid s k with Some i => i_data i | None => None end.
Proof. unfold hash_oid, info_oid. destruct (get_live s k) as [[r o]|]; reflexivity. Qed.

Lemma download_info s k d : download s k = Ok d <-> exists i, info_oid s k = Some i /\ i_data i = Some d.
Proof.
  unfold download, info_oid. destruct (get_live s k) as [[r o]|]; [|split; [discriminate|intros [i [H _]]; discriminate]].
  unfold info_of. destruct (o_kind o); simpl; split.
  - intros H; inversion H; subst. eexists; split; [reflexivity|]. reflexivity.
  - intros [i [H1 H2]]. inversion H1; subst. simpl in H2. congruence.
  - discriminate.
  - intros [i [H1 H2]]. inversion H1; subst. simpl in H2. discriminate.
Qed.

Lemma listdir_spec s k l : listdir s k = Ok l ->
  exists r o, get_live s k = Some (r, o) /\ o_kind o = KDir /\
  forall i, In i l <-> exists q x, In q (fs_refs s) /\ nth_error (p_heap s) q = Some x /\
                                   o_exists x = true /\ is_child (p_cfg s) (o_path o) (o_path x) = true /\ i = info_of x.
Proof.
  unfold listdir. destruct (get_live s k) as [[r o]|] eqn:E; [|discriminate].
  destruct (o_kind o) eqn:K; [discriminate|]. intros H; inversion H; subst; clear H.
  exists r, o. repeat split; auto.
  - intros Hi. unfold children in Hi. apply in_flat_map in Hi as [q [Hq Hi]].
    destruct (nth_error (p_heap s) q) as [x|] eqn:Ex; [|destruct Hi].
    destruct (o_exists x && is_child (p_cfg s) (o_path o) (o_path x)) eqn:B; [|destruct Hi].
    apply andb_true_iff in B as [B1 B2]. destruct Hi as [<-|[]]. exists q, x. auto.
  - intros [q [x [Hq [Ex [B1 [B2 ->]]]]]]. unfold children. apply in_flat_map. exists q. split; [exact Hq|].
    rewrite Ex, B1, B2. simpl. auto.
Qed.

Lemma delete_event s k s' : delete s k = (s', Ok tt) ->
  (s' = s /\ get_live s k = None) \/
  exists r o e, get_live s k = Some (r, o) /\ p_log s' = p_log s ++ [e] /\ e_kind e = EvDelete /\
                e_oid e = o_oid o /\ e_exists e = false /\
                nth_error (p_heap s') r = Some (set_exists o false).
Proof.
  unfold delete. destruct (get_live s k) as [[r o]|] eqn:E; [|intros H; inversion H; auto].
  intros H. right. exists r, o.
  (* a file and an empty folder take the same branch *)
  assert (Es : s' = emit (with_heap s (hset (p_heap s) r (set_exists o false)))
                         (snapshot EvDelete (set_exists o false) None)).
  { destruct (o_kind o); [|destruct (listdir s (o_oid o)) as [[|? ?]|?]; try discriminate]; inversion H; reflexivity. }
  subst s'. eexists. simpl. repeat split; try reflexivity.
  apply nth_hset_same. apply get_live_spec in E as [_ [E _]]. apply nth_error_Some. congruence.
Qed.

Lemma connect_first ident c creds : cn_id c = None ->
  snd (connect ident c (Some creds)) = CROk /\ connected (fst (connect ident c (Some creds))) = true /\
  cn_id (fst (connect ident c (Some creds))) = Some (ident creds).
Proof. intros H. unfold connect. simpl. rewrite H. simpl. auto. Qed.

Lemma connect_keeps_id ident c creds i : cn_id c = Some i -> cn_id (fst (connect ident c creds)) = Some i.
Proof.
  intros H. unfold connect. destruct creds as [cr|]; simpl; [|exact H].
  rewrite H. destruct (N.eqb i (ident cr)); reflexivity.
Qed.

Section Hash.
  Variable hash : Type.
  Variable H : N -> hash.
  Definition info_hash (i : info) : option hash := option_map H (i_data i).

  Lemma hash_law s k i d : info_oid s k = Some i -> download s k = Ok d -> info_hash i = Some (H d).
  Proof.
    intros Hi Hd. apply download_info in Hd as [i' [Hi' Hd]]. rewrite Hi in Hi'. inversion Hi'; subst.
    unfold info_hash. rewrite Hd. reflexivity.
  Qed.

End Hash.

Lemma dget_dremove k k' d : dget k (dremove k' d) = if key_eqb k k' then None else dget k d.
Proof.
  induction d as [|[k0 r0] t IH]; simpl.
  - destruct (key_eqb k k'); reflexivity.
  - destruct (key_eqb k' k0) eqn:E1.
    + apply key_eqb_eq in E1. subst k0. rewrite IH. destruct (key_eqb k k'); reflexivity.
    + simpl. destruct (key_eqb k k0) eqn:E2.
      * apply key_eqb_eq in E2. subst k0. destruct (key_eqb k k') eqn:E3; [|reflexivity].
        apply key_eqb_eq in E3. subst. rewrite key_eqb_refl in E1. discriminate.
      * exact IH.
Qed.

Lemma dget_dset k k' r d : dget k (dset k' r d) = if key_eqb k k' then Some r else dget k d.
Proof.
  unfold dset. simpl. destruct (key_eqb k k') eqn:E; [reflexivity|].
  rewrite dget_dremove, E. reflexivity.
Qed.

Lemma dget_in k r d : dget k d = Some r -> In (k, r) d.
Proof.
  induction d as [|[k0 r0] t IH]; simpl; [discriminate|].
  destruct (key_eqb k k0) eqn:E.
  - intros H. inversion H; subst. apply key_eqb_eq in E. subst. left. reflexivity.
  - intros H. right. apply IH. exact H.
Qed.

Lemma dedup_nodup_eq l : dedup l = nodup Nat.eq_dec l.
Proof.
  induction l as [|x t IH]; simpl; [reflexivity|]. rewrite IH.
  destruct (in_dec Nat.eq_dec x t) as [H|H].
  - rewrite (proj2 (existsb_eqb_In Nat.eqb Nat.eqb_eq x t) H). reflexivity.
  - destruct (existsb (Nat.eqb x) t) eqn:E; [|reflexivity].
    apply (existsb_eqb_In Nat.eqb Nat.eqb_eq) in E. contradiction.
Qed.

Lemma dedup_in l x : In x (dedup l) <-> In x l.
Proof. rewrite dedup_nodup_eq. apply nodup_In. Qed.

Lemma dedup_nodup l : NoDup (dedup l).
Proof. rewrite dedup_nodup_eq. apply NoDup_nodup. Qed.
