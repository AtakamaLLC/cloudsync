(* ProvWf.v — the invariant behind well-formedness of the provider model: INV s = S_inv s /\ W_inv s.
   S_inv, the structure of MockFS._objects, is kept by EVERY call in the three flavours other than path-style +
   case-insensitive; W_inv, the tree, by every GUARDED call (guard_op in ProvModel.v).  The lemmas below the invariant
   come first (dictionary, lists, np, "p at or below old"); the rename is in ProvMove.v (the loop) and ProvRename.v. *)
From Coq Require Import NArith List Bool Lia Arith.
From CS Require Import ListFacts StrLemmas ProvModel ProvProofs.
Import ListNotations.

Lemma path_eqb_refl p : path_eqb p p = true.
Proof. apply path_eqb_eq. reflexivity. Qed.

Lemma path_eqb_false a b : path_eqb a b = false <-> a <> b.
Proof. exact (beq_false path_eqb path_eqb_eq a b). Qed.

Lemma key_eqb_false a b : key_eqb a b = false <-> a <> b.
Proof. exact (beq_false key_eqb key_eqb_eq a b). Qed.

Lemma path_eq_dec (a b : path) : {a = b} + {a <> b}.
Proof. exact (beq_dec path_eqb path_eqb_eq a b). Qed.

Lemma key_eq_dec (a b : key) : {a = b} + {a <> b}.
Proof. exact (beq_dec key_eqb key_eqb_eq a b). Qed.

Lemma key_eqb_sym a b : key_eqb a b = key_eqb b a.
Proof. exact (beq_sym key_eqb key_eqb_eq a b). Qed.

Lemma kpath_eqb p q : key_eqb (KPath p) (KPath q) = path_eqb p q.
Proof. reflexivity. Qed.

Definition keys (d : dict) : list key := map fst d.

Lemma keys_dremove k d : keys (dremove k d) = filter (fun x => negb (key_eqb k x)) (keys d).
Proof.
  induction d as [|[k0 r0] t IH]; simpl; [reflexivity|].
  destruct (key_eqb k k0); simpl; congruence.
Qed.

Lemma nodup_dremove k d : NoDup (keys d) -> NoDup (keys (dremove k d)).
Proof. rewrite keys_dremove. apply NoDup_filter. Qed.

Lemma nodup_dset k r d : NoDup (keys d) -> NoDup (keys (dset k r d)).
Proof.
  intros H. unfold dset. simpl. constructor; [|apply nodup_dremove; exact H].
  rewrite keys_dremove, filter_In, key_eqb_refl. intros [_ X]. discriminate.
Qed.

Lemma in_dget k r d : NoDup (keys d) -> In (k, r) d -> dget k d = Some r.
Proof.
  induction d as [|[k0 r0] t IH]; simpl; intros Hn Hin; [destruct Hin|].
  inversion Hn as [|? ? Hk Ht]; subst.
  destruct Hin as [Hin|Hin].
  - inversion Hin; subst. rewrite key_eqb_refl. reflexivity.
  - destruct (key_eqb k k0) eqn:E.
    + apply key_eqb_eq in E. subst k0. exfalso. apply Hk. change k with (fst (k, r)). apply in_map. exact Hin.
    + apply IH; assumption.
Qed.

Lemma dget_dmem k d r : dget k d = Some r -> dmem k d = true.
Proof. unfold dmem. intros ->. reflexivity. Qed.

Lemma in_fs_refs s r : In r (fs_refs s) <-> exists q, In (KPath q, r) (p_dict s).
Proof.
  unfold fs_refs. rewrite in_flat_map. split.
  - intros [[k r'] [Hin H]]. simpl in H. destruct k as [n|q]; [destruct H|].
    destruct H as [<-|[]]. exists q. exact Hin.
  - intros [q Hin]. exists (KPath q, r). split; [exact Hin|]. simpl. auto.
Qed.

Lemma fs_refs_nodup s (d : dict) (f : nat -> path) :
  NoDup (keys d) -> (forall q r, In (KPath q, r) d -> q = f r) -> NoDup (fs_refs (with_dict s d)).
Proof.
  unfold fs_refs. simpl. induction d as [|[k r] t IH]; simpl; intros Hn Hf; [constructor|].
  inversion Hn as [|? ? Hk Ht]; subst.
  assert (IH' := IH Ht (fun q r' H => Hf q r' (or_intror H))).
  destruct k as [n|q]; simpl; [exact IH'|].
  constructor; [|exact IH'].
  intros Hin. apply in_flat_map in Hin as [[k' r'] [Hin H]]. simpl in H.
  destruct k' as [n'|q']; [destruct H|]. destruct H as [<-|[]].
  assert (q' = f r') by (apply Hf; right; exact Hin).
  assert (q = f r') by (apply Hf; left; reflexivity).
  apply Hk. change (KPath q) with (fst (KPath q, r')). apply in_map. congruence.
Qed.

Lemma removelast_firstn_pred {T} (p : list T) : removelast p = firstn (length p - 1) p.
Proof. rewrite Nat.sub_1_r. apply removelast_firstn_len. Qed.

Lemma length_removelast {T} (p : list T) : length (removelast p) = length p - 1.
Proof.
  rewrite removelast_firstn_pred, firstn_length. lia.
Qed.

Lemma removelast_skipn {T} n (p : list T) : n < length p -> removelast (skipn n p) = skipn n (removelast p).
Proof.
  intros H. rewrite !removelast_firstn_pred. rewrite skipn_length.
  rewrite firstn_skipn_comm. f_equal. f_equal. lia.
Qed.

Lemma np_cs c p : c_cs c = true -> np c p = p.
Proof. intros H. unfold np. rewrite H. reflexivity. Qed.

Lemma np_length c p : length (np c p) = length p.
Proof. unfold np. destruct (c_cs c); [reflexivity|apply map_length]. Qed.

Lemma np_eq_length c p q : np c p = np c q -> length p = length q.
Proof. intros E. rewrite <- (np_length c p), E. apply np_length. Qed.

Lemma np_app c a b : np c (a ++ b) = np c a ++ np c b.
Proof. unfold np. destruct (c_cs c); [reflexivity|apply map_app]. Qed.

Lemma np_firstn c n p : np c (firstn n p) = firstn n (np c p).
Proof. unfold np. destruct (c_cs c); [reflexivity|symmetry; apply firstn_map]. Qed.

Lemma np_skipn c n p : np c (skipn n p) = skipn n (np c p).
Proof. unfold np. destruct (c_cs c); [reflexivity|symmetry; apply skipn_map]. Qed.

Lemma np_nil_inv c p : np c p = [] -> p = [].
Proof. intros H. apply (f_equal (@length _)) in H. rewrite np_length in H. destruct p; [reflexivity|discriminate]. Qed.

Lemma np_nil c : np c [] = [].
Proof. unfold np. destruct (c_cs c); reflexivity. Qed.

Lemma np_removelast c p : np c (removelast p) = removelast (np c p).
Proof. rewrite !removelast_firstn_pred, np_firstn, np_length. reflexivity. Qed.

Lemma is_child_spec c parent p :
  is_child c parent p = true <-> p <> [] /\ np c (removelast p) = np c parent.
Proof.
  unfold is_child. destruct p as [|x p'].
  - split; [discriminate|intros [H _]; congruence].
  - rewrite path_eqb_eq. split; [intros H; split; [discriminate|exact H]|intros [_ H]; exact H].
Qed.

Lemma is_under_spec c old p :
  is_under c old p = true <-> length old < length p /\ np c (firstn (length old) p) = np c old.
Proof.
  unfold is_under. rewrite andb_true_iff, Nat.ltb_lt, path_eqb_eq. tauto.
Qed.

Definition at_under (c : cfg) (old p : path) : Prop :=
  length old <= length p /\ np c (firstn (length old) p) = np c old.

Lemma at_under_split c old p : at_under c old p ->
  np c p = np c old ++ np c (skipn (length old) p).
Proof.
  intros [_ H]. rewrite <- H, <- np_app, firstn_skipn. reflexivity.
Qed.

Lemma is_under_at_under c old p : is_under c old p = true -> at_under c old p.
Proof. intros H. apply is_under_spec in H as [H1 H2]. split; [lia|exact H2]. Qed.

Lemma at_under_refl c p : at_under c p p.
Proof. split; [lia|]. rewrite firstn_all. reflexivity. Qed.

Lemma at_under_cases c old p : at_under c old p -> np c p = np c old \/ is_under c old p = true.
Proof.
  intros [H1 H2]. destruct (Nat.eq_dec (length p) (length old)) as [E|E].
  - left. rewrite <- E, firstn_all in H2. exact H2.
  - right. apply is_under_spec. split; [lia|exact H2].
Qed.

Lemma is_under_irrefl c p : is_under c p p = false.
Proof. unfold is_under. rewrite Nat.ltb_irrefl. reflexivity. Qed.

Lemma np_new_path c old dest x :
  np c (new_path old dest x) = np c dest ++ np c (skipn (length old) (o_path x)).
Proof. unfold new_path. apply np_app. Qed.

(* P lies strictly below old iff its parent lies at or below old *)
Lemma under_iff_parent c old P Q : P <> [] -> np c Q = np c (removelast P) ->
  (is_under c old P = true <-> at_under c old Q).
Proof.
  intros HP HQ. rewrite is_under_spec. unfold at_under.
  assert (HL : length Q = length P - 1) by (rewrite (np_eq_length _ _ _ HQ); apply length_removelast).
  assert (length P > 0) by (destruct P; [congruence|simpl; lia]).
  assert (E : length old <= length Q -> np c (firstn (length old) Q) = np c (firstn (length old) P)).
  { intros Hle. rewrite np_firstn, HQ, <- np_firstn, firstn_removelast by lia. reflexivity. }
  split; intros [H1 H2].
  - split; [lia|]. rewrite E by lia. exact H2.
  - split; [lia|]. rewrite <- E by lia. exact H2.
Qed.

Lemma at_under_np c old P P' : np c P = np c P' -> at_under c old P -> at_under c old P'.
Proof.
  intros E [H1 H2].
  pose proof (np_eq_length _ _ _ E) as HL.
  split; [lia|]. rewrite np_firstn, <- E, <- np_firstn. exact H2.
Qed.

Lemma at_under_app c old rel : at_under c old (old ++ rel).
Proof. split; [rewrite app_length; lia|]. rewrite firstn_len_app. reflexivity. Qed.

Lemma proper_prefix_under c a b l : np c b = np c a ++ l -> np c a <> np c b -> is_under c a b = true.
Proof.
  intros E Hne. destruct l as [|x l]; [rewrite app_nil_r in E; congruence|]. apply is_under_spec. split.
  - apply (f_equal (@length _)) in E. rewrite app_length, !np_length in E. simpl in E. lia.
  - rewrite np_firstn, E, <- (np_length c a). apply firstn_len_app.
Qed.

Lemma no_common_descendant c old p sufx rel : np c old <> np c p -> is_under c old p = false -> is_under c p old = false ->
  np c p ++ sufx <> np c old ++ rel.
Proof.
  intros Hne H1 H2 E. apply app_eq_app in E as [l [[E _]|[E _]]].
  - rewrite (proper_prefix_under c old p l E Hne) in H1. discriminate.
  - rewrite (proper_prefix_under c p old l E (fun X => Hne (eq_sym X))) in H2. discriminate.
Qed.

Lemma new_path_sep c old dest (d : dict) q1 q2 x1 x2 :
  at_under c old (o_path x1) -> at_under c old (o_path x2) ->
  dget (KPath (np c (o_path x1))) d = Some q1 -> dget (KPath (np c (o_path x2))) d = Some q2 -> q1 <> q2 ->
  np c (new_path old dest x1) <> np c (new_path old dest x2).
Proof.
  intros A1 A2 K1 K2 Hne E. rewrite !np_new_path in E. apply app_inv_head in E.
  rewrite (at_under_split _ _ _ A1), E, <- (at_under_split _ _ _ A2), K2 in K1. congruence.
Qed.

Record S_inv (s : prov) : Prop := {
  s_sane : sane_cfg (p_cfg s) = true;
  s_nodup : NoDup (keys (p_dict s));
  s_path : forall q r, dget (KPath q) (p_dict s) = Some r ->
           exists x, nth_error (p_heap s) r = Some x /\ np (p_cfg s) (o_path x) = q;
  s_id : forall n r, dget (KId n) (p_dict s) = Some r ->
         c_oidpath (p_cfg s) = false /\ n = N.of_nat r /\ r < length (p_heap s);
  s_idkey : c_oidpath (p_cfg s) = false -> forall r, r < length (p_heap s) ->
            dget (KId (N.of_nat r)) (p_dict s) = Some r;
  s_oid : oid_inv s
}.

Record W_inv (s : prov) : Prop := {
  w_filed : forall r x, nth_error (p_heap s) r = Some x -> o_exists x = true ->
            dget (KPath (np (p_cfg s) (o_path x))) (p_dict s) = Some r;
  w_parent : forall r x, nth_error (p_heap s) r = Some x -> o_exists x = true -> o_path x <> [] ->
             exists r' y, dget (KPath (np (p_cfg s) (removelast (o_path x)))) (p_dict s) = Some r' /\
                          nth_error (p_heap s) r' = Some y /\ o_exists y = true /\ o_kind y = KDir;
  w_root : exists r0 o0, dget (KPath []) (p_dict s) = Some r0 /\ nth_error (p_heap s) r0 = Some o0 /\
                         o_exists o0 = true /\ o_kind o0 = KDir
}.

Definition INV (s : prov) : Prop := S_inv s /\ W_inv s.

(* what w_parent and w_root ask for *)
Definition live_dir (s : prov) (P : path) : Prop :=
  exists r y, dget (KPath P) (p_dict s) = Some r /\ nth_error (p_heap s) r = Some y /\
              o_exists y = true /\ o_kind y = KDir.

(* S_inv and W_inv read only the configuration, the heap and the dictionary *)
Definition same_core (s s' : prov) : Prop :=
  p_cfg s' = p_cfg s /\ p_heap s' = p_heap s /\ p_dict s' = p_dict s.

Lemma same_core_refl s : same_core s s.
Proof. repeat split. Qed.

Lemma same_core_emit s e : same_core s (emit s e).
Proof. repeat split. Qed.

Lemma same_core_cursor s c : same_core s (with_cursor s c).
Proof. repeat split. Qed.

Lemma S_same_core s s' : same_core s s' -> S_inv s -> S_inv s'.
Proof.
  intros [Hc [Hh Hd]] [Hsane Hnodup Hpath Hid Hidkey Hoid]. constructor; rewrite ?Hc, ?Hh, ?Hd; try assumption.
  unfold oid_inv. rewrite Hc, Hh. exact Hoid.
Qed.

Lemma W_same_core s s' : same_core s s' -> W_inv s -> W_inv s'.
Proof.
  intros [Hc [Hh Hd]] [Hfiled Hparent Hroot]. constructor; rewrite ?Hc, ?Hh, ?Hd; assumption.
Qed.

Lemma S_emit s e : S_inv s -> S_inv (emit s e).
Proof. exact (S_same_core _ _ (same_core_emit s e)). Qed.

Lemma W_emit s e : W_inv s -> W_inv (emit s e).
Proof. exact (W_same_core _ _ (same_core_emit s e)). Qed.

Lemma s_path_at s q r x : S_inv s -> dget (KPath q) (p_dict s) = Some r -> nth_error (p_heap s) r = Some x ->
  np (p_cfg s) (o_path x) = q.
Proof. intros HS Hd Hx. destruct (s_path s HS _ _ Hd) as [x' [Hx' Hq]]. congruence. Qed.

Lemma sane_cases c : sane_cfg c = true -> c_oidpath c = false \/ (c_oidpath c = true /\ c_cs c = true).
Proof. unfold sane_cfg. destruct (c_oidpath c), (c_cs c); simpl; intros H; auto; discriminate. Qed.

Lemma oid_filed s r x : S_inv s -> nth_error (p_heap s) r = Some x ->
  dget (KPath (np (p_cfg s) (o_path x))) (p_dict s) = Some r -> dget (o_oid x) (p_dict s) = Some r.
Proof.
  intros HS Hx Hf. rewrite (s_oid s HS r x Hx).
  destruct (sane_cases _ (s_sane s HS)) as [E|[E1 E2]].
  - rewrite E. apply (s_idkey s HS E). apply nth_error_Some. congruence.
  - rewrite E1. rewrite np_cs in Hf by exact E2. exact Hf.
Qed.

Lemma filed_inj s r1 r2 x1 x2 : W_inv s ->
  nth_error (p_heap s) r1 = Some x1 -> o_exists x1 = true ->
  nth_error (p_heap s) r2 = Some x2 -> o_exists x2 = true ->
  np (p_cfg s) (o_path x1) = np (p_cfg s) (o_path x2) -> r1 = r2.
Proof.
  intros HW H1 L1 H2 L2 E.
  pose proof (w_filed s HW _ _ H1 L1) as F1. pose proof (w_filed s HW _ _ H2 L2) as F2.
  rewrite E in F1. congruence.
Qed.

Lemma root_path s r0 o0 : S_inv s -> dget (KPath []) (p_dict s) = Some r0 ->
  nth_error (p_heap s) r0 = Some o0 -> o_path o0 = [].
Proof.
  intros HS Hd Hn. eapply np_nil_inv. exact (s_path_at s _ _ _ HS Hd Hn).
Qed.

Lemma store_nodup c d r o : NoDup (keys d) -> NoDup (keys (store c d r o)).
Proof.
  intros H. unfold store.
  destruct (dmem (o_oid o) (dset (KPath (np c (o_path o))) r d)); [|apply nodup_dset]; apply nodup_dset; exact H.
Qed.

(* the oid key is written only when absent (mock.py:55) *)
Lemma store_dget c d r o k :
  dget k (store c d r o) =
    if key_eqb k (KPath (np c (o_path o))) then Some r
    else if key_eqb k (o_oid o) then (match dget k d with Some r' => Some r' | None => Some r end)
    else dget k d.
Proof.
  unfold store. set (kp := KPath (np c (o_path o))). set (d1 := dset kp r d).
  assert (H1 : dget k d1 = if key_eqb k kp then Some r else dget k d) by apply dget_dset.
  destruct (key_eqb k kp) eqn:E1.
  - destruct (dmem (o_oid o) d1); [exact H1|]. rewrite dget_dset, H1. destruct (key_eqb k (o_oid o)); reflexivity.
  - destruct (key_eqb k (o_oid o)) eqn:E2.
    + apply key_eqb_eq in E2. subst k. unfold dmem. rewrite H1.
      destruct (dget (o_oid o) d); [exact H1|]. rewrite dget_dset, key_eqb_refl. reflexivity.
    + destruct (dmem (o_oid o) d1); [exact H1|]. rewrite dget_dset, E2. exact H1.
Qed.

Lemma store_dget_path c d r o q n : sane_cfg c = true ->
  o_oid o = (if c_oidpath c then KPath (o_path o) else KId n) ->
  dget (KPath q) (store c d r o) = if path_eqb q (np c (o_path o)) then Some r else dget (KPath q) d.
Proof.
  intros Hs Ho. rewrite store_dget. simpl.
  destruct (path_eqb q (np c (o_path o))) eqn:E1; [reflexivity|].
  rewrite Ho. destruct (sane_cases c Hs) as [X|[X1 X2]]; rewrite ?X, ?X1; simpl; [reflexivity|].
  rewrite (np_cs _ _ X2) in E1. rewrite E1. reflexivity.
Qed.

Lemma store_dget_id c d r o m n :
  o_oid o = (if c_oidpath c then KPath (o_path o) else KId n) ->
  dget (KId m) (store c d r o) =
    if c_oidpath c then dget (KId m) d
    else if N.eqb m n then (match dget (KId m) d with Some r' => Some r' | None => Some r end) else dget (KId m) d.
Proof.
  intros Ho. rewrite store_dget, Ho. destruct (c_oidpath c); reflexivity.
Qed.

Lemma unstore_spec c d o d1 : unstore c d o = Some d1 ->
  d1 = dremove (o_oid o) (dremove (KPath (np c (o_path o))) d).
Proof.
  unfold unstore. destruct (dmem (KPath (np c (o_path o))) d); [|discriminate].
  intros H. inversion H. reflexivity.
Qed.

Lemma S_hset s r o o' : S_inv s -> nth_error (p_heap s) r = Some o ->
  o_path o' = o_path o -> o_oid o' = o_oid o -> S_inv (with_heap s (hset (p_heap s) r o')).
Proof.
  intros [Hsane Hnodup Hpath Hid Hidkey Hoid] Ho Hp Hk. constructor; simpl; try assumption.
  - intros q r' Hd. destruct (Hpath q r' Hd) as [x [Hx Hq]].
    destruct (Nat.eq_dec r' r) as [->|Hne].
    + exists o'. split; [apply nth_hset_same; apply nth_error_Some; congruence|]. congruence.
    + exists x. split; [rewrite nth_hset_other by exact Hne; exact Hx|exact Hq].
  - intros n r' Hd. rewrite hset_length. apply Hid. exact Hd.
  - intros Hc r'. rewrite hset_length. apply Hidkey. exact Hc.
  - apply oid_inv_hset; [exact Hoid|]. rewrite Hp, Hk. exact (Hoid _ _ Ho).
Qed.

(* Cell r of the heap h is filed, by store(), into a dictionary d that has the structure for the other
   cells of h: what alloc, _rename_single_object and the initial state have in common. *)
Lemma S_store s h d r o :
  sane_cfg (p_cfg s) = true -> NoDup (keys d) -> nth_error h r = Some o -> oid_inv (with_heap s h) ->
  (forall q r', dget (KPath q) d = Some r' -> exists x, nth_error h r' = Some x /\ np (p_cfg s) (o_path x) = q) ->
  (forall n r', dget (KId n) d = Some r' -> c_oidpath (p_cfg s) = false /\ n = N.of_nat r' /\ r' < length h) ->
  (c_oidpath (p_cfg s) = false -> forall r', r' < length h -> r' <> r -> dget (KId (N.of_nat r')) d = Some r') ->
  S_inv (with_dict (with_heap s h) (store (p_cfg s) d r o)).
Proof.
  intros A B Hr F C D E. pose proof (F _ _ Hr) as Ho. simpl in Ho.
  assert (Hlen : r < length h) by (apply nth_error_Some; congruence).
  constructor; simpl; try assumption.
  - apply store_nodup. exact B.
  - intros q r' Hd. rewrite (store_dget_path _ _ _ _ _ _ A Ho) in Hd.
    destruct (path_eqb q (np (p_cfg s) (o_path o))) eqn:E1; [|exact (C q r' Hd)].
    apply path_eqb_eq in E1. inversion Hd; subst. eauto.
  - intros n r' Hd. rewrite (store_dget_id _ _ _ _ _ _ Ho) in Hd.
    destruct (c_oidpath (p_cfg s)) eqn:Hc; [destruct (D n r' Hd) as [X _]; discriminate|].
    destruct (N.eqb n (N.of_nat r)) eqn:E1; [|exact (D n r' Hd)].
    destruct (dget (KId n) d) as [r''|] eqn:G; [rewrite Hd in G; exact (D n r' G)|].
    apply N.eqb_eq in E1. inversion Hd; subst. auto.
  - intros Hc r' Hr'. rewrite (store_dget_id _ _ _ _ _ _ Ho), Hc.
    destruct (N.eqb (N.of_nat r') (N.of_nat r)) eqn:E1.
    + apply N.eqb_eq, Nat2N.inj in E1. subst r'.
      destruct (dget (KId (N.of_nat r)) d) as [r''|] eqn:G; [|reflexivity].
      destruct (D _ _ G) as [_ [X _]]. apply Nat2N.inj in X. congruence.
    + apply E; auto. intros ->. rewrite N.eqb_refl in E1. discriminate.
Qed.

Lemma S_alloc s p kd d : S_inv s ->
  let r := length (p_heap s) in
  let o := {| o_path := p; o_oid := if c_oidpath (p_cfg s) then KPath p else KId (N.of_nat r);
              o_kind := kd; o_data := d; o_exists := true |} in
  S_inv (with_dict (with_heap s (p_heap s ++ [o])) (store (p_cfg s) (p_dict s) r o)).
Proof.
  intros [Hsane Hnodup Hpath Hid Hidkey Hoid] r o. apply S_store; auto.
  - unfold r. rewrite nth_error_app2, Nat.sub_diag by lia. reflexivity.
  - apply oid_inv_app; [exact Hoid|reflexivity].
  - (* path keys of d *) intros q r' Hd. destruct (Hpath q r' Hd) as [x [Hx Hq]]. exists x. split; [|exact Hq].
    rewrite nth_error_app1; [exact Hx|]. apply nth_error_Some. congruence.
  - (* id keys of d *) intros n r' Hd. rewrite app_length. destruct (Hid n r' Hd) as [X [Y Z]]. repeat split; auto. lia.
  - (* id keys of the other cells *) intros Hc r' Hr' Hne. rewrite app_length in Hr'. simpl in Hr'. apply Hidkey; [exact Hc|unfold r in Hne; lia].
Qed.

Lemma S_place s r o d1 dest : S_inv s -> nth_error (p_heap s) r = Some o ->
  unstore (p_cfg s) (p_dict s) o = Some d1 ->
  let o' := set_place o dest (if c_oidpath (p_cfg s) then KPath dest else o_oid o) in
  S_inv (with_dict (with_heap s (hset (p_heap s) r o')) (store (p_cfg s) d1 r o')).
Proof.
  intros [Hsane Hnodup Hpath Hid Hidkey Hoid] Hr Hu o'. apply unstore_spec in Hu as ->.
  pose proof (Hoid _ _ Hr) as Hro.
  assert (Hlen : r < length (p_heap s)) by (apply nth_error_Some; congruence).
  apply S_store; auto.
  - apply nodup_dremove, nodup_dremove, Hnodup.
  - apply nth_hset_same, Hlen.
  - apply oid_inv_hset; [exact Hoid|]. simpl. destruct (c_oidpath (p_cfg s)); [reflexivity|exact Hro].
  - (* path keys of d *) intros q r' Hd. rewrite !dget_dremove in Hd.
    destruct (key_eqb (KPath q) (o_oid o)); [discriminate|].
    destruct (key_eqb (KPath q) (KPath (np (p_cfg s) (o_path o)))) eqn:E3; [discriminate|].
    destruct (Hpath q r' Hd) as [x [Hx Hq]]. exists x. split; [|exact Hq].
    rewrite nth_hset_other; [exact Hx|]. intros ->. assert (x = o) by congruence. subst x.
    rewrite Hq, key_eqb_refl in E3. discriminate.
  - (* id keys of d *) intros n r' Hd. rewrite hset_length. rewrite !dget_dremove in Hd.
    destruct (key_eqb (KId n) (o_oid o)); [discriminate|]. exact (Hid n r' Hd).
  - (* id keys of the other cells *) intros Hc r' Hr' Hne. rewrite hset_length in Hr'. rewrite !dget_dremove, Hro, Hc. simpl.
    destruct (N.eqb (N.of_nat r') (N.of_nat r)) eqn:E1; [|apply Hidkey; auto].
    apply N.eqb_eq, Nat2N.inj in E1. contradiction.
Qed.

Lemma S_step s o : S_inv s -> S_inv (fst (step s o)).
Proof.
  exact (P_step S_inv S_emit (* P_cursor *) (fun s c => S_same_core _ _ (same_core_cursor s c)) S_alloc
           (* P_exists *) (fun s r o b H Ho => S_hset s r o (set_exists o b) H Ho eq_refl eq_refl)
           (* P_data *) (fun s r o d H Ho => S_hset s r o (set_data o d) H Ho eq_refl eq_refl) S_place s o).
Qed.

Lemma S_delete s k : S_inv s -> S_inv (fst (delete s k)).
Proof. intros H. pose proof (S_step s (ODelete k) H) as G. simpl in G. rewrite fst_rmap in G. exact G. Qed.

Lemma S_rename s k p : S_inv s -> S_inv (fst (rename s k p)).
Proof. intros H. pose proof (S_step s (ORename k p) H) as G. simpl in G. rewrite fst_rmap in G. exact G. Qed.

Lemma S_move_all refs s old dest s' : S_inv s -> move_all s refs old dest = Some s' -> S_inv s'.
Proof. exact (P_move_all S_inv S_emit S_place refs s old dest s'). Qed.

Lemma S_init c : sane_cfg c = true -> S_inv (init c).
Proof.
  intros Hs.
  apply (S_store {| p_cfg := c; p_heap := []; p_dict := []; p_log := []; p_cursor := 0 |} _ [] 0); simpl; auto.
  - (* no repeated key *) constructor.
  - exact (oid_inv_init c).
  - (* path keys of d *) discriminate.
  - (* id keys of d *) discriminate.
  - (* id keys of the other cells *) intros _ r' Hr' Hne. lia.
Qed.

Lemma W_init c : sane_cfg c = true -> W_inv (init c).
Proof.
  intros Hs.
  set (root := {| o_path := []; o_oid := if c_oidpath c then KPath [] else KId 0%N;
                  o_kind := KDir; o_data := 0%N; o_exists := true |}).
  assert (Ho : o_oid root = if c_oidpath c then KPath (o_path root) else KId 0%N) by reflexivity.
  assert (Hd : dget (KPath []) (store c [] 0 root) = Some 0).
  { rewrite (store_dget_path _ _ _ _ _ _ Hs Ho). simpl. rewrite np_nil. reflexivity. }
  constructor; simpl; fold root.
  - intros r x Hx _. destruct r as [|r]; simpl in Hx; [|destruct r; discriminate].
    inversion Hx; subst x. simpl. rewrite np_nil. exact Hd.
  - intros r x Hx _ Hp. destruct r as [|r]; simpl in Hx; [|destruct r; discriminate].
    inversion Hx; subst x. simpl in Hp. congruence.
  - exists 0, root. auto.
Qed.

Definition no_live_child (s : prov) (P : path) : Prop :=
  forall q y, nth_error (p_heap s) q = Some y -> o_exists y = true -> o_path y <> [] ->
              np (p_cfg s) (removelast (o_path y)) = np (p_cfg s) P -> False.

(* what upload and delete do to cell r: replaced in place; it may die *)
Lemma W_hset s r o o' : S_inv s -> W_inv s -> nth_error (p_heap s) r = Some o ->
  o_path o' = o_path o -> o_kind o' = o_kind o ->
  (o_exists o' = true -> o_exists o = true) ->
  (o_exists o = true -> o_exists o' = false -> o_path o <> [] /\ no_live_child s (o_path o)) ->
  W_inv (with_heap s (hset (p_heap s) r o')).
Proof.
  intros HS [Hfiled Hparent Hroot] Ho Hp Hk Hlive Hdie.
  assert (Hlen : r < length (p_heap s)) by (apply nth_error_Some; congruence).
  assert (Bwd : forall q y', nth_error (hset (p_heap s) r o') q = Some y' -> o_exists y' = true ->
                exists y, nth_error (p_heap s) q = Some y /\ o_exists y = true /\ o_path y = o_path y').
  { intros q y' Hy Hl. apply nth_hset in Hy as [[-> ->]|Hy]; eauto. }
  assert (Dir : forall P, live_dir s P ->
                (P = np (p_cfg s) (o_path o) -> o_exists o = true -> o_exists o' = false -> False) ->
                live_dir (with_heap s (hset (p_heap s) r o')) P).
  { intros P [q [y [Hd [Hy [Hl Hk']]]]] HP. destruct (Nat.eq_dec q r) as [->|Hne].
    - assert (y = o) by congruence. subst y. exists r, o'. split; [exact Hd|].
      split; [apply nth_hset_same; exact Hlen|]. split; [|congruence].
      destruct (o_exists o') eqn:X; [reflexivity|]. destruct (HP (eq_sym (s_path_at s _ _ _ HS Hd Ho)) Hl eq_refl).
    - exists q, y. split; [exact Hd|]. split; [simpl; rewrite nth_hset_other by exact Hne; exact Hy|auto]. }
  constructor; simpl.
  - intros q y' Hy Hl. destruct (Bwd _ _ Hy Hl) as [y [H1 [H2 H3]]]. rewrite <- H3. apply (Hfiled q y); assumption.
  - intros q y' Hy Hl Hne. destruct (Bwd _ _ Hy Hl) as [y [H1 [H2 H3]]]. rewrite <- H3 in *.
    apply (Dir _ (Hparent q y H1 H2 Hne)). intros E Y X. exact (proj2 (Hdie Y X) q y H1 H2 Hne E).
  - apply (Dir _ Hroot). intros E Y X. symmetry in E. apply np_nil_inv in E. exact (proj1 (Hdie Y X) E).
Qed.

Lemma no_live_child_file s r o : W_inv s -> nth_error (p_heap s) r = Some o -> o_exists o = true ->
  o_kind o = KFile -> no_live_child s (o_path o).
Proof.
  intros HW Ho Hl Hk q y Hy Hly Hp Hq.
  destruct (w_parent s HW q y Hy Hly Hp) as [r' [z [G1 [G2 [G3 G4]]]]].
  pose proof (w_filed s HW r o Ho Hl) as F. rewrite Hq in G1. rewrite F in G1. inversion G1; subst r'.
  rewrite Ho in G2. inversion G2; subst z. congruence.
Qed.

Lemma live_in_fs_refs s q y : W_inv s -> nth_error (p_heap s) q = Some y -> o_exists y = true ->
  In q (fs_refs s).
Proof.
  intros HW Hy Hl. apply in_fs_refs. exists (np (p_cfg s) (o_path y)). apply dget_in. apply (w_filed s HW); assumption.
Qed.

Lemma no_live_child_empty s P : W_inv s -> children s P = [] -> no_live_child s P.
Proof.
  intros HW Hc q y Hy Hl Hp Hq.
  assert (G : In (info_of y) (children s P)); [|rewrite Hc in G; destruct G].
  unfold children. apply in_flat_map. exists q. split; [eapply live_in_fs_refs; eassumption|].
  rewrite Hy, Hl, (proj2 (is_child_spec _ _ _) (conj Hp Hq)). simpl. auto.
Qed.

Lemma get_live_oid s r o : S_inv s -> W_inv s -> nth_error (p_heap s) r = Some o -> o_exists o = true ->
  get_live s (o_oid o) = Some (r, o).
Proof.
  intros HS HW Ho Hl. apply get_live_spec. split; [|auto].
  apply oid_filed; auto. apply (w_filed s HW); assumption.
Qed.

Lemma get_live_path s P q y : S_inv s -> W_inv s ->
  get_live s (pkey s P) = Some (q, y) <->
  nth_error (p_heap s) q = Some y /\ o_exists y = true /\ np (p_cfg s) (o_path y) = np (p_cfg s) P.
Proof.
  intros HS HW. unfold pkey. rewrite get_live_spec. split.
  - intros [Q1 [Q2 Q3]]. pose proof (s_path_at s _ _ _ HS Q1 Q2). auto.
  - intros [Q2 [Q3 E]]. rewrite <- E. pose proof (w_filed s HW q y Q2 Q3). auto.
Qed.

Lemma W_delete s k : S_inv s -> W_inv s -> guard_op s (ODelete k) = true -> W_inv (fst (delete s k)).
Proof.
  intros HS HW Hg. unfold delete. simpl in Hg.
  destruct (get_live s k) as [[r o]|] eqn:E; [|exact HW].
  apply get_live_spec in E as [E1 [E2 E3]].
  assert (Hp : o_path o <> []) by (destruct (o_path o); [discriminate|congruence]).
  destruct (o_kind o) eqn:K.
  - simpl. apply W_emit. apply (W_hset s r o); auto.
    intros _ _. split; [exact Hp|]. eapply no_live_child_file; eassumption.
  - destruct (listdir s (o_oid o)) as [[|i l]|e] eqn:L.
    + simpl. apply W_emit. apply (W_hset s r o); auto.
      intros _ _. split; [exact Hp|]. apply no_live_child_empty; [exact HW|].
      unfold listdir in L. rewrite (get_live_oid s r o HS HW E2 E3), K in L. inversion L. reflexivity.
    + exact HW.
    + exact HW.
Qed.

Lemma W_upload s k d : S_inv s -> W_inv s -> W_inv (fst (upload s k d)).
Proof.
  intros HS HW. unfold upload. destruct (get_live s k) as [[r o]|] eqn:E; [|exact HW].
  apply get_live_spec in E as [E1 [E2 E3]].
  destruct (o_kind o); simpl; [|exact HW].
  apply W_emit. apply (W_hset s r o (set_data o d) HS HW E2); [reflexivity|reflexivity|auto|simpl; congruence].
Qed.

Lemma live_dir_info s P : live_dir s (np (p_cfg s) P) -> exists i, info_path s P = Some i /\ i_kind i = KDir.
Proof.
  intros [r [y [G1 [G2 [G3 G4]]]]]. unfold info_path, info_oid.
  rewrite (proj2 (get_live_spec s (pkey s P) r y) (conj G1 (conj G2 G3))). eauto.
Qed.

Lemma info_path_none s p : info_path s p = None -> get_live s (pkey s p) = None.
Proof. unfold info_path, info_oid. destruct (get_live s (pkey s p)) as [[r o]|]; [discriminate|reflexivity]. Qed.

Lemma verify_parent_ok s p : W_inv s -> verify_parent s p = None -> live_dir s (np (p_cfg s) (removelast p)).
Proof.
  intros HW Hv. destruct p as [|a [|b t]].
  - simpl. rewrite np_nil. exact (w_root s HW).
  - simpl. rewrite np_nil. exact (w_root s HW).
  - unfold verify_parent in Hv. unfold info_path, info_oid in Hv.
    destruct (get_live s (pkey s (removelast (a :: b :: t)))) as [[r' y]|] eqn:E; [|discriminate].
    apply get_live_spec in E as [E1 [E2 E3]]. simpl in Hv.
    destruct (o_kind y) eqn:K; [discriminate|]. exists r', y. auto.
Qed.

Lemma W_alloc s p kd d : S_inv s -> W_inv s -> info_path s p = None ->
  verify_parent s p = None -> W_inv (fst (alloc s p kd d)).
Proof.
  intros HS HW Hfree Hv. unfold alloc. simpl.
  apply info_path_none in Hfree.
  apply W_emit.
  set (r := length (p_heap s)).
  set (o := {| o_path := p; o_oid := if c_oidpath (p_cfg s) then KPath p else KId (N.of_nat r);
               o_kind := kd; o_data := d; o_exists := true |}).
  assert (Ho : o_oid o = if c_oidpath (p_cfg s) then KPath (o_path o) else KId (N.of_nat r)) by reflexivity.
  pose proof (fun q => store_dget_path (p_cfg s) (p_dict s) r o q _ (s_sane s HS) Ho) as Hnew.
  (* a live cell of s keeps its path key: no live object was filed under np p *)
  assert (Hkeep : forall q y, nth_error (p_heap s) q = Some y -> o_exists y = true ->
                  dget (KPath (np (p_cfg s) (o_path y))) (store (p_cfg s) (p_dict s) r o) = Some q).
  { intros q y Hy Hl. rewrite Hnew.
    destruct (path_eqb (np (p_cfg s) (o_path y)) (np (p_cfg s) (o_path o))) eqn:E1; [|exact (w_filed s HW q y Hy Hl)].
    apply path_eqb_eq in E1. rewrite (proj2 (get_live_path s p q y HS HW) (conj Hy (conj Hl E1))) in Hfree. discriminate. }
  assert (Dir : forall P, live_dir s P ->
                live_dir (with_dict (with_heap s (p_heap s ++ [o])) (store (p_cfg s) (p_dict s) r o)) P).
  { intros P [q [y [Hd [Hy [Hl Hk]]]]]. exists q, y. rewrite <- (s_path_at s _ _ _ HS Hd Hy). simpl.
    rewrite nth_error_app1 by (apply nth_error_Some; congruence). auto. }
  constructor; simpl; fold r; fold o.
  - intros q y Hy Hl. apply nth_error_snoc_inv in Hy as [H1|[-> ->]]; [apply Hkeep; assumption|].
    rewrite Hnew. simpl. rewrite path_eqb_refl. reflexivity.
  - intros q y Hy Hl Hne. apply nth_error_snoc_inv in Hy as [H1|[-> ->]].
    + exact (Dir _ (w_parent s HW q y H1 Hl Hne)).
    + exact (Dir _ (verify_parent_ok s p HW Hv)).
  - exact (Dir _ (w_root s HW)).
Qed.

Lemma W_create s p d : S_inv s -> W_inv s -> W_inv (fst (create s p d)).
Proof.
  intros HS HW. destruct (create_cases s p d) as [[e [-> _]]|(I & V & ->)]; [exact HW|].
  exact (W_alloc s p KFile d HS HW I V).
Qed.

Lemma W_mkdir s p : S_inv s -> W_inv s -> W_inv (fst (mkdir s p)).
Proof.
  intros HS HW. destruct (mkdir_cases s p) as [[e [-> _]]|[(i & _ & _ & ->)|(I & V & ->)]]; [exact HW|exact HW|].
  exact (W_alloc s p KDir 0%N HS HW I V).
Qed.

Lemma S_fs_refs_nodup s : S_inv s -> NoDup (fs_refs s).
Proof.
  intros HS.
  apply (fs_refs_nodup s (p_dict s)
           (fun r => match nth_error (p_heap s) r with Some x => np (p_cfg s) (o_path x) | None => [] end)).
  - exact (s_nodup s HS).
  - intros q r Hin. apply (in_dget _ _ _ (s_nodup s HS)) in Hin.
    destruct (s_path s HS _ _ Hin) as [x [Hx Hq]]. rewrite Hx. congruence.
Qed.

Lemma INV_wfb s : INV s -> wfb s = true.
Proof.
  intros [HS HW]. destruct (w_root s HW) as [r0 [o0 [G1 [G2 [G3 G4]]]]].
  unfold wfb. rewrite !andb_true_iff. split; [split|].
  - assert (G : get_live s (pkey s []) = Some (r0, o0)).
    { apply get_live_spec. unfold pkey. rewrite np_nil. auto. }
    rewrite G. rewrite (root_path s r0 o0 HS G1 G2). reflexivity.
  - apply forallb_forall. intros r Hr. apply in_seq in Hr.
    destruct (nth_error (p_heap s) r) as [x|] eqn:Hx; [|apply nth_error_None in Hx; lia].
    destruct (o_exists x) eqn:Hl; [|reflexivity].
    pose proof (w_filed s HW r x Hx Hl) as F.
    unfold live_ok. rewrite !andb_true_iff. repeat split.
    + unfold own_key_ok. rewrite Hx, F. apply Nat.eqb_refl.
    + rewrite (oid_filed s r x HS Hx F). apply Nat.eqb_refl.
    + rewrite (s_oid s HS r x Hx). destruct (c_oidpath (p_cfg s)); apply key_eqb_refl.
    + destruct (o_path x) as [|a t] eqn:Hp.
      * rewrite np_nil in F. rewrite F in G1. inversion G1; subst r0. rewrite Hx in G2. inversion G2; subst. rewrite G4. reflexivity.
      * assert (Hne : o_path x <> []) by congruence.
        destruct (live_dir_info s _ (w_parent s HW r x Hx Hl Hne)) as [i [Hi Hk]].
        rewrite Hp in Hi. rewrite Hi, Hk. reflexivity.
  - apply (nodupb_NoDup Nat.eqb Nat.eqb_eq). apply NoDup_filter. apply S_fs_refs_nodup. exact HS.
Qed.

Lemma live_oid_inj s q1 q2 x1 x2 : S_inv s -> W_inv s ->
  nth_error (p_heap s) q1 = Some x1 -> o_exists x1 = true ->
  nth_error (p_heap s) q2 = Some x2 -> o_exists x2 = true -> o_oid x1 = o_oid x2 -> q1 = q2.
Proof.
  intros HS HW H1 L1 H2 L2 E.
  pose proof (get_live_oid s q1 x1 HS HW H1 L1) as G1. pose proof (get_live_oid s q2 x2 HS HW H2 L2) as G2.
  rewrite E in G1. congruence.
Qed.

Lemma children_oids_nodup s P : S_inv s -> W_inv s -> NoDup (map i_oid (children s P)).
Proof.
  intros HS HW. unfold children. generalize (S_fs_refs_nodup s HS). generalize (fs_refs s) as refs.
  induction refs as [|q t IH]; intros Hn; simpl; [constructor|].
  inversion Hn as [|? ? Hq Ht]; subst. rewrite map_app. specialize (IH Ht).
  destruct (nth_error (p_heap s) q) as [x|] eqn:Hx; [|exact IH].
  destruct (o_exists x && is_child (p_cfg s) P (o_path x)) eqn:B; [|exact IH].
  apply andb_true_iff in B as [B1 B2]. simpl. constructor; [|exact IH].
  intros Hin. apply in_map_iff in Hin as [i [Hi Hin]]. apply in_flat_map in Hin as [q' [Hq' Hin]].
  destruct (nth_error (p_heap s) q') as [x'|] eqn:Hx'; [|destruct Hin].
  destruct (o_exists x' && is_child (p_cfg s) P (o_path x')) eqn:B'; [|destruct Hin].
  apply andb_true_iff in B' as [B1' B2']. destruct Hin as [<-|[]]. simpl in Hi.
  assert (q' = q) by (eapply live_oid_inj; eassumption). subst q'. contradiction.
Qed.
