(* StatePathProofs.v — SyncState._change_path by name (path_main, exec_path_eq), its three outcomes under IdxJ
   (path_main_cases: a re-keying of the entry to its new path), and: path assignment to an entry that is not a folder keeps IdxJ.  Folders: StateFolderProofs.v. *)
From Coq Require Import NArith List Bool Arith Lia.
From CS Require Import Sx Str PathModel PathLaws StateModel StateProofs.
Import ListNotations.

(* SyncState._change_path: the CPath branch of StateModel.exec between the assertion and the dirty mark, word for word
   (exec_path_eq), with [rec] for the nested intercepted writes *)
Definition path_main (E : env) (rec : cmd -> state -> res state) (e : eid) (sd : bool) (v : option str)
           (x : sidest) (s : state) : res state :=
  if ostr_eqb (s_path x) v then Ok s else
  let prior := s_path x in
  let sa := match prior with
            | Some pp => if tstr prior then slot_pop s sd pp (s_oid x) else s
            | None => s
            end in
  match v, s_oid x with
  | Some p, Some o =>
    if tstr v then
      sb <- match slot_get sa sd p o with
            | Some e' => if Nat.eqb e' e then Err EAssert
                         else Ok (raw_side sa e' sd (fun y => w_path y None))
            | None => Ok sa
            end ;;
      let sc := raw_side (slot_set sb sd p o e) e sd (fun y => w_path y (Some p)) in
      sd_ <- (if otype_eqb (s_otype x) Dir && negb (ostr_eqb prior v) then
                match prior with
                | None => Ok sc
                | Some pp =>
                  y <- get_all_ordered sc ;;
                  let '(order, s0) := y in
                  kids_loop E rec e sd pp p order s0
                end
              else Ok sc) ;;
      rec (CPrio e 0%N) sd_
    else Ok sa
  | _, _ => Ok sa
  end.
Lemma exec_path_eq E f fin e sd v s :
  exec E (S f) (CPath fin e sd v) s =
  (en <- get_ent s e ;;
   let x := gs en sd in
   if tstr v && negb (tstr (s_oid x)) then Err EAssert else
   s1 <- path_main E (exec E f) e sd v x s ;;
   let s2 := dirty_add s1 e in
   Ok (if fin then raw_side s2 e sd (fun y => w_path y v) else s2)).
Proof. reflexivity. Qed.

(* updated(side, "path", v): the assertion, _change_path, the dirty mark and (intercepted setter only) the field write *)
Lemma exec_path_inv E f fin e sd v s s' en :
  exec E (S f) (CPath fin e sd v) s = Ok s' -> get_ent s e = Ok en ->
  (tstr v && negb (tstr (s_oid (gs en sd))))%bool = false /\
  exists s1, path_main E (exec E f) e sd v (gs en sd) s = Ok s1 /\
    s' = if fin then dirty_add (raw_side s1 e sd (fun y => w_path y v)) e else dirty_add s1 e.
Proof.
  intros H Hen. rewrite exec_path_eq, Hen in H. cbn [bind] in H. cbv zeta in H.
  destruct (tstr v && negb (tstr (s_oid (gs en sd))))%bool; [discriminate|]. split; [reflexivity|].
  destruct (path_main E (exec E f) e sd v (gs en sd) s) as [s1|]; cbn [bind] in H; [|discriminate].
  injection H as <-. exists s1. split; [reflexivity|]. destruct fin; [apply raw_side_dirty_add|reflexivity].
Qed.

Lemma raw_path_ents s t e sd w en :
  ents t = ents s -> nth_error (ents s) e = Some en ->
  (forall x sd', oid_of (raw_side t e sd (fun y => w_path y w)) x sd' = oid_of s x sd') /\
  (forall x sd', path_of (raw_side t e sd (fun y => w_path y w)) x sd' =
                 if at2 x e sd' sd then w else path_of s x sd').
Proof.
  intros Ht Hen. split; intros x sd'.
  - rewrite oid_of_raw_keep by reflexivity. unfold oid_of. rewrite Ht. reflexivity.
  - rewrite path_of_raw_side, Ht, Hen. unfold path_of. rewrite Ht. reflexivity.
Qed.

Lemma raw_path_rekey s t e sd w en :
  IdxJ s -> ents t = ents s -> nth_error (ents s) e = Some en ->
  (forall sd' k, al_get k (oids t sd') = al_get k (oids s sd')) ->
  (forall sd' p k, slot_get t sd' p k = o_slot (rekey (obs_of s) e sd (oid_of s e sd) w) sd' p k) ->
  oeq (obs_of (raw_side t e sd (fun y => w_path y w))) (rekey (obs_of s) e sd (oid_of s e sd) w).
Proof.
  intros HJ Ht Hen HO HP. destruct (raw_path_ents s t e sd w en Ht Hen) as [Ho Hp].
  split; [|split; [|split]]; cbn [obs_of rekey o_oid o_path o_at].
  - intros x sd'. rewrite Ho. destruct (at2 x e sd' sd) eqn:Hx; [apply at2_true in Hx as [-> ->]|]; reflexivity.
  - exact Hp.
  - (* the entry is found under the id it keeps *)
    intros sd' k. rewrite oids_raw_side, HO.
    destruct (Bool.eqb sd' sd && ostr_eqb (Some k) (oid_of s e sd))%bool eqn:Ek; [|reflexivity].
    apply andb_prop in Ek as [Es Ek]. apply Bool.eqb_prop in Es. apply ostr_eqb_eq in Ek. subst sd'.
    exact (proj1 (proj1 HJ _ _ _ (eq_sym Ek))).
  - intros sd' p k. cbn [obs_of o_slot]. rewrite slot_get_raw_side. apply HP.
Qed.

(* _change_path under the invariant: nothing to do; or the entry leaves the path table; or it is re-filed
   under p (state sc), after which the children and the priority follow *)
Lemma path_main_cases E rec e sd v s s1 en :
  IdxJ s -> nth_error (ents s) e = Some en -> (tstr v && negb (tstr (s_oid (gs en sd))))%bool = false ->
  path_main E rec e sd v (gs en sd) s = Ok s1 ->
  (s_path (gs en sd) = v /\ s1 = s) \/
  (tstr v = false /\ ents s1 = ents s /\
   oeq (obs_of (raw_side s1 e sd (fun y => w_path y v))) (rekey (obs_of s) e sd (oid_of s e sd) v)) \/
  exists p sc, v = Some p /\ p <> [] /\ oeq (obs_of sc) (rekey (obs_of s) e sd (oid_of s e sd) (Some p)) /\
    (sd_ <- (if otype_eqb (s_otype (gs en sd)) Dir then
               match s_path (gs en sd) with
               | None => Ok sc
               | Some pp => y <- get_all_ordered sc ;; let '(order, s0) := y in kids_loop E rec e sd pp p order s0
               end
             else Ok sc) ;;
     rec (CPrio e 0%N) sd_) = Ok s1.
Proof.
  intros HJ Hen Eas Em.
  pose proof (oid_of_ent _ _ _ sd Hen) as Hoe. pose proof (path_of_ent _ _ _ sd Hen) as Hpe.
  unfold path_main in Em.
  destruct (ostr_eqb (s_path (gs en sd)) v) eqn:Eeq.
  { injection Em as <-. apply ostr_eqb_eq in Eeq. left. split; [exact Eeq|reflexivity]. }
  right. rewrite andb_true_r in Em.
  set (prior := s_path (gs en sd)) in *.
  set (sa := match prior with
             | Some pp => if tstr prior then slot_pop s sd pp (s_oid (gs en sd)) else s
             | None => s end) in *.
  assert (Hne: prior <> v) by (intros Hc; apply ostr_eqb_eq in Hc; congruence).
  assert (Hsa_o: forall sd' k, al_get k (oids sa sd') = al_get k (oids s sd')).
  { intros. unfold sa. destruct prior as [pp|]; [destruct (tstr (Some pp)); [rewrite oids_slot_pop|]|]; reflexivity. }
  assert (Hsa_e: ents sa = ents s).
  { unfold sa. destruct prior as [pp|]; [destruct (tstr (Some pp)); [apply ents_slot_pop|]|]; reflexivity. }
  assert (Hsa_p: forall sd' p' o', slot_get sa sd' p' o' =
            if Bool.eqb sd' sd && tstr prior && ostr_eqb (Some p') prior && ostr_eqb (Some o') (s_oid (gs en sd)) then None
            else slot_get s sd' p' o').
  { intros sd' p' o'. unfold sa. destruct prior as [pp|]; [|cbn [tstr]; rewrite andb_false_r; reflexivity].
    destruct (tstr (Some pp)); [rewrite slot_pop_get_opt, andb_true_r; reflexivity|rewrite andb_false_r; reflexivity]. }
  destruct (tstr v) eqn:Ev.
  2:{ left. assert (s1 = sa); [|subst s1].
      { destruct v as [p|], (s_oid (gs en sd)); injection Em as <-; reflexivity. }
      split; [reflexivity|]. split; [exact Hsa_e|]. apply (raw_path_rekey s sa e sd v en HJ Hsa_e Hen Hsa_o).
      intros sd' p' o'. cbn [obs_of rekey o_oid o_path o_slot]. rewrite Ev, andb_false_r, Hpe, Hoe. apply Hsa_p. }
  right. destruct v as [p|]; [|discriminate].
  cbn [andb] in Eas. apply negb_false_iff in Eas.
  destruct (s_oid (gs en sd)) as [o|] eqn:Eo; [|discriminate].
  cbv beta iota in Em.
  assert (Hnone: slot_get sa sd p o = None).
  { destruct (slot_get sa sd p o) as [e'|] eqn:Es; [|reflexivity]. exfalso.
    rewrite Hsa_p in Es.
    destruct (Bool.eqb sd sd && tstr prior && ostr_eqb (Some p) prior && ostr_eqb (Some o) (Some o))%bool; [discriminate|].
    destruct HJ as [Hf [_ Hsp]]. destruct (Hsp _ _ _ _ Es) as [Ha [Hb _]].
    destruct (Hf _ _ _ Ha) as [Hc _]. destruct (Hf _ _ _ Hoe) as [Hd _]. assert (e' = e) by congruence. subst e'.
    apply Hne. rewrite <- Hpe, Hb. reflexivity. }
  rewrite Hnone in Em. cbn [bind] in Em.
  exists p, (raw_side (slot_set sa sd p o e) e sd (fun y => w_path y (Some p))).
  assert (Hpn: p <> []) by (destruct p; discriminate).
  split; [reflexivity|]. split; [exact Hpn|]. split; [|exact Em].
  apply (raw_path_rekey s (slot_set sa sd p o e) e sd (Some p) en HJ); [rewrite ents_slot_set; exact Hsa_e|exact Hen| |].
  - intros sd' k. rewrite oids_slot_set. apply Hsa_o.
  - intros sd' p' o'. cbn [obs_of rekey o_oid o_path o_slot]. rewrite slot_get_slot_set, Ev, andb_true_r, Hpe, Hoe. cbn [ostr_eqb].
    destruct (Bool.eqb sd' sd && str_eqb p' p && str_eqb o' o)%bool; [reflexivity|apply Hsa_p].
Qed.

(* ent[side].path = v for an entry that is not a folder (no children to re-file) *)
Lemma set_path_file_pres E s e sd v s' en :
  IdxJ s -> get_ent s e = Ok en -> s_otype (gs en sd) <> Dir -> set_path E s e sd v = Ok s' -> IdxJ s'.
Proof.
  intros HJ Hen Hot H. unfold set_path, run_cmd in H. destruct (fuel_of s) as [|f]; [discriminate|].
  destruct (exec_path_inv _ _ _ _ _ _ _ _ _ H Hen) as [Eas [s1 [Em ->]]]. apply get_ent_ok in Hen.
  (* when s1 satisfies the invariant and has the path already, the last two writes change nothing it reads *)
  assert (Hfin: IdxJ s1 -> path_of s1 e sd = v -> IdxJ (dirty_add (raw_side s1 e sd (fun y => w_path y v)) e)).
  { intros HJ1 Hp. apply (IdxJ_view s1); [|exact HJ1]. apply (iview_raw_path_same _ _ _ _ Hp). }
  destruct (path_main_cases _ _ _ _ _ _ _ _ HJ Hen Eas Em)
    as [[Hsame ->]|[[_ [_ Hq]]|(p & sc & -> & _ & Hq & Em')]].
  - apply Hfin; [exact HJ|]. rewrite (path_of_ent _ _ _ sd Hen). exact Hsame.
  - exact (proj1 (refiled _ _ _ _ _ Hq) HJ).
  - destruct (refiled _ _ _ _ _ Hq) as [HJc [_ Hpsc]]. specialize (HJc HJ).
    assert (Em2: exec E f (CPrio e 0%N) sc = Ok s1) by (destruct (s_otype (gs en sd)); [contradiction| |]; exact Em').
    apply exec_flag_view in Em2 as Hv; [|reflexivity]. apply Hfin.
    + exact (IdxJ_view sc s1 Hv HJc).
    + apply iview_ext in Hv as [_ [Hp _]]. rewrite Hp, Hpsc, at2_refl. reflexivity.
Qed.
