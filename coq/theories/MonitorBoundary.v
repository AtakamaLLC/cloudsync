(* MonitorBoundary.v — C12, moves across the root boundary, for EVERY accepted one-sided trace.
   In a one-sided run (origin cfg = Some s0) no engine action changes the origin side at all:
   the ORIGIN guard keeps the view below the root, the OUTSIDE guard keeps everything else, and the
   two parts determine the tree.  Hence the origin tree is the initial tree with the user's ABSOLUTE
   operations applied (renames with one end outside the root included), and at a quiet report without
   conflicted names the peer's view is the root view of that tree: a move out of the root is seen by
   the peer as a deletion, a move into the root as a creation of the moved subtree. *)
From Coq Require Import NArith List Bool Permutation.
From CS Require Import Sx TreeModel Monitor MonitorProofs TreePaths TreeLookup TreeSem TreeCanon TreeProofs.
Import ListNotations.

Lemma same_tree_nodup a b : a ~~ b -> NoDup (map fst a) -> NoDup (map fst b).
Proof.
  intros H Hn. eapply Permutation_NoDup; [|exact Hn]. apply Permutation_map. apply same_tree_perm. exact H.
Qed.

Lemma same_tree_to_teq a b : NoDup (map fst a) -> a ~~ b -> teq a b.
Proof. intros Hn H. exact (perm_teq a b Hn (same_tree_perm a b H)). Qed.

Lemma same_tree_wf a b : wf a -> a ~~ b -> wf b.
Proof.
  intros [Hn Hc] H. split; [eapply same_tree_nodup; eassumption|].
  apply closedL_ext with (L := lookup a); [|exact Hc].
  apply same_tree_to_teq; assumption.
Qed.

Lemma same_tree_lift (F : tree -> tree) :
  (forall t, wf t -> wf (F t)) -> (forall a b, wf a -> wf b -> teq a b -> teq (F a) (F b)) ->
  forall a b, wf a -> a ~~ b -> F a ~~ F b.
Proof.
  intros HF HT a b Hw H. pose proof (same_tree_wf a b Hw H) as Hwb.
  apply same_tree_teq; try (apply HF; assumption).
  apply HT; try assumption. apply same_tree_to_teq; [exact (proj1 Hw)|exact H].
Qed.

Lemma apply_ops_same_tree os a b : wf a -> a ~~ b -> apply_ops a os ~~ apply_ops b os.
Proof.
  apply (same_tree_lift (fun t => apply_ops t os)); [apply wf_apply_ops|].
  intros x y [_ Hx] [_ Hy]. apply apply_ops_teq_closed; assumption.
Qed.

Lemma view_same_tree root a b : wf a -> a ~~ b -> view root a ~~ view root b.
Proof.
  apply (same_tree_lift (view root)); [apply wf_view|].
  intros x y _ _ H r. rewrite !lookup_view. destruct r; [reflexivity|apply H].
Qed.

Lemma filter_split {A} (f : A -> bool) l :
  Permutation l (filter f l ++ filter (fun x => negb (f x)) l).
Proof.
  induction l as [|x l IH]; cbn; [constructor|].
  destruct (f x); cbn; [constructor|apply Permutation_cons_app]; exact IH.
Qed.

Theorem tree_from_parts root a b :
  NoDup (map fst a) -> view root a ~~ view root b -> outside root a ~~ outside root b -> a ~~ b.
Proof.
  intros Hn Hv Ho. unfold same_tree. apply tree_eqb_eq, canon_perm_eq; [|exact Hn].
  eapply Permutation_trans; [apply (filter_split (fun e => strict_prefix root (fst e)))|].
  eapply Permutation_trans; [|apply Permutation_sym, (filter_split (fun e => strict_prefix root (fst e)))].
  apply Permutation_app; [|exact (same_tree_perm _ _ Ho)].
  rewrite <- !view_unshift. apply Permutation_map, same_tree_perm, Hv.
Qed.

Definition side_tree (s : side) (l r : tree) : tree := if s then r else l.
Definition obs_tree (x : obs) (s : side) : tree := if s then o_R x else o_L x.

(* the ABSOLUTE user operations on side s0 of a trace, in trace order *)
Fixpoint abs_user_ops (s0 : side) (tr : list obs) : list op :=
  match tr with
  | [] => []
  | x :: r => match o_ev x with
              | EUser s o => if side_eqb s s0 then o :: abs_user_ops s0 r else abs_user_ops s0 r
              | _ => abs_user_ops s0 r
              end
  end.

Lemma abs_user_ops_app s0 a b : abs_user_ops s0 (a ++ b) = abs_user_ops s0 a ++ abs_user_ops s0 b.
Proof.
  induction a as [|x a IH]; simpl; [reflexivity|].
  destruct (o_ev x) as [s o|s ts| |]; try exact IH.
  destruct (side_eqb s s0); [simpl; rewrite IH; reflexivity|exact IH].
Qed.

(* what one observation may do to the origin side: only a user operation on it changes it *)
Definition origin_after (s0 : side) (t : tree) (e : ev) : tree :=
  match e with
  | EUser s o => if side_eqb s s0 then apply_op t o else t
  | _ => t
  end.

Lemma apply_ops_step s0 t x r :
  apply_ops t (abs_user_ops s0 (x :: r)) = apply_ops (origin_after s0 t (o_ev x)) (abs_user_ops s0 r).
Proof.
  simpl. destruct (o_ev x) as [s o|s ts| |]; try reflexivity.
  simpl. destruct (side_eqb s s0); reflexivity.
Qed.

Lemma step_origin cfg s0 m x m1 :
  origin cfg = Some s0 -> wf (tree_of m s0) -> step_ok cfg m x m1 ->
  origin_after s0 (tree_of m s0) (o_ev x) ~~ tree_of m1 s0.
Proof.
  intros Ho Hw [_ Hs]. destruct (o_ev x) as [s o|s ts| |]; cbn [origin_after].
  - destruct Hs as (Ht & Hother & _). destruct s, s0; assumption.
  - destruct Hs as (_ & HoL & HoR & Hother & Hor & _).
    destruct s, s0; try exact Hother;
      (eapply tree_from_parts; [exact (proj1 Hw)|exact (Hor Ho)|assumption]).
  - destruct Hs as (HL & HR & _). destruct s0; assumption.
  - destruct Hs as (HL & HR & _). destruct s0; assumption.
Qed.

Lemma wf_origin_after s0 t e : wf t -> wf (origin_after s0 t e).
Proof.
  intros H. destruct e as [s o|s ts| |]; simpl; try exact H.
  destruct (side_eqb s s0); [apply wf_apply_op; exact H|exact H].
Qed.

Lemma origin_tree_run cfg s0 :
  origin cfg = Some s0 ->
  forall m tr m', run_of cfg m tr m' -> wf (tree_of m s0) ->
    apply_ops (tree_of m s0) (abs_user_ops s0 tr) ~~ tree_of m' s0 /\ wf (tree_of m' s0).
Proof.
  intros Ho m tr m' Hrun. induction Hrun as [m|m x m1 r m2 Hs Hr IH]; intros Hw.
  - split; [apply same_tree_refl|exact Hw].
  - pose proof (step_origin cfg s0 m x m1 Ho Hw Hs) as H1.
    pose proof (wf_origin_after s0 _ (o_ev x) Hw) as Hw1.
    pose proof (same_tree_wf _ _ Hw1 H1) as Hw2.
    destruct (IH Hw2) as [IH1 IH2]. split; [|exact IH2].
    rewrite apply_ops_step. eapply same_tree_trans; [|exact IH1].
    apply apply_ops_same_tree; assumption.
Qed.

Lemma tree_of_init cfg l r s : tree_of (init_state cfg l r) s = side_tree s l r.
Proof. destruct s; reflexivity. Qed.

(* the origin side's tree is the user history: after any prefix of an accepted one-sided run the
   observed tree of the origin side is the initial tree with the user's absolute operations applied *)
Theorem origin_tree_is_history cfg l r s0 :
  origin cfg = Some s0 -> wf (side_tree s0 l r) ->
  forall before ma, run_of cfg (init_state cfg l r) before ma ->
    tree_of ma s0 ~~ apply_ops (side_tree s0 l r) (abs_user_ops s0 before).
Proof.
  intros Ho Hw before ma Hrun. apply same_tree_sym. rewrite <- (tree_of_init cfg l r s0).
  apply (origin_tree_run cfg s0 Ho _ _ _ Hrun). rewrite tree_of_init. exact Hw.
Qed.

Lemma tree_of_observed m x s : observed m x -> tree_of m s = obs_tree x s.
Proof. intros [H1 H2]. unfold tree_of, obs_tree. destruct s; assumption. Qed.

Lemma run_of_snoc cfg m before ma x mb :
  run_of cfg m before ma -> step_ok cfg ma x mb -> run_of cfg m (before ++ [x]) mb.
Proof.
  intros H. induction H as [m|m y m1 r m2 Hs Hr IH]; intros Hx; simpl.
  - econstructor; [exact Hx|constructor].
  - econstructor; [exact Hs|apply IH; exact Hx].
Qed.

Lemma origin_tree_observed cfg l r tr m' s0 :
  origin cfg = Some s0 -> wf (side_tree s0 l r) -> accept cfg l r tr = inl m' ->
  forall before x post, tr = before ++ x :: post ->
    obs_tree x s0 ~~ apply_ops (side_tree s0 l r) (abs_user_ops s0 (before ++ [x])).
Proof.
  intros Ho Hw Hacc before x post Heq.
  destruct (accept_at Hacc Heq) as (ma & mb & Ha & Hb).
  rewrite <- (tree_of_observed mb x s0 (proj1 Hb)).
  apply (origin_tree_is_history cfg l r s0 Ho Hw). eapply run_of_snoc; eassumption.
Qed.

Lemma strip_id cfg t : has_conflicted cfg t = false -> strip_conflicted cfg t = t.
Proof.
  unfold has_conflicted, strip_conflicted. induction t as [|e t IH]; simpl; intros H; [reflexivity|].
  apply orb_false_iff in H as [H1 H2]. rewrite H1. simpl. f_equal. apply IH. exact H2.
Qed.

Theorem boundary_moves_mirror cfg l r tr m' s0 :
  origin cfg = Some s0 -> no_conflicted cfg = true -> wf (side_tree s0 l r) ->
  accept cfg l r tr = inl m' ->
  forall before x post, tr = before ++ x :: post -> o_ev x = EQuiet ->
    view (root_of cfg (negb s0)) (obs_tree x (negb s0)) ~~
    view (root_of cfg s0) (apply_ops (side_tree s0 l r) (abs_user_ops s0 before)).
Proof.
  intros Ho Hnc Hw Hacc before x post Heq Hq.
  pose proof (quiet_converged cfg l r tr m' Hacc before x post Heq Hq) as Hconv.
  destruct (quiet_no_conflicted cfg l r tr m' Hnc Hacc before x post Heq Hq) as [HcL HcR].
  rewrite !strip_id in Hconv by assumption.
  pose proof (origin_tree_observed cfg l r tr m' s0 Ho Hw Hacc before x post Heq) as Hx.
  rewrite abs_user_ops_app in Hx. cbn [abs_user_ops] in Hx. rewrite Hq, app_nil_r in Hx.
  eapply same_tree_trans;
    [|apply same_tree_sym, (view_same_tree _ _ (obs_tree x s0)); [apply wf_apply_ops; exact Hw|apply same_tree_sym; exact Hx]].
  unfold root_of, obs_tree. destruct s0; simpl; [exact Hconv|apply same_tree_sym; exact Hconv].
Qed.

Lemma rel_path_none root q : rel_path root q = None -> strict_prefix root q = false.
Proof. unfold rel_path. destruct (strict_prefix root q); [discriminate|reflexivity]. Qed.

(* a path outside the root is above a path inside only if it is above the root *)
Lemma outside_pre_root root q r :
  strict_prefix root q = false -> pre q (root ++ r) -> pre q root.
Proof.
  intros Hs Hq. destruct (pre_comparable q root (root ++ r) Hq (pre_app root r)) as [H|[s H]]; [exact H|].
  subst q. apply strict_prefix_false_app in Hs. subst s. rewrite app_nil_r. apply pre_refl.
Qed.

Section OneMove.
  Variables (cfg : config) (l r : tree) (tr : list obs) (m' : mstate) (s0 : side).
  Hypothesis Horigin : origin cfg = Some s0.
  Hypothesis Hnoconf : no_conflicted cfg = true.
  Hypothesis Hwf : wf (side_tree s0 l r).
  Hypothesis Hacc : accept cfg l r tr = inl m'.
  Variables (before : list obs) (u : obs) (mid : list obs) (x : obs) (post : list obs) (p q : path).
  Hypothesis Htr : tr = before ++ u :: mid ++ x :: post.
  Hypothesis Hu : o_ev u = EUser s0 (Rename p q).
  Hypothesis Hmid : abs_user_ops s0 mid = [].
  Hypothesis Hx : o_ev x = EQuiet.

  Let root := root_of cfg s0.
  Let T := apply_ops (side_tree s0 l r) (abs_user_ops s0 before).   (* origin tree before the move *)
  Let V := view (root_of cfg (negb s0)) (obs_tree x (negb s0)).  (* the peer's view at the quiet report *)

  Hypothesis Hok : rename_ok T p q = true.

  Lemma history_tree_wf : wf T.
  Proof. apply wf_apply_ops. exact Hwf. Qed.

  (* the quiet report comes after [before ++ u :: mid], whose user operations are those of [before] and the rename *)
  Lemma peer_view_lookup k : lookup V k = lookup (view root (apply_op T (Rename p q))) k.
  Proof.
    assert (Heq : tr = (before ++ u :: mid) ++ x :: post) by (rewrite Htr, <- app_assoc; reflexivity).
    pose proof (boundary_moves_mirror cfg l r tr m' s0 Horigin Hnoconf Hwf Hacc _ x post Heq Hx) as H.
    rewrite abs_user_ops_app in H. cbn [abs_user_ops] in H. rewrite Hu, Hmid in H.
    replace (side_eqb s0 s0) with true in H by (destruct s0; reflexivity).
    unfold apply_ops in H. rewrite fold_left_app in H.
    assert (Hwv : wf (view root (apply_op T (Rename p q)))) by (apply wf_view, wf_apply_op, history_tree_wf).
    apply same_tree_sym in H. symmetry. exact (same_tree_to_teq _ _ (proj1 Hwv) H k).
  Qed.

  Lemma peer_view_inside a ra s :
    a = root ++ ra -> ra <> [] -> lookup V (ra ++ s) = lookup (apply_op T (Rename p q)) (a ++ s).
  Proof.
    intros -> Hra. rewrite peer_view_lookup, lookup_view.
    destruct (ra ++ s) eqn:E; [apply app_eq_nil in E; tauto|]. rewrite <- E, app_assoc. reflexivity.
  Qed.

  Lemma peer_view_frame a b ra :
    a = root ++ ra -> strict_prefix root b = false -> ~ pre b a ->
    (forall r, ~ pre a r -> ~ pre b r -> lookup (apply_op T (Rename p q)) r = lookup T r) ->
    forall k, is_prefix ra k = false -> lookup V k = lookup (view root T) k.
  Proof.
    intros -> Hb Hba Hframe k Hk. rewrite peer_view_lookup, !lookup_view. destruct k as [|y k]; [reflexivity|].
    apply Hframe.
    - rewrite pre_app_cancel. apply is_prefix_false_iff. exact Hk.
    - intros Hpre. apply Hba. eapply pre_trans; [eapply outside_pre_root; eassumption|apply pre_app].
  Qed.

  (* moving a synchronised object out of the root is a deletion for the peer *)
  Lemma move_out_is_delete rp :
    rel_path root p = Some rp -> rel_path root q = None ->
    (forall s, lookup V (rp ++ s) = None) /\
    (forall k, is_prefix rp k = false -> lookup V k = lookup (view root T) k).
  Proof.
    intros Hp Hq. apply rel_path_shift in Hp as [Hp Hrp]. apply rel_path_none in Hq.
    destruct (rename_moves_subtree T p q history_tree_wf Hok) as (_ & Hgone & Hframe).
    destruct (rename_ok_incomparable T p q (proj2 history_tree_wf) Hok) as [_ Hqp].
    split.
    - intros s. rewrite (peer_view_inside p rp s Hp Hrp). apply Hgone.
    - exact (peer_view_frame p q rp Hp Hq Hqp Hframe).
  Qed.

  (* moving an object into the root is a creation for the peer: the whole moved subtree appears *)
  Lemma move_in_is_create rq :
    rel_path root p = None -> rel_path root q = Some rq ->
    (forall s, lookup V (rq ++ s) = lookup T (p ++ s)) /\
    (forall k, is_prefix rq k = false -> lookup V k = lookup (view root T) k).
  Proof.
    intros Hp Hq. apply rel_path_shift in Hq as [Hq Hrq]. apply rel_path_none in Hp.
    destruct (rename_moves_subtree T p q history_tree_wf Hok) as (Hnew & _ & Hframe).
    destruct (rename_ok_incomparable T p q (proj2 history_tree_wf) Hok) as [Hpq _].
    split.
    - intros s. rewrite (peer_view_inside q rq s Hq Hrq). apply Hnew.
    - exact (peer_view_frame q p rq Hq Hp Hpq (fun r H1 H2 => Hframe r H2 H1)).
  Qed.
End OneMove.

Local Open Scope N_scope.

(* roots /1 (local, the origin side) and /2 (remote); /5 is a folder outside the local root *)
Definition exb_cfg : config :=
  {| rootL := [1]; rootR := [2]; origin := Some false; check_spec := false; no_conflicted := true;
     conflicted := [99]; step_bound := 10; cov_every_step := true; declined := [77] |}.
Definition exb_l0 : tree := [([1], Dir); ([5], Dir); ([1; 3], File 7); ([5; 4], Dir); ([5; 4; 6], File 8)].
Definition exb_r0 : tree := [([2], Dir); ([2; 3], File 7)].
(* the user moves the synchronised file /1/3 out of the root, to /5/3 ... *)
Definition exb_l1 : tree := [([1], Dir); ([5], Dir); ([5; 3], File 7); ([5; 4], Dir); ([5; 4; 6], File 8)].
Definition exb_r1 : tree := [([2], Dir)].
(* ... and later the folder /5/4 (holding the file 6) into the root, to /1/4 *)
Definition exb_l2 : tree := [([1], Dir); ([5], Dir); ([5; 3], File 7); ([1; 4], Dir); ([1; 4; 6], File 8)].
Definition exb_r2 : tree := [([2], Dir); ([2; 4], Dir)].
Definition exb_r3 : tree := [([2], Dir); ([2; 4], Dir); ([2; 4; 6], File 8)].

Definition exb_u1 : obs := {| o_ev := EUser false (Rename [1; 3] [5; 3]); o_L := exb_l1; o_R := exb_r0 |}.
Definition exb_mid1 : list obs :=
  [ {| o_ev := EStep; o_L := exb_l1; o_R := exb_r0 |};
    {| o_ev := EEng true [[2; 3]]; o_L := exb_l1; o_R := exb_r1 |};     (* the engine deletes /2/3 *)
    {| o_ev := EStep; o_L := exb_l1; o_R := exb_r1 |} ].
Definition exb_q1 : obs := {| o_ev := EQuiet; o_L := exb_l1; o_R := exb_r1 |}.
Definition exb_u2 : obs := {| o_ev := EUser false (Rename [5; 4] [1; 4]); o_L := exb_l2; o_R := exb_r1 |}.
Definition exb_mid2 : list obs :=
  [ {| o_ev := EStep; o_L := exb_l2; o_R := exb_r1 |};
    {| o_ev := EEng true [[2; 4]]; o_L := exb_l2; o_R := exb_r2 |};     (* the engine creates /2/4 ... *)
    {| o_ev := EEng true [[2; 4; 6]]; o_L := exb_l2; o_R := exb_r3 |};  (* ... and /2/4/6 *)
    {| o_ev := EStep; o_L := exb_l2; o_R := exb_r3 |} ].
Definition exb_q2 : obs := {| o_ev := EQuiet; o_L := exb_l2; o_R := exb_r3 |}.
Definition exb_trace : list obs := exb_u1 :: exb_mid1 ++ exb_q1 :: exb_u2 :: exb_mid2 ++ [exb_q2].

Example exb_accepted : accepted exb_cfg exb_l0 exb_r0 exb_trace = true.
Proof. vm_compute. reflexivity. Qed.

Example exb_accept : exists m', accept exb_cfg exb_l0 exb_r0 exb_trace = inl m'.
Proof.
  pose proof exb_accepted as H. unfold accepted in H.
  destruct (accept exb_cfg exb_l0 exb_r0 exb_trace); [eauto|discriminate].
Qed.

Example exb_wf : wf (side_tree false exb_l0 exb_r0).
Proof. apply wfb_sound. vm_compute. reflexivity. Qed.

(* the hypotheses of move_out_is_delete and move_in_is_create hold of this trace; their conclusions, instantiated *)
Example exb_move_out :
  (forall s, lookup (view [2] exb_r1) ([3] ++ s) = None) /\
  (forall k, is_prefix [3] k = false -> lookup (view [2] exb_r1) k = lookup (view [1] exb_l0) k).
Proof.
  destruct exb_accept as [m' Hacc].
  apply (move_out_is_delete exb_cfg exb_l0 exb_r0 exb_trace m' false eq_refl eq_refl exb_wf Hacc)
    with (before := []) (u := exb_u1) (mid := exb_mid1) (x := exb_q1) (post := exb_u2 :: exb_mid2 ++ [exb_q2])
         (p := [1; 3]) (q := [5; 3]); reflexivity.
Qed.

Example exb_move_in :
  (forall s, lookup (view [2] exb_r3) ([4] ++ s) = lookup exb_l1 ([5; 4] ++ s)) /\
  (forall k, is_prefix [4] k = false -> lookup (view [2] exb_r3) k = lookup (view [1] exb_l1) k).
Proof.
  destruct exb_accept as [m' Hacc].
  apply (move_in_is_create exb_cfg exb_l0 exb_r0 exb_trace m' false eq_refl eq_refl exb_wf Hacc)
    with (before := exb_u1 :: exb_mid1 ++ [exb_q1]) (u := exb_u2) (mid := exb_mid2) (x := exb_q2) (post := [])
         (p := [5; 4]) (q := [1; 4]); reflexivity.
Qed.

(* a trace in which the engine leaves the moved-out file on the peer is rejected at the quiet report *)
Example exb_rejected_not_deleted :
  accept exb_cfg exb_l0 exb_r0
    [ exb_u1; {| o_ev := EStep; o_L := exb_l1; o_R := exb_r0 |}; {| o_ev := EQuiet; o_L := exb_l1; o_R := exb_r0 |} ]
  = inr (2%nat, G_CONVERGE).
Proof. vm_compute. reflexivity. Qed.

(* an engine action that changes the origin side OUTSIDE its root (undoing the move) is rejected *)
Example exb_rejected_origin_outside :
  accept exb_cfg exb_l0 exb_r0
    [ exb_u1; {| o_ev := EEng false [[1; 3]]; o_L := exb_l0; o_R := exb_r0 |} ] = inr (1%nat, G_OUTSIDE).
Proof. vm_compute. reflexivity. Qed.

Print Assumptions tree_from_parts.
Print Assumptions origin_tree_is_history.
Print Assumptions boundary_moves_mirror.
Print Assumptions move_out_is_delete.
Print Assumptions move_in_is_create.
