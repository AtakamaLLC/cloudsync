(* ResolverProofs.v — the two views of a specified outcome (ResolverSpec.outcome), for every answer of the
   resolver at once ([outcome_views]); PropC05.v reads the clauses of C05 off it. *)
From Coq Require Import NArith List Bool.
From CS Require Import Sx TreeModel TreePaths ResolverSpec.
Import ListNotations.

Lemma lookup_sibling dir n (d : node) t m :
  lookup ((dir ++ [n], d) :: t) (dir ++ [m]) = if N.eqb n m then Some d else lookup t (dir ++ [m]).
Proof. cbn [lookup]. rewrite path_eqb_app_cancel. cbn [path_eqb]. rewrite andb_true_r. reflexivity. Qed.

Lemma lookup_at_same dir n c : lookup (at_ dir n c) (dir ++ [n]) = Some (File c).
Proof. unfold at_. rewrite lookup_sibling, N.eqb_refl. reflexivity. Qed.

(* both sides end with the winner's content; the loser survives as the '.conflicted' sibling on its own side when kept *)
Lemma outcome_views dir n nc a b ans r :
  a <> b -> n <> nc -> outcome dir n nc a b ans = Some r ->
  let w := match ans with PickLocal _ => a | Merged c _ => c | _ => b end in
  lookup (r_local r) (dir ++ [n]) = Some (File w) /\ lookup (r_remote r) (dir ++ [n]) = Some (File w) /\
  lookup (r_local r) (dir ++ [nc]) = match ans with PickRemote true | Fallback => Some (File a) | _ => None end /\
  lookup (r_remote r) (dir ++ [nc]) = match ans with PickLocal true => Some (File b) | _ => None end.
Proof.
  intros Hab Hn. apply N.eqb_neq in Hab, Hn. unfold outcome. rewrite Hab.
  destruct ans as [[|]|[|]|c [|]|]; intros [= <-]; unfold r_local, r_remote, at_;
    rewrite !lookup_sibling, !N.eqb_refl, Hn; auto.
Qed.
