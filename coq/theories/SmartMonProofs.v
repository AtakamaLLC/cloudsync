(* SmartMonProofs.v — C20: for EVERY observation trace, if the acceptor [mon_accept] of SmartModel.v accepts it,
   the between-quiescence safety statements of on-demand sync hold of the run the trace denotes.
   The guards are executable; these theorems say what acceptance means.
   Definitions the statements of PropC20.v are written with: [mrun] (the acceptor as a relation), [rootL] / [rootR],
   [touches], the notation [a ~~ b] for [same_tree a b = true]. *)
From Coq Require Import NArith List Bool.
From CS Require Import Sx TreeModel TreePaths TreeLookup SmartModel SmartProofs.
Import ListNotations.

Notation "a ~~ b" := (same_tree a b = true) (at level 70).

Lemma new_files_In old new p c : In (p, File c) new -> lookup old p = None -> In p (new_files old new).
Proof.
  intros Hin Hn. apply in_flat_map. exists (p, File c). split; [exact Hin|]. simpl. rewrite Hn. left. reflexivity.
Qed.

Section MonThms.
Variable auto : path -> bool.
Variable cfg : mcfg.

Definition rootL := c_rootL cfg.
Definition rootR := c_rootR cfg.

Inductive mrun : mst -> list mobs -> mst -> Prop :=
| mrun_nil m : mrun m [] m
| mrun_cons m x m1 r m2 : mon_step auto cfg m x = inl m1 -> mrun m1 r m2 -> mrun m (x :: r) m2.

Lemma mon_from_sound tr : forall m i m', mon_from auto cfg m tr i = inl m' -> mrun m tr m'.
Proof.
  induction tr as [|x r IH]; simpl; intros m i m' H.
  - inversion H; subst. constructor.
  - destruct (mon_step auto cfg m x) as [m1|c] eqn:Hs; [|discriminate].
    econstructor; [exact Hs|]. eapply IH; exact H.
Qed.
Theorem mon_accept_sound l r tr m' : mon_accept auto cfg l r tr = inl m' -> mrun (mon_init l r) tr m'.
Proof. unfold mon_accept. apply mon_from_sound. Qed.

Lemma mrun_split m tr m' : mrun m tr m' -> forall pre x post, tr = pre ++ x :: post ->
  exists ma mb, mrun m pre ma /\ mon_step auto cfg ma x = inl mb.
Proof.
  intros H. induction H as [m|m x0 m1 r m2 Hs Hr IH]; intros pre x post Heq.
  - destruct pre; discriminate.
  - destruct pre as [|y pre]; simpl in Heq; inversion Heq; subst.
    + exists m, m1. split; [constructor|assumption].
    + destruct (IH pre x post eq_refl) as (ma & mb & Ha & Hb).
      exists ma, mb. split; [econstructor; eassumption|assumption].
Qed.
Lemma accepted_split l r tr m' pre x post :
  mon_accept auto cfg l r tr = inl m' -> tr = pre ++ x :: post ->
  exists ma mb, mrun (mon_init l r) pre ma /\ mon_step auto cfg ma x = inl mb.
Proof. intros H. apply mrun_split with m', mon_accept_sound, H. Qed.

Lemma mrun_trace (P : mst -> Prop) (R : mobs -> Prop) :
  (forall m x m', mon_step auto cfg m x = inl m' -> P m' -> P m \/ R x) ->
  forall m tr m', mrun m tr m' -> P m' -> P m \/ exists x, In x tr /\ R x.
Proof.
  intros Hstep m tr m' H. induction H as [m|m x m1 tr m2 Hs Hr IH]; intros HP; [auto|].
  destruct (IH HP) as [H1|(y & Hy & HR)]; [|right; exists y; simpl; auto].
  destruct (Hstep m x m1 Hs H1); [auto|right; exists x; simpl; auto].
Qed.

(* what an accepted engine action on the local side guarantees *)
Record local_action_ok (m : mst) (x : mobs) : Prop := {
  lo_other : mR m ~~ m_R x;
  lo_new : forall p, In p (new_files (mL m) (m_L x)) -> download_ok auto cfg m p = true;
  lo_unreq : forall b, mB m = Some b -> b_unreq b = true -> same_but (rootL ++ b_path b) (mL m) (m_L x) = true
}.
(* ... on the remote side *)
Record remote_action_ok (m : mst) (x : mobs) : Prop := {
  ro_other : mL m ~~ m_L x;
  ro_gone : forall p, In p (gone_files (mR m) (m_R x)) -> in_unreq m = false /\ rdelete_ok cfg m p = true;
  ro_unreq : forall b, mB m = Some b -> b_unreq b = true ->
     same_but (rootR ++ b_path b) (mR m) (m_R x) = true /\
     isnone (lookup (mR m) (rootR ++ b_path b)) = isnone (lookup (m_R x) (rootR ++ b_path b))
}.

Lemma pmem_consume m gone r : pmem r (consume cfg m gone) = true -> pmem r (mD m) = true.
Proof.
  unfold consume. generalize (mD m) as d. induction gone as [|g gs IH]; intros d Hr; [exact Hr|].
  simpl in Hr. apply IH in Hr. destruct (relp (c_rootR cfg) g); [|exact Hr].
  rewrite pmem_pdel in Hr. apply andb_true_iff in Hr as [_ Hr]. exact Hr.
Qed.

Lemma eng_step_sound m x m' s k ts :
  m_ev x = MEng s k ts -> mon_step auto cfg m x = inl m' ->
  if s then remote_action_ok m x else local_action_ok m x.
Proof.
  intros Hev. unfold mon_step. rewrite Hev.
  destruct (negb (if s then _ else _)) eqn:G1; [discriminate|]. apply negb_false_iff in G1.
  destruct s.
  - destruct (in_unreq m && _) eqn:G2; [discriminate|].
    destruct (negb (forallb _ _)) eqn:G3; [discriminate|]. apply negb_false_iff in G3.
    destruct (match mB m with Some b => _ | None => false end) eqn:G4; [discriminate|]. intros _.
    constructor; [exact G1| |].
    + intros p Hp. rewrite forallb_forall in G3. split; [|apply G3; exact Hp].
      destruct (in_unreq m); [|reflexivity]. simpl in G2.
      destruct (gone_files (mR m) (m_R x)); [destruct Hp|discriminate].
    + intros b Hb Hu. rewrite Hb, Hu in G4. simpl in G4. apply negb_false_iff in G4.
      apply andb_true_iff in G4 as [G4a G4b]. split; [exact G4a|]. apply eqb_prop. exact G4b.
  - destruct (negb (forallb _ _)) eqn:G3; [discriminate|]. apply negb_false_iff in G3.
    destruct (match mB m with Some b => _ | None => false end) eqn:G4; [discriminate|]. intros _.
    constructor; [exact G1| |].
    + intros p Hp. rewrite forallb_forall in G3. apply G3. exact Hp.
    + intros b Hb Hu. rewrite Hb, Hu in G4. simpl in G4. apply negb_false_iff in G4. exact G4.
Qed.

(* a new local file whose remote file exists is allowed *)
Lemma download_allowed ma x mb k ts :
  m_ev x = MEng false k ts -> mon_step auto cfg ma x = inl mb ->
  forall p rel c, lookup (m_L x) p = Some (File c) -> lookup (mL ma) p = None ->
                  relp rootL p = Some rel -> is_file (mR ma) (rootR ++ rel) = true -> allowed_local auto ma rel = true.
Proof.
  intros Hev Hb p rel c HL Hold Hrel Hf.
  pose proof (lo_new _ _ (eng_step_sound ma x mb false k ts Hev Hb) p) as Hnew. unfold download_ok in Hnew. fold rootL rootR in Hnew. rewrite Hrel, Hf in Hnew.
  apply Hnew, (new_files_In _ _ p c); [apply lookup_In; exact HL|exact Hold].
Qed.

(* the observations that can end r's un-requested status: a request call for r, or a user's delete of r's remote
   object *)
Definition touches (r : path) (x : mobs) : bool :=
  match m_ev x with
  | MReqBegin r0 => path_eqb r0 r
  | MUser true (Delete p) => match relp rootR p with Some r0 => path_eqb r0 r | None => false end
  | _ => false
  end.

(* [accepted H], for H : mon_step auto cfg m x = inl m': the accepted observations case by case, with the three sets of
   the new state computed *)
Local Ltac accepted H :=
  unfold mon_step, touches, rootL, rootR in *;
  destruct (m_ev _) as [s o|s k ts| | |r0|ok|r0|ok];
    [destruct (user_effect cfg _ s o) as [[q x'] d] eqn:U; unfold user_effect in U; destruct o; guards U;
     injection U as <- <- <-|..];
  guards H; injection H as <-; cbn [mQ mX mD]; try destruct (b_wasQ _); try destruct (b_wasX _);
  rewrite ?pmem_padd, ?pmem_pdel.

(* the requested set grows only by a request call, the user-deleted set only by a user's delete of the local copy,
   and the un-requested set shrinks only at an observation that touches the path *)
Lemma mon_step_Q m x m' r :
  mon_step auto cfg m x = inl m' -> pmem r (mQ m') = true -> pmem r (mQ m) = true \/ m_ev x = MReqBegin r.
Proof.
  intros H. accepted H; auto; try (intros [_ Hq]%andb_true_iff; auto).
  intros [->%path_eqb_eq|Hq]%orb_true_iff; auto.
Qed.
Lemma mon_step_D m x m' r :
  mon_step auto cfg m x = inl m' -> pmem r (mD m') = true ->
  pmem r (mD m) = true \/ exists p, m_ev x = MUser false (Delete p) /\ relp rootL p = Some r.
Proof.
  intros H. accepted H; auto; [|intros Hd%pmem_consume; auto].
  intros [->%path_eqb_eq|Hd]%orb_true_iff; eauto.
Qed.
Lemma mon_step_X m x m' r :
  mon_step auto cfg m x = inl m' -> touches r x = false -> pmem r (mX m) = true -> pmem r (mX m') = true.
Proof.
  intros H. accepted H; intros Ht HX; rewrite ?Ht, ?HX, ?orb_true_r; auto.
Qed.

Lemma mrun_deleted_origin m tr m' r :
  mrun m tr m' -> pmem r (mD m') = true ->
  pmem r (mD m) = true \/ exists x p, In x tr /\ m_ev x = MUser false (Delete p) /\ relp rootL p = Some r.
Proof.
  intros H Hd.
  destruct (mrun_trace _ _ (fun m x m' H => mon_step_D m x m' r H) m tr m' H Hd) as [|(x & Hx & p & Hp)]; eauto.
Qed.
Lemma mrun_untouched m tr m' r :
  mrun m tr m' -> forallb (fun x => negb (touches r x)) tr = true ->
  pmem r (mX m) = true /\ pmem r (mQ m) = false -> pmem r (mX m') = true /\ pmem r (mQ m') = false.
Proof.
  induction 1 as [m|m y m2 tr m3 Hs Hr IH]; [auto|].
  cbn [forallb]. intros [Hy%negb_true_iff Hnt]%andb_true_iff [HX HQ].
  apply IH; [exact Hnt|]. split; [exact (mon_step_X m y m2 r Hs Hy HX)|].
  (* r cannot have entered the requested set: only [MReqBegin r] puts it there, and that touches r *)
  destruct (pmem r (mQ m2)) eqn:E; [|reflexivity].
  destruct (mon_step_Q m y m2 r Hs E) as [Q|Ev]; [congruence|].
  unfold touches in Hy. rewrite Ev, path_eqb_refl in Hy. discriminate Hy.
Qed.

(* for every accepted trace and every engine action on the remote side: a remote file that disappears does so
   outside any un-request call, and a user had deleted its local copy *)
Theorem mon_unrequest_never_deletes_remote l r tr m' :
  mon_accept auto cfg l r tr = inl m' ->
  forall pre x post k ts, tr = pre ++ x :: post -> m_ev x = MEng true k ts ->
  exists ma, mrun (mon_init l r) pre ma /\
    forall p c, lookup (mR ma) p = Some (File c) -> lookup (m_R x) p = None ->
                in_unreq ma = false /\ forall rel, relp rootR p = Some rel -> pmem rel (mD ma) = true.
Proof.
  intros Hacc pre x post k ts Heq Hev.
  destruct (accepted_split _ _ _ _ _ _ _ Hacc Heq) as (ma & mb & Ha & Hb).
  exists ma. split; [exact Ha|].
  intros p c HR Hnew. destruct (ro_gone _ _ (eng_step_sound ma x mb true k ts Hev Hb) p) as [H1 H2].
  { apply (new_files_In (m_R x) (mR ma) p c); [apply lookup_In; exact HR|exact Hnew]. }
  split; [exact H1|].
  intros rel Hrel. unfold rdelete_ok in H2. fold rootR in H2. rewrite Hrel in H2. exact H2.
Qed.

End MonThms.
