(* SmartSpecProofs.v — C20: the big-step specification [sstep] of SmartModel.v.  The invariant [sinv] of every
   reachable state, for ALL action sequences and ALL auto-sync predicates, with the per-path form in which its
   preservation is proved ([path_ok]), and the laws derived from it, numbered 1-6 after the six clauses of property C20. *)
From Coq Require Import NArith List Bool.
From CS Require Import Sx TreeModel TreePaths TreeLookup SmartModel SmartProofs.
Import ListNotations.

Record sinv (s : sstate) : Prop := {
  i_ndR : NoDup (map fst (sR s));
  i_ndL : NoDup (map fst (sL s));
  (* folders are mirrored *)
  i_dirs : forall p, lookup (sR s) p = Some Dir <-> lookup (sL s) p = Some Dir;
  (* every local file is the remote file (uploaded / kept in sync) *)
  i_sub : forall p c, lookup (sL s) p = Some (File c) -> lookup (sR s) p = Some (File c);
  (* a local file is there because it was requested (or matched) or was created locally *)
  i_just : forall p c, lookup (sL s) p = Some (File c) -> pmem p (sQ s) = true \/ pmem p (sB s) = true;
  (* a requested file is present on both sides with the same content *)
  i_req : forall p, pmem p (sQ s) = true -> exists c, lookup (sR s) p = Some (File c) /\ lookup (sL s) p = Some (File c);
  (* an un-requested file exists remotely, not locally, and is not requested *)
  i_exc : forall p, pmem p (sX s) = true -> is_file (sR s) p = true /\ lookup (sL s) p = None /\ pmem p (sQ s) = false
}.

Lemma sinv_init : sinv sinit.
Proof.
  constructor; simpl; try constructor; try (intros; discriminate).
Qed.

Lemma local_sub_remote s : sinv s -> forall p n, lookup (sL s) p = Some n -> lookup (sR s) p = Some n.
Proof.
  intros I p [|c] H; [apply (i_dirs s I); exact H|apply (i_sub s I); exact H].
Qed.

(* Apart from the uniqueness of keys the invariant speaks of one path at a time: a path is absent, a mirrored folder,
   a remote-only file (not requested), or a file on both sides (not un-requested, and requested or locally born). *)
Definition path_ok (r l : option node) (q x b : bool) : Prop :=
  match r, l with
  | None, None | Some Dir, Some Dir => q = false /\ x = false
  | Some (File c), None => q = false
  | Some (File c), Some (File c') => c' = c /\ x = false /\ (q = true \/ b = true)
  | _, _ => False
  end.
Definition at_path (s : sstate) (p : path) : Prop :=
  path_ok (lookup (sR s) p) (lookup (sL s) p) (pmem p (sQ s)) (pmem p (sX s)) (pmem p (sB s)).

Lemma sinv_iff s : sinv s <-> NoDup (map fst (sR s)) /\ NoDup (map fst (sL s)) /\ forall p, at_path s p.
Proof.
  split.
  - intros I. split; [apply I|]. split; [apply I|]. intros p. unfold at_path.
    pose proof (i_dirs s I p) as D. pose proof (i_sub s I p) as S. pose proof (i_just s I p) as J.
    pose proof (i_req s I p) as Q. pose proof (i_exc s I p) as X. unfold is_file in X.
    (* requested or not, un-requested or not; if neither, by what the local tree holds *)
    destruct (pmem p (sQ s)); [destruct (Q eq_refl) as (c & -> & ->)|];
      (destruct (pmem p (sX s)); [destruct (X eq_refl) as (F & E & E')|]).
    + discriminate E'.
    + cbn. auto.
    + rewrite E. destruct (lookup (sR s) p) as [[|c]|]; try discriminate F. reflexivity.
    + destruct (lookup (sL s) p) as [[|c]|].
      * rewrite (proj2 D eq_refl). cbn. auto.
      * rewrite (S c eq_refl). cbn. auto using (J c eq_refl).
      * destruct (lookup (sR s) p) as [[|c]|]; [discriminate (proj1 D eq_refl)| |]; cbn; auto.
  - (* each field, by what the two trees hold at p *)
    intros (NR & NL & P). constructor; try assumption; intros p; specialize (P p); unfold at_path, path_ok, is_file in *;
      destruct (lookup (sR s) p) as [[|c]|], (lookup (sL s) p) as [[|c']|]; try contradiction; try intuition congruence.
    all: intros Hq; destruct P as (-> & _); eauto.
Qed.

Lemma sinv_at_path s : sinv s -> forall p, at_path s p.
Proof. intros I. apply sinv_iff, I. Qed.

Section SpecThms.
Variable auto : path -> bool.

(* An action addresses one path p.  At every other path nothing changes; at p the trees and the sets change to
   values that are read off [sstep]. *)
Lemma inv_step s a s' : sinv s -> sstep auto s a = Some s' -> sinv s'.
Proof.
  rewrite !sinv_iff. intros (NR & NL & I) H.
  destruct a as [p c|p|p c|p|p c|p|p c|p|p|p c]; pose proof (I p) as Ip; unfold at_path, path_ok in Ip;
    simpl in H; unfold free, is_file in H;
    destruct (lookup (sR s) p) as [[|cr]|] eqn:ER, (lookup (sL s) p) as [[|cl]|] eqn:EL; try contradiction; simpl in H;
    try discriminate H; guards H; injection H as <-; auto.
  (* keys stay unique; a path q other than p sees nothing; at p the old lookups are known *)
  all: split; [|split]; cbn [sR sL]; auto using nodup_set, nodup_remove.
  all: intros q; unfold at_path; cbn [sR sL sQ sX sB]; rewrite ?lookup_set, ?lookup_remove, ?pmem_padd, ?pmem_pdel;
    destruct (path_eqb p q) eqn:E; [apply path_eqb_eq in E; subst q; rewrite ?ER, ?EL|exact (I q)].
  all: cbn [path_ok orb andb negb]; rewrite ?andb_true_iff in *; intuition congruence.
Qed.

Theorem sinv_srun l : forall s s', sinv s -> srun auto s l = Some s' -> sinv s'.
Proof.
  induction l as [|a l IH]; intros s s' I H; simpl in H; [inversion H; subst; exact I|].
  destruct (sstep auto s a) as [s1|] eqn:Hs; [|discriminate].
  eapply IH; [eapply inv_step; eassumption|exact H].
Qed.

Lemma sinv_reachable l s : srun auto sinit l = Some s -> sinv s.
Proof. apply sinv_srun. apply sinv_init. Qed.

(* 1. folders are always mirrored *)
Theorem folders_always_mirrored l s :
  srun auto sinit l = Some s -> forall p, lookup (sR s) p = Some Dir <-> lookup (sL s) p = Some Dir.
Proof. intros H. apply (i_dirs s (sinv_reachable l s H)). Qed.

(* 2. local creations (and local edits) are always uploaded; the local tree is part of the remote tree *)
Theorem local_tree_uploaded l s :
  srun auto sinit l = Some s -> forall p n, lookup (sL s) p = Some n -> lookup (sR s) p = Some n.
Proof. intros H. apply local_sub_remote. exact (sinv_reachable l s H). Qed.

Definition writes_both (a : sact) : option (path * node) :=
  match a with
  | LCreate p c | LEdit p c => Some (p, File c)
  | LMkdir p | RMkdir p => Some (p, Dir)
  | _ => None
  end.
Lemma writes_both_mirrored s a s' p n :
  writes_both a = Some (p, n) -> sstep auto s a = Some s' -> lookup (sR s') p = Some n /\ lookup (sL s') p = Some n.
Proof.
  destruct a; intros [= <- <-] H; simpl in H; guards H; injection H as <-; cbn [sR sL];
    rewrite !lookup_set, path_eqb_refl; split; reflexivity.
Qed.

Theorem local_creations_uploaded s s' :
  (forall p c, sstep auto s (LCreate p c) = Some s' -> lookup (sR s') p = Some (File c) /\ lookup (sL s') p = Some (File c)) /\
  (forall p, sstep auto s (LMkdir p) = Some s' -> lookup (sR s') p = Some Dir /\ lookup (sL s') p = Some Dir) /\
  (forall p c, sstep auto s (LEdit p c) = Some s' -> lookup (sR s') p = Some (File c) /\ lookup (sL s') p = Some (File c)).
Proof.
  repeat split; intros; eapply writes_both_mirrored; eauto; reflexivity.
Qed.

(* 3. a remote file that is neither requested (or matched) nor locally born has no local copy *)
Theorem never_download_unrequested l s p :
  srun auto sinit l = Some s ->
  is_file (sR s) p = true -> pmem p (sQ s) = false -> pmem p (sB s) = false -> lookup (sL s) p = None.
Proof.
  intros H Hf Hq Hb. pose proof (sinv_reachable l s H) as I.
  destruct (lookup (sL s) p) as [[|c]|] eqn:HL; [| |reflexivity].
  - apply (i_dirs s I) in HL. unfold is_file in Hf. rewrite HL in Hf. discriminate.
  - destruct (i_just s I p c HL); congruence.
Qed.

Lemma requested_or_born_origin s a s' p :
  sstep auto s a = Some s' ->
  (pmem p (sQ s') = true -> pmem p (sQ s) = true \/ a = Request p \/ (auto p = true /\ exists c, a = RCreate p c)) /\
  (pmem p (sB s') = true -> pmem p (sB s) = true \/ exists c, a = LCreate p c).
Proof.
  intros H. destruct a as [p0 c|p0|p0 c|p0|p0 c|p0|p0 c|p0|p0|p0 c]; simpl in H; guards H; injection H as <-;
    cbn [sQ sB]; split; intros Hq; rewrite ?pmem_padd, ?pmem_pdel in Hq.
  all: try (apply andb_true_iff in Hq as [_ Hq]).
  all: try (apply orb_true_iff in Hq as [Hq|Hq]; [apply path_eqb_eq in Hq; subst p0|]); eauto.
Qed.

Lemma srun_trace (P : sstate -> Prop) (R : sact -> Prop) :
  (forall s a s', sstep auto s a = Some s' -> P s' -> P s \/ R a) ->
  forall l s s', srun auto s l = Some s' -> P s' -> P s \/ exists a, In a l /\ R a.
Proof.
  intros Hstep l. induction l as [|a l IH]; intros s s' H HP; simpl in H; [injection H as ->; auto|].
  destruct (sstep auto s a) as [s1|] eqn:Hs; [|discriminate].
  destruct (IH s1 s' H HP) as [H1|(b & Hb & HR)]; [|right; exists b; simpl; auto].
  destruct (Hstep s a s1 Hs H1); [auto|right; exists a; simpl; auto].
Qed.

(* 4. once requested a file is downloaded and kept in sync in both directions *)
Theorem requested_kept_in_sync l s p :
  srun auto sinit l = Some s -> pmem p (sQ s) = true ->
  exists c, lookup (sR s) p = Some (File c) /\ lookup (sL s) p = Some (File c).
Proof. intros H. apply (i_req s (sinv_reachable l s H)). Qed.

(* 5. un-request leaves the remote tree as it is *)
Theorem unrequest_keeps_remote s p s' : sstep auto s (Unrequest p) = Some s' -> sR s' = sR s.
Proof. simpl. destruct (pmem p (sQ s) && is_file (sR s) p); intros H; inversion H; reflexivity. Qed.

Lemma remove_set_same t p n : remove (set t p n) p = remove t p.
Proof.
  unfold set, remove. rewrite filter_app. simpl. rewrite path_eqb_refl. simpl. rewrite app_nil_r.
  induction t as [|[k m] t IH]; simpl; [reflexivity|].
  destruct (negb (path_eqb k p)) eqn:E; simpl; [rewrite E, IH; reflexivity|exact IH].
Qed.

(* an un-requested file stays remote-only, predicate or not, until it is requested again *)
Theorem unrequested_stays_remote l s p :
  srun auto sinit l = Some s -> pmem p (sX s) = true ->
  is_file (sR s) p = true /\ lookup (sL s) p = None /\ pmem p (sQ s) = false.
Proof. intros H. apply (i_exc s (sinv_reachable l s H)). Qed.

Lemma child_of_spec d : forall p x, child_of d p = Some x <-> p = d ++ [x].
Proof.
  induction d as [|a d IH]; intros p x; simpl.
  - destruct p as [|y [|z p]]; split; intros H; try discriminate; try (inversion H; reflexivity).
  - destruct p as [|b p]; [split; discriminate|].
    destruct (N.eqb a b) eqn:E.
    + apply N.eqb_eq in E. subst b. rewrite IH. split; intros H; [subst; reflexivity|inversion H; reflexivity].
    + split; [discriminate|]. intros H. inversion H; subst. rewrite N.eqb_refl in E. discriminate.
Qed.

(* the entries of t directly below d, each mapped to a list *)
Lemma in_children {B} (t : tree) d (f : N -> path * node -> list B) it :
  In it (flat_map (fun e => match child_of d (fst e) with Some x => f x e | None => [] end) t) <->
  exists x n, In (d ++ [x : N], n) t /\ In it (f x (d ++ [x : N], n)).
Proof.
  rewrite in_flat_map. split.
  - intros [[p n] [He Hit]]. simpl in Hit. destruct (child_of d p) as [x|] eqn:Hc; [|destruct Hit].
    apply child_of_spec in Hc. subst p. eauto.
  - intros (x & n & He & Hit). exists (d ++ [x], n). split; [exact He|].
    simpl. rewrite (proj2 (child_of_spec d (d ++ [x]) x) eq_refl). exact Hit.
Qed.

(* 6. the merged listing *)
Theorem listing_law s d x k :
  NoDup (map fst (sL s)) -> NoDup (map fst (sR s)) ->
  (In {| i_name := x; i_isdir := k; i_synced := true |} (listing s d) <->
   exists n, lookup (sL s) (d ++ [x]) = Some n /\ node_isdir n = k) /\
  (In {| i_name := x; i_isdir := k; i_synced := false |} (listing s d) <->
   exists n, lookup (sR s) (d ++ [x]) = Some n /\ node_isdir n = k /\ lookup (sL s) (d ++ [x]) = None).
Proof.
  intros NL NR. unfold listing. split; rewrite in_app_iff, !in_children; cbn [fst snd]; split.
  - intros [(y & n & He & [[= <- <-]|[]])|(y & n & _ & Hit)]; [eauto using In_lookup|].
    destruct (isnone _); [destruct Hit as [[=]|[]]|destruct Hit].
  - intros (n & Hn%lookup_In & <-). left. exists x, n. simpl. auto.
  - intros [(y & n & _ & [[=]|[]])|(y & n & He & Hit)].
    destruct (isnone _) eqn:Hn; [|destruct Hit]. destruct Hit as [[= <- <-]|[]]. apply isnone_iff in Hn.
    eauto 6 using In_lookup.
  - intros (n & Hn%lookup_In & <- & HL). right. exists x, n. rewrite HL. simpl. auto.
Qed.

Theorem listing_law_reachable l s d :
  srun auto sinit l = Some s ->
  (forall x n, lookup (sL s) (d ++ [x]) = Some n ->
               In {| i_name := x; i_isdir := node_isdir n; i_synced := true |} (listing s d)) /\
  (forall x c, lookup (sR s) (d ++ [x]) = Some (File c) -> lookup (sL s) (d ++ [x]) = None ->
               In {| i_name := x; i_isdir := false; i_synced := false |} (listing s d)) /\
  (forall it, In it (listing s d) ->
              if i_synced it then exists n, lookup (sL s) (d ++ [i_name it]) = Some n /\ node_isdir n = i_isdir it
              else i_isdir it = false /\ is_file (sR s) (d ++ [i_name it]) = true /\
                   lookup (sL s) (d ++ [i_name it]) = None /\ pmem (d ++ [i_name it]) (sQ s) = false).
Proof.
  intros H. pose proof (sinv_reachable l s H) as I.
  pose proof (fun x k => listing_law s d x k (i_ndL s I) (i_ndR s I)) as LL.
  split; [|split].
  - intros x n Hn. apply LL. eauto.
  - intros x c HR HL. apply LL. exists (File c). auto.
  - intros [x k [|]] Hit; simpl; apply LL in Hit; [exact Hit|]. destruct Hit as (n & HR & <- & HL).
    pose proof (sinv_at_path s I (d ++ [x])) as P. unfold at_path, is_file in *.
    rewrite HR, HL in *. destruct n; [contradiction|auto].
Qed.
End SpecThms.
