(* PropEntryPred.v — the source-to-Gallina translator tie for the decision predicates of cloudsync/sync/state.py and the backoff
   step of cloudsync/runnable.py, and the laws the engine relies on.  Re-checked by the Coq gate of C03 and C04
   (harness/entrypred.py).

   Reading guide.  [gen_X] (GenEntryPred.v / GenBackoff.v) is the translation of the CURRENT source of X, regenerated
   before every check; the unprefixed name is the hand model (EntryPredModel.v / LoopModel.v).  A predicate's value is
   the CLASS of the Python value the function returns ([pyres]); [truth] is the truthiness every caller uses.  The
   laws are stated about the GENERATED definitions, i.e. about what the source says now, for ALL field values and every
   answer [pm e s] of the provider's path comparison.  The [..._full] statements that are refuted are written about
   the hand model (EntryPredLaws.v); by the EP_gen_*_eq theorems they are statements about the generated definitions. *)
From Coq Require Import QArith Qminmax Bool List NArith.
From CS Require Import LoopModel EntryPredModel GenEntryPred GenBackoff EntryPredGenEq EntryPredLaws.
From CS Require LoopProofs.
Import ListNotations.
Open Scope Q_scope.

Theorem EP_gen_is_corrupt_eq : forall e s, gen_is_corrupt e s = is_corrupt e s.
Proof. exact gen_is_corrupt_eq. Qed.
Print Assumptions EP_gen_is_corrupt_eq.

Theorem EP_gen_corrupt_exists_eq : forall e s, gen_corrupt_exists e s = corrupt_exists e s.
Proof. exact gen_corrupt_exists_eq. Qed.
Print Assumptions EP_gen_corrupt_exists_eq.

Theorem EP_gen_corrupt_gone_eq : forall e s, gen_corrupt_gone e s = corrupt_gone e s.
Proof. exact gen_corrupt_gone_eq. Qed.
Print Assumptions EP_gen_corrupt_gone_eq.

Theorem EP_gen_paths_match_eq : forall e s, gen_paths_match e s = paths_match e s.
Proof. exact gen_paths_match_eq. Qed.
Print Assumptions EP_gen_paths_match_eq.

Theorem EP_gen_paths_differ_eq : forall e s, gen_paths_differ e s = paths_differ e s.
Proof. exact gen_paths_differ_eq. Qed.
Print Assumptions EP_gen_paths_differ_eq.

Theorem EP_gen_side_needs_sync_eq : forall e s, gen_side_needs_sync e s = side_needs_sync e s.
Proof. exact gen_side_needs_sync_eq. Qed.
Print Assumptions EP_gen_side_needs_sync_eq.

Theorem EP_gen_hash_conflict_eq : forall e, gen_hash_conflict e = hash_conflict e.
Proof. exact gen_hash_conflict_eq. Qed.
Print Assumptions EP_gen_hash_conflict_eq.

Theorem EP_gen_is_path_change_eq : forall e s, gen_is_path_change e s = is_path_change e s.
Proof. exact gen_is_path_change_eq. Qed.
Print Assumptions EP_gen_is_path_change_eq.

Theorem EP_gen_is_deletion_eq : forall e s, gen_is_deletion e s = is_deletion e s.
Proof. exact gen_is_deletion_eq. Qed.
Print Assumptions EP_gen_is_deletion_eq.

Theorem EP_gen_is_creation_eq : forall e s, gen_is_creation e s = is_creation e s.
Proof. exact gen_is_creation_eq. Qed.
Print Assumptions EP_gen_is_creation_eq.

Theorem EP_gen_is_rename_eq : forall e s, gen_is_rename e s = is_rename e s.
Proof. exact gen_is_rename_eq. Qed.
Print Assumptions EP_gen_is_rename_eq.

Theorem EP_gen_needs_sync_eq : forall e, gen_needs_sync e = needs_sync e.
Proof. exact gen_needs_sync_eq. Qed.
Print Assumptions EP_gen_needs_sync_eq.

Theorem EP_gen_is_discarded_eq : forall e, gen_is_discarded e = is_discarded e.
Proof. exact gen_is_discarded_eq. Qed.
Print Assumptions EP_gen_is_discarded_eq.

Theorem EP_gen_is_irrelevant_eq : forall e, gen_is_irrelevant e = is_irrelevant e.
Proof. exact gen_is_irrelevant_eq. Qed.
Print Assumptions EP_gen_is_irrelevant_eq.

Theorem EP_gen_is_conflicted_eq : forall e, gen_is_conflicted e = is_conflicted e.
Proof. exact gen_is_conflicted_eq. Qed.
Print Assumptions EP_gen_is_conflicted_eq.

Theorem EP_gen_is_trash_eq : forall e, gen_is_trash e = is_trash e.
Proof. exact gen_is_trash_eq. Qed.
Print Assumptions EP_gen_is_trash_eq.

Theorem EP_gen_is_temp_rename_eq : forall e, gen_is_temp_rename e = is_temp_rename e.
Proof. exact gen_is_temp_rename_eq. Qed.
Print Assumptions EP_gen_is_temp_rename_eq.

Theorem EP_gen_is_latest_eq : forall e, gen_is_latest e = is_latest e.
Proof. exact gen_is_latest_eq. Qed.
Print Assumptions EP_gen_is_latest_eq.

Theorem EP_gen_is_latest_side_eq : forall e s, gen_is_latest_side e s = is_latest_side e s.
Proof. exact gen_is_latest_side_eq. Qed.
Print Assumptions EP_gen_is_latest_side_eq.

(* the definitions generated from cloudsync/runnable.py (GenBackoff.v) are LoopModel's by computation (after_do: per outcome) *)
Theorem EP_gen_increment_backoff_eq : forall p b,
  gen_increment_backoff b (p_mult p) (p_min p) (p_max p) = increment p b.
Proof. reflexivity. Qed.
Print Assumptions EP_gen_increment_backoff_eq.

Theorem EP_gen_after_do_eq : forall p b o, gen_after_do p b o = after_do p b o.
Proof. intros p b []; reflexivity. Qed.
Print Assumptions EP_gen_after_do_eq.

Theorem EP_gen_sleep_of_eq : forall p b, gen_sleep_of (p_sleep p) b = sleep_of p b.
Proof. reflexivity. Qed.
Print Assumptions EP_gen_sleep_of_eq.

(* The laws, about the generated definitions: proved about the hand model in EntryPredLaws.v and carried over by the
   equalities above, one by one (gen_X = X as functions would need an extensionality axiom). *)
Theorem EP_side_needs_sync_iff : forall e s,
  truth (gen_side_needs_sync e s) = true <->
  s_force (sd e s) = true \/
  (changed_truthy (sd e s) = true /\ has_oid (sd e s) = true /\
   (s_hash (sd e s) <> s_sync_hash (sd e s) \/ pm e s = false \/ ex_gone (s_exists (sd e s)) = true)).
Proof. intros e s. rewrite gen_side_needs_sync_eq. apply side_needs_sync_iff. Qed.
Print Assumptions EP_side_needs_sync_iff.

Theorem EP_side_needs_sync_false : forall e s,
  truth (gen_side_needs_sync e s) = false ->
  s_force (sd e s) = false /\
  (changed_truthy (sd e s) = false \/ has_oid (sd e s) = false \/
   (s_hash (sd e s) = s_sync_hash (sd e s) /\ pm e s = true /\ ex_gone (s_exists (sd e s)) = false)).
Proof. intros e s. rewrite gen_side_needs_sync_eq. apply side_needs_sync_false. Qed.
Print Assumptions EP_side_needs_sync_false.

(* the two-disjunct reading "needs_sync false => the side is unchanged or has no id" is false *)
Theorem EP_needs_sync_false_unchanged_or_no_id_refuted : ~ needs_sync_false_full.
Proof.
  intro H. specialize (H (mk (synced_side (CNum 5)) side0) SL eq_refl). vm_compute in H. destruct H; discriminate.
Qed.
Print Assumptions EP_needs_sync_false_unchanged_or_no_id_refuted.

(* a side that was just finished (changed := 0; also None / False) never needs sync unless force_sync *)
Theorem EP_finished_side_quiet : forall e s,
  changed_truthy (sd e s) = false -> s_force (sd e s) = false -> truth (gen_side_needs_sync e s) = false.
Proof. intros e s. rewrite gen_side_needs_sync_eq. apply finished_side_quiet. Qed.
Print Assumptions EP_finished_side_quiet.

Theorem EP_forced_needs_sync : forall e s, s_force (sd e s) = true -> gen_side_needs_sync e s = RTrue.
Proof. intros e s. rewrite gen_side_needs_sync_eq. apply forced_needs_sync. Qed.
Print Assumptions EP_forced_needs_sync.

Theorem EP_finished_side_quiet_without_force_hypothesis_refuted : ~ finished_side_quiet_full.
Proof. intro H. specialize (H (mk (forced_new false) side0) SL eq_refl). discriminate H. Qed.
Print Assumptions EP_finished_side_quiet_without_force_hypothesis_refuted.

Theorem EP_needs_sync_iff : forall e,
  truth (gen_needs_sync e) = true <->
  truth (gen_side_needs_sync e SL) = true \/ truth (gen_side_needs_sync e SR) = true.
Proof. intros e. rewrite gen_needs_sync_eq, !gen_side_needs_sync_eq. apply needs_sync_iff. Qed.
Print Assumptions EP_needs_sync_iff.

(* result classes: a truthy needs_sync is True; a falsy one need not be a bool (None, 0, '') *)
Theorem EP_side_needs_sync_truthy_is_True : forall e s,
  truth (gen_side_needs_sync e s) = true -> gen_side_needs_sync e s = RTrue.
Proof. intros e s. rewrite gen_side_needs_sync_eq. apply side_needs_sync_truthy_is_True. Qed.
Print Assumptions EP_side_needs_sync_truthy_is_True.

Theorem EP_side_needs_sync_returns_bool_refuted : ~ side_needs_sync_bool_full.
Proof. intro H. destruct (H (mk side0 side0) SL) as [H1|H1]; discriminate H1. Qed.
Print Assumptions EP_side_needs_sync_returns_bool_refuted.

Theorem EP_is_creation_iff : forall e s,
  truth (gen_is_creation e s) = true <->
  s_path (sd e s) = SFull /\ s_exists (sd e s) = XExists /\ truth (gen_side_needs_sync e s) = true /\
  (has_oid (sd e (other s)) = false \/ ex_deleted (s_exists (sd e (other s))) = true \/
   (s_exists (sd e (other s)) = XCorrupt /\ exists y, s_saved (sd e (other s)) = Some y /\ ex_gone y = true)).
Proof. intros e s. rewrite gen_is_creation_eq, gen_side_needs_sync_eq. apply is_creation_iff. Qed.
Print Assumptions EP_is_creation_iff.

Theorem EP_is_creation_bool : forall e s, is_bool (gen_is_creation e s).
Proof. intros e s. rewrite gen_is_creation_eq. apply is_creation_bool. Qed.
Print Assumptions EP_is_creation_bool.

(* a creation is always something its own side needs to sync: never a side that was just finished *)
Theorem EP_creation_needs_sync : forall e s,
  truth (gen_is_creation e s) = true ->
  truth (gen_side_needs_sync e s) = true /\ truth (gen_needs_sync e) = true.
Proof. intros e s. rewrite gen_is_creation_eq, gen_side_needs_sync_eq, gen_needs_sync_eq. apply creation_needs_sync. Qed.
Print Assumptions EP_creation_needs_sync.

Theorem EP_is_deletion_iff : forall e s,
  truth (gen_is_deletion e s) = true <->
  s_exists (sd e (other s)) = XExists /\ (s_exists (sd e s) = XTrashed \/ s_exists (sd e s) = XMissing) /\
  changed_truthy (sd e s) = true.
Proof. intros e s. rewrite gen_is_deletion_eq. apply is_deletion_iff. Qed.
Print Assumptions EP_is_deletion_iff.

(* is_deletion never returns True: when truthy it returns the side's change stamp *)
Theorem EP_is_deletion_truthy_is_stamp : forall e s,
  truth (gen_is_deletion e s) = true -> gen_is_deletion e s = RObj.
Proof. intros e s. rewrite gen_is_deletion_eq. apply is_deletion_truthy_is_stamp. Qed.
Print Assumptions EP_is_deletion_truthy_is_stamp.

(* a deletion of an object that has an id is never skipped by needs_sync *)
Theorem EP_deletion_with_id_needs_sync : forall e s,
  truth (gen_is_deletion e s) = true -> has_oid (sd e s) = true -> truth (gen_side_needs_sync e s) = true.
Proof. intros e s. rewrite gen_is_deletion_eq, gen_side_needs_sync_eq. apply deletion_with_id_needs_sync. Qed.
Print Assumptions EP_deletion_with_id_needs_sync.

Theorem EP_deletion_needs_sync_without_id_refuted : ~ deletion_needs_sync_full.
Proof. intro H. specialize (H (mk gone_side (synced_side CNone)) SL eq_refl). discriminate H. Qed.
Print Assumptions EP_deletion_needs_sync_without_id_refuted.

Theorem EP_creation_deletion_exclusive : forall e s,
  truth (gen_is_creation e s) = true -> truth (gen_is_deletion e s) = false.
Proof. intros e s. rewrite gen_is_creation_eq, gen_is_deletion_eq. apply creation_deletion_exclusive. Qed.
Print Assumptions EP_creation_deletion_exclusive.

Theorem EP_deletion_both_sides_exclusive : forall e s,
  truth (gen_is_deletion e s) = true -> truth (gen_is_deletion e (other s)) = false.
Proof. intros e s. rewrite !gen_is_deletion_eq. apply deletion_both_sides_exclusive. Qed.
Print Assumptions EP_deletion_both_sides_exclusive.

(* both sides creations at once only when BOTH are forced; otherwise at most one side is a creation *)
Theorem EP_creation_both_sides_forced : forall e s,
  truth (gen_is_creation e s) = true -> truth (gen_is_creation e (other s)) = true ->
  s_force (sd e s) = true /\ s_force (sd e (other s)) = true.
Proof. intros e s. rewrite !gen_is_creation_eq. apply creation_both_sides_forced. Qed.
Print Assumptions EP_creation_both_sides_forced.

Theorem EP_creation_one_side_unless_forced : forall e s,
  s_force (sd e s) = false -> truth (gen_is_creation e s) = true -> truth (gen_is_creation e (other s)) = false.
Proof. intros e s. rewrite !gen_is_creation_eq. apply creation_one_side_unless_forced. Qed.
Print Assumptions EP_creation_one_side_unless_forced.

(* the pairs that are NOT exclusive (the witness sides are defined in EntryPredLaws.v) *)
Theorem EP_creation_both_sides_exclusive_refuted : ~ creation_both_sides_exclusive_full.
Proof. intro H. specialize (H (mk (forced_new false) (forced_new false)) SL eq_refl). discriminate H. Qed.
Print Assumptions EP_creation_both_sides_exclusive_refuted.

Theorem EP_creation_rename_exclusive_refuted : ~ creation_rename_exclusive_full.
Proof. intro H. specialize (H (mkp (new_side SFull) side0 false true) SL eq_refl). discriminate H. Qed.
Print Assumptions EP_creation_rename_exclusive_refuted.

Theorem EP_deletion_rename_exclusive_refuted : ~ deletion_rename_exclusive_full.
Proof. intro H. specialize (H (mkp gone_side (synced_side CNone) false true) SL eq_refl). discriminate H. Qed.
Print Assumptions EP_deletion_rename_exclusive_refuted.

Theorem EP_creation_other_side_deletion_exclusive_refuted : ~ creation_other_deletion_exclusive_full.
Proof. intro H. specialize (H (mk (new_side SNone) gone_side) SL eq_refl). discriminate H. Qed.
Print Assumptions EP_creation_other_side_deletion_exclusive_refuted.

(* rename = path change of a side that has a path; path change = a synced path and the provider says "differ" *)
Theorem EP_is_rename_iff : forall e s,
  truth (gen_is_rename e s) = true <-> truth (gen_is_path_change e s) = true /\ has_path (sd e s) = true.
Proof. intros e s. rewrite gen_is_rename_eq, gen_is_path_change_eq. apply is_rename_iff. Qed.
Print Assumptions EP_is_rename_iff.

Theorem EP_is_path_change_iff : forall e s,
  truth (gen_is_path_change e s) = true <-> s_sync_path (sd e s) = SFull /\ pm e s = false.
Proof. intros e s. rewrite gen_is_path_change_eq. apply is_path_change_iff. Qed.
Print Assumptions EP_is_path_change_iff.

Theorem EP_path_change_needs_sync : forall e s,
  truth (gen_is_path_change e s) = true -> changed_truthy (sd e s) = true -> has_oid (sd e s) = true ->
  truth (gen_side_needs_sync e s) = true.
Proof. intros e s. rewrite gen_is_path_change_eq, gen_side_needs_sync_eq. apply path_change_needs_sync. Qed.
Print Assumptions EP_path_change_needs_sync.

(* both sides have a hash and a path and BOTH changed their hash with respect to the synced hash *)
Theorem EP_hash_conflict_iff : forall e,
  truth (gen_hash_conflict e) = true <->
  has_hash (e_local e) = true /\ has_hash (e_remote e) = true /\
  s_path (e_local e) = SFull /\ s_path (e_remote e) = SFull /\
  s_hash (e_local e) <> s_sync_hash (e_local e) /\ s_hash (e_remote e) <> s_sync_hash (e_remote e).
Proof. intros e. rewrite gen_hash_conflict_eq. apply hash_conflict_iff. Qed.
Print Assumptions EP_hash_conflict_iff.

Theorem EP_hash_conflict_bool : forall e, is_bool (gen_hash_conflict e).
Proof. intros e. rewrite gen_hash_conflict_eq. apply hash_conflict_bool. Qed.
Print Assumptions EP_hash_conflict_bool.

(* it does NOT compare the two sides with each other: the same new content on both sides is a hash_conflict *)
Theorem EP_hash_conflict_sides_differ_refuted : ~ hash_conflict_sides_differ_full.
Proof. intro H. apply (H (mk (new_side SNone) (new_side SNone)) eq_refl). reflexivity. Qed.
Print Assumptions EP_hash_conflict_sides_differ_refuted.

Theorem EP_hash_conflict_needs_sync : forall e s,
  truth (gen_hash_conflict e) = true -> changed_truthy (sd e s) = true -> has_oid (sd e s) = true ->
  truth (gen_side_needs_sync e s) = true.
Proof. intros e s. rewrite gen_hash_conflict_eq, gen_side_needs_sync_eq. apply hash_conflict_needs_sync. Qed.
Print Assumptions EP_hash_conflict_needs_sync.

Theorem EP_is_discarded_iff : forall e,
  gen_is_discarded e = RTrue <-> e_ignored e = IDiscarded \/ e_ignored e = IIrrelevant.
Proof. intros e. rewrite gen_is_discarded_eq. apply is_discarded_iff. Qed.
Print Assumptions EP_is_discarded_iff.

Theorem EP_ignore_flags_bool : forall e,
  is_bool (gen_is_discarded e) /\ is_bool (gen_is_irrelevant e) /\ is_bool (gen_is_conflicted e) /\
  is_bool (gen_is_temp_rename e).
Proof. intros e. rewrite gen_is_discarded_eq, gen_is_irrelevant_eq, gen_is_conflicted_eq, gen_is_temp_rename_eq. apply ignore_flags_bool. Qed.
Print Assumptions EP_ignore_flags_bool.

Theorem EP_irrelevant_is_discarded : forall e, gen_is_irrelevant e = RTrue -> gen_is_discarded e = RTrue.
Proof. intros e. rewrite gen_is_irrelevant_eq, gen_is_discarded_eq. apply irrelevant_is_discarded. Qed.
Print Assumptions EP_irrelevant_is_discarded.

Theorem EP_ignore_flags_exclusive : forall e,
  (gen_is_discarded e = RTrue -> gen_is_conflicted e = RFalse /\ gen_is_temp_rename e = RFalse) /\
  (gen_is_conflicted e = RTrue -> gen_is_discarded e = RFalse /\ gen_is_temp_rename e = RFalse) /\
  (gen_is_temp_rename e = RTrue -> gen_is_discarded e = RFalse /\ gen_is_conflicted e = RFalse).
Proof. intros e. rewrite gen_is_discarded_eq, gen_is_conflicted_eq, gen_is_temp_rename_eq. apply ignore_flags_exclusive. Qed.
Print Assumptions EP_ignore_flags_exclusive.

Theorem EP_is_trash_iff : forall e,
  gen_is_trash e = RTrue <-> s_oid (e_local e) = SNone /\ s_oid (e_remote e) = SNone.
Proof. intros e. rewrite gen_is_trash_eq. apply is_trash_iff. Qed.
Print Assumptions EP_is_trash_iff.

Theorem EP_trash_needs_sync_only_forced : forall e s,
  gen_is_trash e = RTrue -> truth (gen_side_needs_sync e s) = s_force (sd e s).
Proof. intros e s. rewrite gen_is_trash_eq, gen_side_needs_sync_eq. apply trash_needs_sync_only_forced. Qed.
Print Assumptions EP_trash_needs_sync_only_forced.

(* `oid is None` is not truthiness: ids '' are falsy for needs_sync / is_creation but the entry is not trash *)
Theorem EP_trash_iff_no_truthy_id_refuted : ~ trash_iff_no_id_full.
Proof.
  intro H. destruct (H (mk empty_oid_side side0)) as [_ H2]. specialize (H2 (conj eq_refl eq_refl)). discriminate H2.
Qed.
Print Assumptions EP_trash_iff_no_truthy_id_refuted.

Theorem EP_is_latest_iff : forall e,
  truth (gen_is_latest e) = true <->
  truth (gen_is_latest_side e SL) = true /\ truth (gen_is_latest_side e SR) = true.
Proof. intros e. rewrite gen_is_latest_eq, !gen_is_latest_side_eq. apply is_latest_iff. Qed.
Print Assumptions EP_is_latest_iff.

Theorem EP_is_latest_side_iff : forall e s,
  truth (gen_is_latest_side e s) = true <-> max_changed e <= s_last_gotten (sd e s).
Proof. intros e s. rewrite gen_is_latest_side_eq. apply is_latest_side_iff. Qed.
Print Assumptions EP_is_latest_side_iff.

Theorem EP_corrupt_gone_is_corrupt : forall e s,
  truth (gen_corrupt_gone e s) = true -> gen_is_corrupt e s = RTrue /\ gen_corrupt_exists e s = RFalse.
Proof. intros e s. rewrite gen_corrupt_gone_eq, gen_is_corrupt_eq, gen_corrupt_exists_eq. apply corrupt_gone_is_corrupt. Qed.
Print Assumptions EP_corrupt_gone_is_corrupt.

Theorem EP_corrupt_alone_quiet : forall e s,
  s_exists (sd e s) = XCorrupt -> s_force (sd e s) = false -> s_hash (sd e s) = s_sync_hash (sd e s) -> pm e s = true ->
  truth (gen_side_needs_sync e s) = false.
Proof. intros e s. rewrite gen_side_needs_sync_eq. apply corrupt_alone_quiet. Qed.
Print Assumptions EP_corrupt_alone_quiet.

(* The backoff step of Runnable, as the current source computes it.  The generated step takes the three numbers one by
   one, LoopModel's takes them as a record (p_sleep is not read by increment); gen_increment_backoff b mult mn mx is
   increment (backoff_params mult mn mx) b by conversion (EP_gen_increment_backoff_eq). *)
Definition backoff_params (mult mn mx : Q) : params := {| p_min := mn; p_max := mx; p_mult := mult; p_sleep := 0 |}.

Theorem EP_backoff_range : forall b mult mn mx,
  mn <= mx -> mn <= gen_increment_backoff b mult mn mx /\ gen_increment_backoff b mult mn mx <= mx.
Proof. intros b mult mn mx. exact (LoopProofs.increment_range (backoff_params mult mn mx) b). Qed.
Print Assumptions EP_backoff_range.

Theorem EP_backoff_first : forall b mult mn mx,
  0 < mn -> mn <= mx -> b == 0 -> gen_increment_backoff b mult mn mx == mn.
Proof. intros b mult mn mx. exact (LoopProofs.increment_first (backoff_params mult mn mx) b). Qed.
Print Assumptions EP_backoff_first.

Theorem EP_backoff_step : forall b mult mn mx,
  1 <= mult -> 0 < mn -> mn <= mx -> mn <= b -> b <= mx ->
  gen_increment_backoff b mult mn mx == Qmin mx (b * mult).
Proof.
  (* LoopProofs.increment_step is stated for b == Qmin max x; here x := b *)
  intros b mult mn mx Hm H0 H1 Hb1 Hb2.
  apply (LoopProofs.increment_step (backoff_params mult mn mx) b b Hm H0 H1 Hb1).
  symmetry. apply Q.min_r. exact Hb2.
Qed.
Print Assumptions EP_backoff_step.

Theorem EP_backoff_cleared_on_success : forall b, 0 <= b -> gen_after_success true b == 0.
Proof.
  intros b H. unfold gen_after_success. simpl. destruct (Qltb 0 b) eqn:E; [reflexivity|].
  apply LoopProofs.Qltb_false in E. apply Qle_antisym; assumption.
Qed.
Print Assumptions EP_backoff_cleared_on_success.

Theorem EP_backoff_kept_when_nothing_happened : forall b, gen_after_success false b = b.
Proof. reflexivity. Qed.
Print Assumptions EP_backoff_kept_when_nothing_happened.

(* every failure kind (backoff request, Exception, BaseException) takes the same step *)
Theorem EP_backoff_every_failure_increments : forall p b o,
  is_failure o = true -> gen_after_do p b o = gen_increment_backoff b (p_mult p) (p_min p) (p_max p).
Proof. intros p b o H. rewrite EP_gen_after_do_eq. exact (LoopProofs.after_do_failure p b o H). Qed.
Print Assumptions EP_backoff_every_failure_increments.

(* non-vacuity: the predicates with non-trivial guards take both truth values, and the non-bool classes do occur *)
Example EP_examples_classes :
  gen_side_needs_sync (mk side0 side0) SL = RNone /\
  gen_side_needs_sync (mk (synced_side (CNum 0)) side0) SL = RZero /\
  gen_side_needs_sync (mk (synced_side CFalse) side0) SL = RFalse /\
  gen_side_needs_sync (mk empty_oid_side side0) SL = RNone /\
  gen_side_needs_sync (mk (new_side SNone) side0) SL = RTrue /\
  gen_side_needs_sync (mk (synced_side (CNum 5)) side0) SL = RFalse /\
  gen_is_deletion (mk gone_side (synced_side CNone)) SL = RObj /\
  gen_is_deletion (mk (new_side SNone) side0) SL = RFalse /\
  gen_is_path_change (mk side0 side0) SL = RNone /\
  gen_is_rename (mkp (new_side SFull) side0 false true) SL = RTrue.
Proof. vm_compute. repeat split. Qed.

Example EP_examples_truth :
  truth (gen_is_creation (mk (new_side SNone) side0) SL) = true /\
  truth (gen_is_creation (mk (synced_side (CNum 5)) side0) SL) = false /\
  truth (gen_hash_conflict (mk (new_side SNone) (new_side SNone))) = true /\
  truth (gen_hash_conflict (mk (new_side SNone) (synced_side CNone))) = false /\
  gen_is_trash (mk side0 side0) = RTrue /\ gen_is_trash (mk empty_oid_side side0) = RFalse /\
  truth (gen_is_latest (mk (synced_side (CNum 5)) side0)) = false /\
  truth (gen_is_latest (mk (synced_side (CNum 0)) side0)) = true /\
  truth (gen_needs_sync (mk side0 (new_side SNone))) = true.
Proof. vm_compute. repeat split. Qed.

(* both sides creations at once: the hypothesis of EP_creation_both_sides_forced is satisfiable *)
Example EP_creation_both_sides_nonvacuous :
  truth (gen_is_creation (mk (forced_new false) (forced_new false)) SL) = true /\
  truth (gen_is_creation (mk (forced_new false) (forced_new false)) SR) = true.
Proof. vm_compute. split; reflexivity. Qed.

Example EP_backoff_nonvacuous :
  map (fun b => Qred (gen_increment_backoff b 2 (1 # 100) 1)) [0; 1 # 100; 1 # 50; 3 # 5; 1] =
  [1 # 100; 1 # 50; 1 # 25; 1; 1].
Proof. vm_compute. reflexivity. Qed.
