(* PropAlgo.v — the algorithm layer of C01 / C03: theorems about AlgoModel.algo_step, the engine's own closed
   loop (EventManager.do -> SyncState.update; SyncState.change; SyncManager.pre_sync / sync / embrace_change /
   create_synced / upload_synced / delete_synced / finished / punt) over two ProvModel providers.
   Each Theorem is an instance of a general theorem of the Algo* files, or follows from one in a few lines (the
   statements about runs from the initial world), and is followed by Print Assumptions; Examples = non-vacuity.

   Reading guide.  [Inv g w] (AlgoInv.v) is the coupling invariant of fragment F1 between the sync state, both
   providers and the not-yet-taken-in events of world [w]; the ghost [g] records which objects users made and the
   contents written to each.  [SCtx g w e en] = Inv + "entry e (>= 2, value en) has just been refreshed from both
   providers" — the situation inside SyncManager.sync after pre_sync.  Statements that are open are absent, not
   admitted: DESIGN.md §3.3b, "NOT proved". *)
From Coq Require Import NArith List Bool.
From CS Require Import StateModel StateProofs AlgoModel AlgoCheck AlgoProofs AlgoState AlgoInv AlgoInit AlgoQuiet
     AlgoIntake AlgoSync AlgoLatest AlgoFinish AlgoSyncEntry AlgoStep AlgoUser AlgoCalls AlgoRun AlgoTotal AlgoSpec
     AlgoProgress.
Import ListNotations.
Local Open Scope N_scope.

Theorem ALGO_user_step_is_not_an_engine_step : forall w sd o,
  exists w', algo_step w (AUser sd o) = ROk (w', []) /\ w_st w' = w_st w /\ prov_of w' (negb sd) = prov_of w (negb sd).
Proof. exact user_step_no_engine_call. Qed.
Print Assumptions ALGO_user_step_is_not_an_engine_step.

(* the world after the first engine round on two empty roots (compared with the real engine at the start of every
   run of the tie), for every clock reading *)
Theorem ALGO_inv_initial : forall t0 lg0, lg0 <= t0 + 1 -> Inv g0 (world_init (cfg_std 1) t0 lg0).
Proof. exact init_inv. Qed.
Print Assumptions ALGO_inv_initial.

(* EventManager.do on one side: ALL pending events of that side, in order *)
Theorem ALGO_inv_intake : forall g w sd w', Inv g w -> intake w sd = ROk w' -> Inv g w'.
Proof. intros g w sd w' I H. destruct (intake_run g w sd I) as (w1 & E1 & I1 & _). congruence. Qed.
Print Assumptions ALGO_inv_intake.

(* SyncEntry.get_latest (any sides, forced or not): the invariant, both providers and every other entry's
   bookkeeping are kept; the clock never goes back *)
Theorem ALGO_inv_get_latest : forall evl g w e force sides w',
  InvP evl g w -> (2 <= e)%nat -> get_latest w e force sides = ROk w' ->
  InvP evl g w' /\ (forall sd0, prov_of w' sd0 = prov_of w sd0) /\
  (forall x sd0, x <> e -> getx w' x sd0 = getx w x sd0) /\ now (w_st w) <= now (w_st w') /\
  (forall sd0, x_tfile (getx w' e sd0) = x_tfile (getx w e sd0)) /\ length (ents (w_st w')) = length (ents (w_st w)) /\
  (forall x, set_mem x (cset (w_st w)) = true -> set_mem x (cset (w_st w')) = true).
Proof.
  intros evl g w e force sides w' I He H. destruct (nth_error (ents (w_st w)) e) as [en|] eqn:Hn.
  - destruct (get_latest_run evl g w e force sides en I He Hn) as (w1 & H1 & R). assert (w1 = w') by congruence. subst w1. exact R.
  - unfold get_latest, get_e, lift, get_ent in H. rewrite Hn in H. discriminate.
Qed.
Print Assumptions ALGO_inv_get_latest.

(* pre_sync's refresh of a live entry: afterwards each side is current unless an event for its object is pending *)
Theorem ALGO_inv_refresh_both : forall evl g w e w',
  InvP evl g w -> (2 <= e)%nat ->
  (forall en, nth_error (ents (w_st w)) e = Some en -> is_discarded (e_ign en) = false) ->
  get_latest w e false [false; true] = ROk w' ->
  InvP evl g w' /\ ReadyS evl w' e false /\ ReadyS evl w' e true /\ (forall sd0, prov_of w' sd0 = prov_of w sd0) /\
  (forall x sd0, x <> e -> getx w' x sd0 = getx w x sd0) /\
  (exists en en', nth_error (ents (w_st w)) e = Some en /\ nth_error (ents (w_st w')) e = Some en' /\ e_ign en' = e_ign en /\
                  maxchg en' <= N.max (maxchg en) (now (w_st w'))) /\
  now (w_st w) <= now (w_st w') /\
  (forall en' sd, nth_error (ents (w_st w')) e = Some en' -> s_oid (gs en' sd) <> None -> ShapeS (gs en' sd)).
Proof. exact get_latest_both. Qed.
Print Assumptions ALGO_inv_refresh_both.

(* sync(): "marked changed but does not need sync" *)
Theorem ALGO_inv_clear_changed : forall g w e en side w1,
  SCtx g w e en -> needs_sync (cfg_std 1) side (gs en side) = false -> tchg (s_chg (gs en side)) = true ->
  AlgoModel.set_changed w e side (CNum 0) = ROk w1 ->
  SCtx g w1 e (clr en side).
Proof. exact clear_changed_pres. Qed.
Print Assumptions ALGO_inv_clear_changed.

(* SyncManager.finished(side, sync).  The side condition is what the callers establish: if the side's object was
   made by a user, is current and has no pending event, then the entry is paired, the object is alive and
   hash = sync_hash.  A discarded entry needs no refresh. *)
Theorem ALGO_inv_finished : forall g w e en side w',
  Inv g w -> (2 <= e)%nat -> nth_error (ents (w_st w)) e = Some en ->
  (is_discarded (e_ign en) = false -> ReadyAll (real_evl w) w e en) ->
  (is_discarded (e_ign en) = false -> forall sd0, s_oid (gs en sd0) <> None -> ShapeS (gs en sd0)) ->
  (forall k ob cs, s_oid (gs en side) = Some (ostr_k k) -> obj_at w side k = Some ob -> pd (real_evl w) side k = false ->
     freshP (gs en side) ob -> is_discarded (e_ign en) = false -> g_get k (g_of g side) = Some cs ->
     s_oid (gs en (negb side)) <> None /\ ProvModel.o_exists ob = true /\ s_hash (gs en side) = s_shash (gs en side)) ->
  AlgoModel.finished w e side = ROk w' ->
  Inv g w' /\ (forall x sd0, x <> e -> getx w' x sd0 = getx w x sd0) /\ (forall sd0, x_tfile (getx w' e sd0) = None) /\
  (forall sd0, prov_of w' sd0 = prov_of w sd0) /\
  exists en', nth_error (ents (w_st w')) e = Some en' /\ same_but_prio (clr en side) en'.
Proof.
  intros g w e en side w' I He Hn Hr Hshp Hjust H. destruct (finished_run0 g w e en side I He Hn Hr Hshp Hjust) as (w1 & E & R).
  rewrite E in H. injection H as <-. exact R.
Qed.
Print Assumptions ALGO_inv_finished.

(* SyncEntry.punt() *)
Theorem ALGO_inv_punt : forall g w e en w',
  SCtx g w e en -> maxchg en <= now (w_st w) -> punt w e = ROk w' ->
  Inv g w' /\ (forall x sd0, getx w' x sd0 = getx w x sd0).
Proof.
  intros g w e en w' SC Htight H. destruct (punt_run g w e en SC Htight) as (w1 & E & A & B & _).
  rewrite E in H. injection H as <-. exact (conj A B).
Qed.
Print Assumptions ALGO_inv_punt.

(* download_changed on a file that was deleted meanwhile: exists := MISSING *)
Theorem ALGO_inv_download_missing : forall g w e en s k ob p w2,
  SCtx g w e en -> s_oid (gs en s) = Some (ostr_k k) -> obj_at w s k = Some ob -> ProvModel.o_exists ob = false ->
  x_tfile (getx w e s) = None ->
  weff (tname_world w e s en p) w2 e (ss en s (w_ex (gs en s) ExMissing)) None ->
  SCtx g w2 e (ss en s (w_ex (gs en s) ExMissing)) /\
  maxchg (ss en s (w_ex (gs en s) ExMissing)) = maxchg en /\ now (w_st w) <= now (w_st w2) /\
  (forall x sd0, x <> e -> getx w2 x sd0 = getx w x sd0) /\ x_tfile (getx w2 e s) = None /\
  getx w2 e (negb s) = getx w e (negb s).
Proof. exact missing_pres. Qed.
Print Assumptions ALGO_inv_download_missing.

(* _create_synced + create_synced after a successful download: the call succeeds, answers FINISHED, keeps the
   invariant, pairs the entry and leaves hash = sync_hash on the changed side; origin provider untouched *)
Theorem ALGO_inv_create_synced : forall g w e en s k ob cs n w3 calls rs,
  SCtx g w e en -> e_ign en = INone ->
  s_oid (gs en s) = Some (ostr_k k) -> obj_at w s k = Some ob -> ProvModel.o_exists ob = true ->
  g_get k (g_of g s) = Some cs ->
  s_oid (gs en (negb s)) = None ->
  ProvModel.o_path ob = [root_name s; n] -> name_ok n = true ->
  s_path (gs en s) = Some (pstr [root_name s; n]) -> tchg (s_chg (gs en s)) = true ->
  x_tfile (getx w e s) = None ->
  create_synced (setx (tname_world w e s en (pstr [root_name s; n])) e s (set_tfile (ProvModel.o_data ob))) e s
                (pstr [root_name (negb s); n]) = ROk (w3, calls, rs) ->
  rs = Finished /\ exists en3, SCtx g w3 e en3 /\
    s_oid (gs en3 s) = Some (ostr_k k) /\ s_oid (gs en3 (negb s)) <> None /\ s_hash (gs en3 s) = s_shash (gs en3 s) /\
    e_ign en3 = INone /\ prov_of w3 s = prov_of w s /\
    (forall x sd0, x <> e -> getx w3 x sd0 = getx w x sd0) /\ (forall sd0, x_lg (getx w3 e sd0) = x_lg (getx w e sd0)) /\
    (forall sd0 k0 cs0, g_get k0 (g_of g sd0) = Some cs0 -> obj_at w3 sd0 k0 = obj_at w sd0 k0).
Proof.
  intros g w e en s k ob cs n w3 calls rs SC Hign Ho Hob _ Hg Hot Hpath Hnok Hsp Hc Htf H.
  exact (answers_ok _ _ _ _ (create_answers g w e en s k ob cs n SC Hign Ho Hob Hg Hot Hpath Hnok Hsp Hc Htf) H).
Qed.
Print Assumptions ALGO_inv_create_synced.

(* upload_synced after a successful download *)
Theorem ALGO_inv_upload_synced : forall g w e en s k ob cs k' ob' n w3 calls up,
  SCtx g w e en -> e_ign en = INone ->
  s_oid (gs en s) = Some (ostr_k k) -> obj_at w s k = Some ob -> ProvModel.o_exists ob = true ->
  g_get k (g_of g s) = Some cs ->
  s_oid (gs en (negb s)) = Some (ostr_k k') -> obj_at w (negb s) k' = Some ob' ->
  ProvModel.o_path ob = [root_name s; n] ->
  s_path (gs en s) = Some (pstr [root_name s; n]) -> tchg (s_chg (gs en s)) = true ->
  x_tfile (getx w e s) = None ->
  upload_synced (setx (tname_world w e s en (pstr [root_name s; n])) e s (set_tfile (ProvModel.o_data ob))) e s = ROk (w3, calls, up) ->
  up = true /\ exists en3, SCtx g w3 e en3 /\
    s_oid (gs en3 s) = Some (ostr_k k) /\ s_oid (gs en3 (negb s)) <> None /\ s_hash (gs en3 s) = s_shash (gs en3 s) /\
    e_ign en3 = INone /\ prov_of w3 s = prov_of w s /\
    (forall x sd0, x <> e -> getx w3 x sd0 = getx w x sd0) /\ (forall sd0, x_lg (getx w3 e sd0) = x_lg (getx w e sd0)) /\
    (forall sd0 k0 cs0, g_get k0 (g_of g sd0) = Some cs0 -> obj_at w3 sd0 k0 = obj_at w sd0 k0).
Proof. exact upload_pres. Qed.
Print Assumptions ALGO_inv_upload_synced.

(* delete_synced: the mirror is deleted (if there is one) and the entry discarded *)
Theorem ALGO_inv_delete_synced : forall g w e en s k w3 calls rs,
  SCtx g w e en -> e_ign en = INone -> s_ex (gs en s) = ExTrashed -> s_oid (gs en s) = Some (ostr_k k) ->
  delete_synced w e s = ROk (w3, calls, rs) ->
  rs = Finished /\ exists en3, SCtx g w3 e en3 /\ is_discarded (e_ign en3) = true /\
    (forall x sd0, getx w3 x sd0 = getx w x sd0) /\
    (forall sd0 k0 cs0, g_get k0 (g_of g sd0) = Some cs0 -> obj_at w3 sd0 k0 = obj_at w sd0 k0).
Proof.
  intros g w e en s k w3 calls rs SC Hign Hex Ho H.
  destruct (delete_run g w e en s k SC Hign Hex Ho) as [H'|(w3' & calls' & H' & R)]; rewrite H' in H; [discriminate|].
  injection H as <- <- <-. split; [reflexivity|exact R].
Qed.
Print Assumptions ALGO_inv_delete_synced.

(* SyncManager.do = SyncState.change (path-filling loop, tick, pick) + pre_sync + sync + storage_commit, for EVERY
   iteration order of the change set and every world satisfying the invariant; no temp file outlives the step;
   [OwnFrame g w w']: every object a user made is, cell for cell, what it was (the engine only makes, writes and
   deletes its own mirrors) *)
Theorem ALGO_inv_sync_step : forall g w order w' cs,
  Inv g w -> NoTmp w -> sync_step w order = ROk (w', cs) -> Inv g w' /\ NoTmp w' /\ OwnFrame g w w'.
Proof. exact sync_step_pres. Qed.
Print Assumptions ALGO_inv_sync_step.

(* every engine action (event intake of a side, or a sync step), at every clock reading *)
Theorem ALGO_inv_engine_step : forall g w a w' cs,
  Inv g w -> NoTmp w -> (forall sd o, a <> AUser sd o) -> algo_step w a = ROk (w', cs) -> Inv g w' /\ NoTmp w' /\ OwnFrame g w w'.
Proof. exact engine_step_pres. Qed.
Print Assumptions ALGO_inv_engine_step.

(* no pending event on either side and an empty change set: the two root-relative trees are equal as sets *)
Theorem ALGO_quiescent_equal_under_inv : forall g w, Inv g w -> quiescent w = true ->
  forall rel kd d, In (rel, (kd, d)) (rel_view w false) <-> In (rel, (kd, d)) (rel_view w true).
Proof. exact inv_quiescent_equal. Qed.
Print Assumptions ALGO_quiescent_equal_under_inv.

(* [Dom used lvL lvR g w] links the bookkeeping of the domain predicate in_F1 (names used so far; per side the files
   its user made and still has, with the contents written) to the world.  Each user operation the domain allows
   succeeds on the provider, keeps the invariant (the ghost grows) and the link. *)
Theorem ALGO_inv_user_create : forall used lvL lvR g w sd n d,
  Inv g w -> NoTmp w -> Dom used lvL lvR g w -> name_ok n = true -> name_mem n used = false ->
  exists g', Inv g' (user_op w sd (UCreate [n] d)) /\ NoTmp (user_op w sd (UCreate [n] d)) /\
     (forall k, g_get k (g_of g' (negb sd)) = g_get k (g_of g (negb sd))) /\
     Dom (n :: used) (if sd then lvL else ([n], [d]) :: lvL) (if sd then ([n], [d]) :: lvR else lvR) g' (user_op w sd (UCreate [n] d)).
Proof. exact user_create_pres. Qed.
Print Assumptions ALGO_inv_user_create.

Theorem ALGO_inv_user_write : forall used lvL lvR g w (sd : bool) rel d cs,
  Inv g w -> NoTmp w -> Dom used lvL lvR g w ->
  live_get rel (if sd then lvR else lvL) = Some cs -> n_mem d cs = false ->
  exists g', Inv g' (user_op w sd (UWrite rel d)) /\ NoTmp (user_op w sd (UWrite rel d)) /\
    (forall k, g_get k (g_of g' (negb sd)) = g_get k (g_of g (negb sd))) /\
    Dom used (if sd then lvL else (rel, d :: cs) :: live_del rel lvL) (if sd then (rel, d :: cs) :: live_del rel lvR else lvR)
        g' (user_op w sd (UWrite rel d)).
Proof. exact user_write_pres. Qed.
Print Assumptions ALGO_inv_user_write.

Theorem ALGO_inv_user_delete : forall used lvL lvR g w (sd : bool) rel cs,
  Inv g w -> NoTmp w -> Dom used lvL lvR g w ->
  live_get rel (if sd then lvR else lvL) = Some cs ->
  exists g', Inv g' (user_op w sd (UDelete rel)) /\ NoTmp (user_op w sd (UDelete rel)) /\
    (forall k, g_get k (g_of g' (negb sd)) = g_get k (g_of g (negb sd))) /\
    Dom used (if sd then lvL else live_del rel lvL) (if sd then live_del rel lvR else lvR) g' (user_op w sd (UDelete rel)).
Proof. exact user_delete_pres. Qed.
Print Assumptions ALGO_inv_user_delete.

(* [acts] = any interleaving of user operations, per-side intake steps and sync steps, each engine step with any
   clock reading and any iteration order of the change set; [history_of acts] = its user operations, in F1's domain.
   Every world such a run reaches (i.e. the model answers ROk all the way) satisfies the coupling invariant. *)
Theorem ALGO_inv_reachable : forall t0 lg0 acts w,
  lg0 <= t0 + 1 -> in_F1 (cfg_std 1) (history_of acts) = true ->
  algo_run (world_init (cfg_std 1) t0 lg0) acts = ROk w -> exists g, Inv g w /\ NoTmp w.
Proof. exact algo_inv_reachable. Qed.
Print Assumptions ALGO_inv_reachable.

(* two-way convergence, safety half (C01) and one-sided mirror (C03, as the special case of a one-sided history):
   whenever such a run is quiescent - no pending event on either side, empty change set - the two root-relative
   trees are equal *)
Theorem ALGO_quiescent_equal : forall t0 lg0 acts w,
  lg0 <= t0 + 1 -> in_F1 (cfg_std 1) (history_of acts) = true ->
  algo_run (world_init (cfg_std 1) t0 lg0) acts = ROk w -> quiescent w = true ->
  forall rel kd d, In (rel, (kd, d)) (rel_view w false) <-> In (rel, (kd, d)) (rel_view w true).
Proof. exact algo_quiescent_equal. Qed.
Print Assumptions ALGO_quiescent_equal.

(* [spec_L h] / [spec_R h]: the files the LOCAL / REMOTE user made and still has after history h, each with the contents
   written to it, latest first - a function of the history alone ([dom_after], the bookkeeping of the domain predicate).
   [in_lv lv rel d]: lv lists file rel with d as its latest content.  For every in-domain history and every schedule:
   a quiescent world holds on BOTH sides exactly these files with exactly these contents - nothing lost, nothing invented,
   nothing else (no conflict copies, no folders). *)
Theorem ALGO_quiescent_spec : forall t0 lg0 acts w,
  lg0 <= t0 + 1 -> in_F1 (cfg_std 1) (history_of acts) = true ->
  algo_run (world_init (cfg_std 1) t0 lg0) acts = ROk w -> quiescent w = true ->
  forall sd rel kd d, In (rel, (kd, d)) (rel_view w sd) <->
                      (kd = ProvModel.KFile /\ (in_lv (spec_L (history_of acts)) rel d \/ in_lv (spec_R (history_of acts)) rel d)).
Proof.
  intros t0 lg0 acts w Hlg HF H Hq. destruct (algo_run_dom t0 lg0 acts w Hlg HF H) as (g & used & I & D).
  exact (quiescent_is_spec used _ _ g w I D Hq).
Qed.
Print Assumptions ALGO_quiescent_spec.

(* C02 at every moment, not only at quiet: whatever the engine is doing, a file a user made and still has is live on
   that user's own side with the content the user wrote last *)
Theorem ALGO_own_files_kept : forall t0 lg0 acts w,
  lg0 <= t0 + 1 -> in_F1 (cfg_std 1) (history_of acts) = true ->
  algo_run (world_init (cfg_std 1) t0 lg0) acts = ROk w ->
  forall rel d, (in_lv (spec_L (history_of acts)) rel d -> In (rel, (ProvModel.KFile, d)) (rel_view w false)) /\
                (in_lv (spec_R (history_of acts)) rel d -> In (rel, (ProvModel.KFile, d)) (rel_view w true)).
Proof.
  intros t0 lg0 acts w Hlg HF H rel d. destruct (algo_run_dom t0 lg0 acts w Hlg HF H) as (g & used & I & D).
  split; [exact (listed_in_view used _ _ g w false rel d I D)|exact (listed_in_view used _ _ g w true rel d I D)].
Qed.
Print Assumptions ALGO_own_files_kept.

(* the same from any world satisfying the invariant and linked to the bookkeeping *)
Theorem ALGO_quiescent_is_spec : forall used lvL lvR g w,
  Inv g w -> Dom used lvL lvR g w -> quiescent w = true ->
  forall sd rel kd d, In (rel, (kd, d)) (rel_view w sd) <-> (kd = ProvModel.KFile /\ (in_lv lvL rel d \/ in_lv lvR rel d)).
Proof. exact quiescent_is_spec. Qed.
Print Assumptions ALGO_quiescent_is_spec.

(* In every reachable world the change set is EXACTLY the set of entries that carry a change flag and an id (the
   invariant records exactness, not only completeness; StateModel's clause (iv) at full strength is refuted in
   general - C11 - but holds on this fragment). *)
Theorem ALGO_change_set_exact : forall t0 lg0 acts w e en,
  lg0 <= t0 + 1 -> in_F1 (cfg_std 1) (history_of acts) = true ->
  algo_run (world_init (cfg_std 1) t0 lg0) acts = ROk w -> nth_error (ents (w_st w)) e = Some en ->
  (set_mem e (cset (w_st w)) = true <-> flagged en = true).
Proof.
  intros t0 lg0 acts w e en Hlg HF H Hn. destruct (algo_inv_reachable t0 lg0 acts w Hlg HF H) as (g & I & _).
  exact (change_set_exact g w e en I Hn).
Qed.
Print Assumptions ALGO_change_set_exact.

(* SyncManager.do is never idle while work is pending: with a non-empty change set, after the path-filling loop and the
   clock tick of the step, the selection of SyncState.change (ageing 0) returns an entry - for every iteration order.
   (ALGO_quiescent_stable is the other half: at quiet an engine step does nothing.  While the only work is a pending
   event a sync step is idle all the same: the change set is empty until that side's intake.)  The bound itself - a measure
   that a fair round decreases - is NOT proved; see notes/ALGO_design.md section 7. *)
Theorem ALGO_selection_not_idle : forall g w order w1,
  Inv g w -> cset (w_st w) <> [] ->
  fill_paths w (norm_order order (cset (w_st w))) = ROk w1 ->
  pick (w_st (fst (tick w1))) (norm_order order (cset (w_st w))) (now (w_st w1) + 1000) <> None.
Proof. exact selection_not_idle. Qed.
Print Assumptions ALGO_selection_not_idle.

(* The theorems above are about runs on which the model answers ROk.  The model has 28 OutOfFragment codes plus the
   error results of the SyncState operations (assertion failures, KeyError ...).  On in-domain runs under ANY schedule
   all but FOUR are proved unreachable: an in-domain run either goes through or stops with a code of
   [G_SYNC] = X_LEVEL + 3 (_get_parent_conflict found a conflict), X_MISSING (handle_changed_is_missing), X_PEERS
   (check_disjoint_create found another entry on the translated path), X_DELETE_OTHER (delete_synced found another entry
   on the path).  That these four never fire on in-domain runs is measured by the tie (DESIGN.md has the numbers), not
   proved: three of them depend on lookup_path, whose result lists are only characterised up to key-uniqueness of the
   (path, id) index, which StateModel's index invariant does not state; X_MISSING needs finer clock clauses.  Proved
   unreachable in particular: every SyncState assertion / KeyError / RecursionError, every refusal of a provider call
   the engine issues - create (the translated path is free: user-made objects have pairwise different names, [Uniq]),
   upload, delete, download -, translate() = None and handle_hash_diff with the other side gone (a side refreshed since
   its entry last changed shows an existing object with its path or a gone one: clause [i_seen] of the invariant),
   hash_conflict, path_conflict, the split guard of bbf04b7/0292e7f, CONFLICT and IRRELEVANT entries, events for the
   sync root. *)
Theorem ALGO_out_of_fragment_guards : forall t0 lg0 acts c,
  lg0 <= t0 + 1 -> in_F1 (cfg_std 1) (history_of acts) = true ->
  algo_run (world_init (cfg_std 1) t0 lg0) acts = OutOfFragment c -> In c G_SYNC.
Proof.
  intros t0 lg0 acts c Hlg HF H.
  exact (run_guards acts [] [] [] g0 _ c (init_inv t0 lg0 Hlg) (NoTmp_init _ _ _) (Dom_init _ _ _) HF H).
Qed.
Print Assumptions ALGO_out_of_fragment_guards.

(* one engine step, from any world satisfying the invariant in which user-made objects have different names *)
Theorem ALGO_engine_step_guards : forall g w a c,
  Inv g w -> NoTmp w -> Uniq g w -> algo_step w a = OutOfFragment c -> In c G_SYNC.
Proof. exact engine_step_guards. Qed.
Print Assumptions ALGO_engine_step_guards.

(* event intake always answers, whatever is pending *)
Theorem ALGO_intake_total : forall g w sd, Inv g w -> exists w', intake w sd = ROk w'.
Proof. exact intake_total. Qed.
Print Assumptions ALGO_intake_total.

(* pre_sync always answers (get_latest of both sides, or the finishing of a discarded entry) *)
Theorem ALGO_pre_sync_total : forall g w e en, Inv g w -> (2 <= e)%nat -> nth_error (ents (w_st w)) e = Some en ->
  exists r, pre_sync w e = ROk r.
Proof. intros g w e en I He Hn. destruct (pre_sync_run g w e en I He Hn) as (w' & done & E & _). eauto. Qed.
Print Assumptions ALGO_pre_sync_total.

(* a sync step can only stop inside SyncManager.sync on the picked, refreshed entry: SyncState.change with the provider
   calls of its path-filling loop, the pick and pre_sync always answer *)
Theorem ALGO_sync_step_total_up_to_sync : forall g w order c,
  Inv g w -> NoTmp w -> sync_step w order = OutOfFragment c ->
  exists w3 e en3, SCtx g w3 e en3 /\ e_ign en3 = INone /\ notmp w3 e /\ maxchg en3 <= now (w_st w3) /\
                   sync_entry w3 e = OutOfFragment c /\ OwnFrame g w w3.
Proof. exact sync_step_total_up_to_sync. Qed.
Print Assumptions ALGO_sync_step_total_up_to_sync.

(* the three guards at the top of SyncManager.sync never fire on F1 *)
Theorem ALGO_sync_top_guards_false : forall g w e en, SCtx g w e en -> e_ign en = INone ->
  split_guard (cfg_std 1) en false = false /\ split_guard (cfg_std 1) en true = false /\
  hash_conflict en = false /\ path_conflict (cfg_std 1) en = false.
Proof.
  exact (fun g w e en SC Hi => conj (split_guard_false g w e en false SC) (conj (split_guard_false g w e en true SC)
           (conj (hash_conflict_false g w e en SC Hi) (path_conflict_false g w e en SC Hi)))).
Qed.
Print Assumptions ALGO_sync_top_guards_false.

(* [algo_run_calls] = algo_run keeping the engine-issued provider calls of every step (the calls the tie compares with
   the real engine's, step by step).  [CallsOk g cs]: every call goes to the side opposite to a side that holds a
   user-made object.  One engine step, from any world satisfying the invariant: *)
Theorem ALGO_engine_calls : forall g w a w' cs,
  Inv g w -> NoTmp w -> algo_step w a = ROk (w', cs) -> CallsOk g cs.
Proof. exact engine_step_calls. Qed.
Print Assumptions ALGO_engine_calls.

(* C03, no echo: sync() on behalf of a side whose object the engine made itself (the events of such an object are the
   echo of the engine's own create / upload) issues no provider call, whatever the state of the entry *)
Theorem ALGO_echo_absorbed : forall g w e en s k w' cs fl,
  SCtx g w e en -> e_ign en = INone -> s_oid (gs en s) = Some (ostr_k k) -> g_get k (g_of g s) = None ->
  sync_side w e s = ROk (w', cs, fl) -> cs = [].
Proof. exact mirror_side_no_calls. Qed.
Print Assumptions ALGO_echo_absorbed.

(* C03, no echo after quiet: in a quiescent world an engine action issues no provider call, changes neither provider's
   objects nor any entry, and leaves the world quiescent - nothing happens after quiet until a user acts *)
Theorem ALGO_quiescent_stable : forall g w a w' cs,
  Inv g w -> quiescent w = true -> (forall sd o, a <> AUser sd o) -> algo_step w a = ROk (w', cs) ->
  cs = [] /\ quiescent w' = true /\ ents (w_st w') = ents (w_st w) /\
  (forall sd, ProvModel.p_heap (prov_of w' sd) = ProvModel.p_heap (prov_of w sd)).
Proof. exact quiescent_stable. Qed.
Print Assumptions ALGO_quiescent_stable.

(* users act on side sd only (any in-domain history, any schedule) => EVERY provider call the engine issues in the
   whole run - create / upload / delete / rename / mkdir, successful or refused - goes to the other side *)
Theorem ALGO_origin_untouched : forall t0 lg0 acts sd w cs,
  lg0 <= t0 + 1 -> in_F1 (cfg_std 1) (history_of acts) = true -> one_sided sd (history_of acts) = true ->
  algo_run_calls (world_init (cfg_std 1) t0 lg0) acts = ROk (w, cs) -> on_side (negb sd) cs.
Proof.
  intros t0 lg0 acts sd w cs Hlg HF H1 H.
  apply (run_calls acts [] [] [] g0 _ w cs sd (init_inv t0 lg0 Hlg) (NoTmp_init _ _ _) (Dom_init _ _ _)); [|exact HF|exact H1|exact H].
  intros k. destruct sd; reflexivity.
Qed.
Print Assumptions ALGO_origin_untouched.

(* dropping "a content written to a file is new for that file" from the domain: a one-sided history of 4
   operations on which the faithful model (and the real engine, step for step) ends quiescent and unequal *)
Theorem ALGO_quiescent_equal_full_refuted :
  exists w, algo_run (world_init (cfg_std 1) aba_t0 aba_lg0) aba_actions = ROk w /\
            quiescent w = true /\ views_equal w = false /\
            In ([[102]], (ProvModel.KFile, 2)) (rel_view w false) /\ In ([[102]], (ProvModel.KFile, 3)) (rel_view w true) /\
            history_of aba_actions = [(false, UCreate [[103]] 1); (false, UCreate [[102]] 2); (false, UWrite [[102]] 3); (false, UWrite [[102]] 2)] /\
            one_sided false (history_of aba_actions) = true /\
            in_F (cfg_std 1) (history_of aba_actions) = false /\
            in_F (cfg_std 1) [(false, UCreate [[103]] 1); (false, UCreate [[102]] 2); (false, UWrite [[102]] 3); (false, UWrite [[102]] 4)] = true.
Proof. eexists. split; [vm_compute; reflexivity|]. vm_compute. repeat split; auto. Qed.
Print Assumptions ALGO_quiescent_equal_full_refuted.

(* the invariant is satisfiable, and so is the hypothesis pair of ALGO_quiescent_equal_under_inv *)
Example ALGO_ex_inv_and_quiescent :
  Inv g0 (world_init (cfg_std 1) 1016000 1013000) /\ quiescent (world_init (cfg_std 1) 1016000 1013000) = true.
Proof. split; [apply init_inv; discriminate|reflexivity]. Qed.
(* the hypotheses of ALGO_inv_reachable / ALGO_quiescent_equal are met by a run in which the engine creates two files,
   uploads a later content of one of them and goes quiet with equal trees (recorded from the real engine) *)
Example ALGO_ex_run :
  in_F1 (cfg_std 1) (history_of conv_actions) = true /\ one_sided false (history_of conv_actions) = true /\
  exists w, algo_run (world_init (cfg_std 1) aba_t0 aba_lg0) conv_actions = ROk w /\
            quiescent w = true /\ views_equal w = true /\
            In ([[102]], (ProvModel.KFile, 4)) (rel_view w false) /\ In ([[102]], (ProvModel.KFile, 4)) (rel_view w true) /\
            In ([[103]], (ProvModel.KFile, 1)) (rel_view w true).
Proof.
  split; [reflexivity|]. split; [reflexivity|].
  eexists. split; [vm_compute; reflexivity|]. vm_compute. repeat split; auto.
Qed.
(* ... and in that run the engine issues 3 provider calls (2 creates, 1 upload), all on REMOTE, all successful *)
Example ALGO_ex_run_calls :
  exists w cs, algo_run_calls (world_init (cfg_std 1) aba_t0 aba_lg0) conv_actions = ROk (w, cs) /\
               map cl_side cs = [true; true; true] /\ map cl_ok cs = [true; true; true].
Proof.
  eexists _, _. split; [vm_compute; reflexivity|split; reflexivity].
Qed.
(* the specification of that run: LOCAL's user has f with contents 4 (then 3, 2) and g with content 1; REMOTE's has none *)
Example ALGO_ex_spec :
  spec_L (history_of conv_actions) = [([[102]], [4; 3; 2]); ([[103]], [1])] /\ spec_R (history_of conv_actions) = [].
Proof. split; reflexivity. Qed.
(* the domain of F1 is inhabited by histories that make the engine work *)
Example ALGO_ex_domain : in_F1 (cfg_std 1) [(false, UCreate [[102]] 2); (true, UCreate [[103]] 1); (false, UWrite [[102]] 3); (false, UDelete [[102]])] = true.
Proof. reflexivity. Qed.
