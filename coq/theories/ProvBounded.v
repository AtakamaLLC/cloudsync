(* ProvBounded.v — a small alphabet of calls and the three flavours other than path-style + case-insensitive:
   the domain of C16_prov_wf_partial (PropC16.v). *)
From Coq Require Import NArith List.
From CS Require Import ProvModel.
Import ListNotations.

Fixpoint seqs (alpha : list op) (n : nat) : list (list op) :=
  match n with
  | O => [[]]
  | S m => [] :: flat_map (fun o => map (cons o) (seqs alpha m)) alpha
  end.

Lemma in_seqs_nil alpha m : In [] (seqs alpha m).
Proof. destruct m; simpl; auto. Qed.

Lemma in_seqs_cons alpha m o t : In o alpha -> In t (seqs alpha m) -> In (o :: t) (seqs alpha (S m)).
Proof. intros Ho Ht. simpl. right. apply in_flat_map. exists o. split; [exact Ho|]. apply in_map. exact Ht. Qed.

Definition bn_a : name := [97%N].
Definition bn_A : name := [65%N].
Definition bn_b : name := [98%N].
Definition bpaths : list path := [[bn_a]; [bn_A]; [bn_b]; [bn_a; bn_b]].
Definition bcfg (oidpath cs : bool) : cfg := {| c_oidpath := oidpath; c_cs := cs; c_forbidden := [] |}.

Definition bkeys (c : cfg) : list key :=
  if c_oidpath c then map KPath bpaths else [KId 1%N; KId 2%N; KId 3%N].

Definition balpha (c : cfg) : list op :=
  map (fun p => OCreate p 1%N) bpaths ++ map OMkdir bpaths
  ++ flat_map (fun k => map (ORename k) bpaths) (bkeys c)
  ++ map ODelete (bkeys c) ++ [OUpload (hd (KId 1%N) (bkeys c)) 2%N].

Definition bcfgs : list cfg := [bcfg false true; bcfg false false; bcfg true true].
