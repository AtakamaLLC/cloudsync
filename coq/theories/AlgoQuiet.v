(* AlgoQuiet.v — what rel_view shows on F1 (view_file / file_in_view: the live files directly in the sync root), and:
   invariant + no pending event + empty change set  =>  the two root-relative trees are equal.  The idea is [mirror_agrees]:
   of a paired entry without flags one side is the engine's mirror of the other, with the same leaf name and content. *)
From Coq Require Import NArith List Bool Arith Lia.
From CS Require Import Sx Str PathModel StateModel StateProofs ProvModel ProvProofs AlgoModel AlgoCheck AlgoState AlgoProv AlgoInv.
Import ListNotations.

Definition live_at (p : prov) (q : path) (kd : okind) (d : N) : Prop :=
  exists k o, nth_error (p_heap p) k = Some o /\ o_exists o = true /\ o_path o = q /\ o_kind o = kd /\ o_data o = d.

Lemma In_insert_entry e x l : In x (insert_entry e l) <-> x = e \/ In x l.
Proof.
  induction l as [|a l IH]; simpl; [intuition|].
  destruct (path_leb (fst e) (fst a)); simpl; [intuition|]. rewrite IH. intuition.
Qed.
Lemma In_sort_entries x l : In x (sort_entries l) <-> In x l.
Proof.
  unfold sort_entries. induction l as [|a l IH]; simpl; [reflexivity|]. rewrite In_insert_entry, IH. intuition.
Qed.
Lemma tree_view_live p q kd d : PWF p -> (In (q, (kd, d)) (tree_view p) <-> live_at p q kd d).
Proof.
  intros W. unfold tree_view. rewrite In_sort_entries, in_flat_map. split.
  - intros (r & _ & H). destruct (nth_error (p_heap p) r) as [x|] eqn:Ex; [|contradiction].
    destruct (o_exists x) eqn:El; [|contradiction]. destruct H as [H|[]]. injection H as <- <- <-.
    exists r, x. auto.
  - intros (k & o & Hn & Hl & Hp & Hk & Hd). exists k. split.
    + apply dedup_in. unfold fs_refs. apply in_flat_map. exists (KPath (o_path o), k). split; [|left; reflexivity].
      apply dget_in. apply (pw_live_path p W k o Hn Hl).
    + rewrite Hn, Hl. left. subst. reflexivity.
Qed.

Lemma rel_view_live w sd rel kd d : PWF (prov_of w sd) ->
  (In (rel, (kd, d)) (rel_view w sd) <->
   exists q, is_under (p_cfg (prov_of w sd)) (root_of (w_cfg w) sd) q = true /\ rel = skipn (length (root_of (w_cfg w) sd)) q /\
             live_at (prov_of w sd) q kd d).
Proof.
  intros W. unfold rel_view. rewrite in_flat_map. split.
  - intros ([q [kd' d']] & Hin & H). simpl in H.
    destruct (is_under (p_cfg (prov_of w sd)) (root_of (w_cfg w) sd) q) eqn:Eu; [|contradiction].
    destruct H as [H|[]]. injection H as <- <- <-. exists q. split; [exact Eu|]. split; [reflexivity|].
    apply (tree_view_live _ _ _ _ W). exact Hin.
  - intros (q & Hu & -> & Hl). exists (q, (kd, d)). split; [apply (tree_view_live _ _ _ _ W); exact Hl|].
    simpl. rewrite Hu. left. reflexivity.
Qed.

Lemma quiescent_iff w : quiescent w = true <-> (forall sd, ProvModel.events_from (prov_of w sd) = []) /\ cset (w_st w) = [].
Proof.
  unfold quiescent, no_events. split.
  - intros H. apply andb_prop in H as [H Hc]. apply andb_prop in H as [HL HR]. split.
    + intros [|]; [destruct (events_from (prov_of w true)); [reflexivity|discriminate]|destruct (events_from (prov_of w false)); [reflexivity|discriminate]].
    + destruct (cset (w_st w)); [reflexivity|discriminate].
  - intros (H1 & H2). rewrite !H1, H2. reflexivity.
Qed.

Lemma is_under_root c (r : name) q : c_cs c = true -> is_under c [r] q = true -> exists rest, q = r :: rest /\ rest <> [].
Proof.
  intros Hcs H. unfold is_under in H. apply andb_prop in H as [Hl Hp]. unfold np in Hp. rewrite Hcs in Hp.
  destruct q as [|a rest]; [discriminate|]. cbn [length firstn] in Hp. apply path_eqb_eq in Hp. injection Hp as ->.
  exists rest. split; [reflexivity|]. destruct rest; [simpl in Hl; discriminate|discriminate].
Qed.

Lemma root_std sd : root_of (cfg_std 1) sd = [root_name sd].
Proof. destruct sd; reflexivity. Qed.
Lemma oip_std sd : oip_of (cfg_std 1) sd = false.
Proof. destruct sd; reflexivity. Qed.

Lemma file_in_view g w sd k ob n :
  Inv g w -> obj_at w sd k = Some ob -> ProvModel.o_exists ob = true -> ProvModel.o_path ob = [root_name sd; n] ->
  ProvModel.o_kind ob = ProvModel.KFile -> In ([n], (ProvModel.KFile, ProvModel.o_data ob)) (rel_view w sd).
Proof.
  intros I Hob Hl Hp Hk. pose proof (i_pwf I sd) as W.
  apply (rel_view_live w sd [n] ProvModel.KFile (ProvModel.o_data ob) W).
  rewrite (i_cfg I), root_std.
  exists [root_name sd; n]. split.
  - unfold ProvModel.is_under. cbn [length firstn Nat.ltb Nat.leb andb]. unfold ProvModel.np. rewrite (pw_cs _ W). apply path_eqb_eq. reflexivity.
  - split; [reflexivity|]. exists k, ob. unfold obj_at in Hob. auto.
Qed.

(* only the two roots are not below the sync root *)
Lemma below_root_ge2 g w sd k ob rest :
  Inv g w -> obj_at w sd k = Some ob -> ProvModel.o_path ob = root_name sd :: rest -> rest <> [] -> (2 <= k)%nat.
Proof.
  intros I Hob Hp Hr. destruct k as [|[|k]]; [| |lia].
  - destruct (sh_root0 (i_shape I sd)) as (r0 & H0 & _ & P0 & _). congruence.
  - destruct (sh_root1 (i_shape I sd)) as (r1 & H1 & _ & P1 & _). congruence.
Qed.

Lemma view_file g w sd rel kd d :
  Inv g w -> In (rel, (kd, d)) (rel_view w sd) ->
  exists k ob n, (2 <= k)%nat /\ obj_at w sd k = Some ob /\ ProvModel.o_exists ob = true /\ ProvModel.o_path ob = [root_name sd; n] /\
                 rel = [n] /\ kd = ProvModel.KFile /\ d = ProvModel.o_data ob.
Proof.
  intros I Hin. pose proof (i_pwf I sd) as W.
  apply (rel_view_live w sd rel kd d W) in Hin as (q & Hu & -> & (k & ob & Hn & Hl & Hp & Hk & Hd)).
  rewrite (i_cfg I), root_std in *.
  destruct (is_under_root _ (root_name sd) q (pw_cs _ W) Hu) as (rest & -> & Hrest).
  pose proof (below_root_ge2 g w sd k ob rest I Hn Hp Hrest) as Hk2.
  destruct (sh_files (i_shape I sd) k ob Hk2 Hn) as (Hkf & n & Hpn & Hnok).
  rewrite Hp in Hpn. injection Hpn as ->.
  exists k, ob, n. repeat (split; [first [assumption|reflexivity|congruence]|]). congruence.
Qed.

Lemma live_not_disc evl g w e en sd k ob : FullOk evl g w e en sd k ob -> o_exists ob = true -> is_discarded (e_ign en) = false.
Proof. intros FO Hl. destruct (is_discarded (e_ign en)) eqn:Ed; [|reflexivity]. rewrite (fo_disc FO Ed) in Hl. discriminate. Qed.

(* a mirror side m with an unflagged owner side o: the two objects have the same leaf name and content.
   The leaf comes from fo_mirror; both objects' contents equal the mirror's sync hash (fo_mirror, fo_owner). *)
Lemma mirror_agrees evl g w e en m o k ob k' ob' :
  o = negb m -> FullOk evl g w e en m k ob -> FullOk evl g w e en o k' ob' ->
  is_discarded (e_ign en) = false ->
  s_oid (gs en m) = Some (ostr_k k) -> s_oid (gs en o) = Some (ostr_k k') -> obj_at w o k' = Some ob' ->
  ~ flagP evl en o k' -> g_get k (g_of g m) = None ->
  leaf (o_path ob) = leaf (o_path ob') /\ o_data ob = o_data ob'.
Proof.
  intros Ho FO FO' Hnd Hm Ho' Hob' Hnf Eg. assert (Hno: negb o = m) by (subst o; apply negb_involutive).
  destruct (fo_mirror FO Hnd Eg) as (_ & _ & Hsh & _ & _ & _ & (k2 & ob2 & Ho2 & Hob2 & Hleaf & Hg2)).
  rewrite <- Ho in Ho2, Hob2, Hg2. assert (k2 = k') by (apply ostr_k_inj; congruence). subst k2.
  split; [congruence|].
  destruct (g_get k' (g_of g o)) as [cs|] eqn:Eg'; [|congruence].
  destruct (fo_owner FO' Hnd cs Eg') as (_ & _ & _ & _ & Hp2). rewrite Hno in Hp2.
  destruct Hp2 as (_ & _ & [HJ|(_ & Hf)] & _); congruence || contradiction.
Qed.

(* at quiet a live file has a live peer on the other side, of the same name and content; and the peer of an engine-made file
   is a user's *)
Lemma quiet_peer g w sd k ob n :
  Inv g w -> quiescent w = true -> (2 <= k)%nat -> obj_at w sd k = Some ob -> o_exists ob = true -> o_path ob = [root_name sd; n] ->
  exists k' ob', obj_at w (negb sd) k' = Some ob' /\ o_exists ob' = true /\ o_path ob' = [root_name (negb sd); n] /\
    o_kind ob' = KFile /\ o_data ob' = o_data ob /\ (g_get k (g_of g sd) = None -> g_get k' (g_of g (negb sd)) <> None).
Proof.
  intros I Hq Hk2 Hn Hl Hp. destruct (proj1 (quiescent_iff w) Hq) as [Hev Hcs]. unfold obj_at in Hn.
  (* it has an entry *)
  assert (Hlen: (k < length (p_heap (prov_of w sd)))%nat) by (apply nth_error_Some; congruence).
  destruct (i_cov I sd k Hk2 Hlen) as [(e & en & He & Ho)|Hpd].
  2:{ unfold pd, real_evl in Hpd. rewrite Hev in Hpd. discriminate. }
  pose proof (entry_ge2 _ g w e en sd k I He Ho Hk2) as He2.
  pose proof (i_ents I e en He2 He) as EO.
  (* no side of the entry is flagged *)
  assert (Hnf: forall s k0, s_oid (gs en s) <> None -> ~ flagP (real_evl w) en s k0).
  { intros s k0 Hoid [Hc|Hpd0].
    - pose proof (i_csc I e en He) as Hc2. rewrite Hcs in Hc2.
      assert (flagged en = true).
      { destruct (s_oid (gs en s)) as [o|] eqn:Eo; [|congruence].
        destruct (so_full (eo_side EO s) o Eo) as (k1 & ob1 & -> & _).
        apply (flagged_side en s Hc). rewrite Eo. reflexivity. }
      specialize (Hc2 H). discriminate.
    - unfold pd, real_evl in Hpd0. rewrite Hev in Hpd0. discriminate. }
  destruct (so_full (eo_side EO sd) _ Ho) as (k1 & ob1 & Hk1 & Hob1 & _ & FO).
  apply ostr_k_inj in Hk1. subst k1. unfold obj_at in Hob1. rewrite Hn in Hob1. injection Hob1 as <-.
  pose proof (live_not_disc _ _ _ _ _ _ _ _ FO Hl) as Hnd.
  assert (Hoid_sd: s_oid (gs en sd) <> None) by congruence.
  (* the entry is paired *)
  destruct (s_oid (gs en (negb sd))) as [o'|] eqn:Eo'.
  2:{ exfalso. apply (Hnf sd k Hoid_sd). apply (fo_c1 FO Hnd Eo'). }
  destruct (so_full (eo_side EO (negb sd)) _ Eo') as (k' & ob' & -> & Hob' & Hk2' & FO').
  assert (Hoid_t: s_oid (gs en (negb sd)) <> None) by congruence.
  pose proof (negb_involutive sd) as Hnn.
  (* the unflagged other side is live *)
  assert (Hoid_sd': s_oid (gs en (negb (negb sd))) <> None) by (rewrite Hnn; exact Hoid_sd).
  destruct (fo_c2 FO' Hnd Hoid_sd') as [Hf|(Hl' & _)]; [exfalso; apply (Hnf (negb sd) k' Hoid_t Hf)|].
  (* one of the two sides is the mirror of the other *)
  assert (Hgoal: leaf (o_path ob') = n /\ o_data ob' = o_data ob).
  { rewrite <- (f_equal leaf Hp : leaf (o_path ob) = n).
    destruct (g_get k (g_of g sd)) as [cs|] eqn:Eg.
    - pose proof (owner_peer _ g w e en sd k ob cs k' Hnd FO Eg Eo') as Hpeer.
      apply (mirror_agrees _ g w e en (negb sd) sd k' ob' k ob (eq_sym Hnn) FO'); auto.
    - destruct (mirror_agrees _ g w e en sd (negb sd) k ob k' ob' eq_refl FO FO'); auto. }
  destruct Hgoal as [Hleaf Hd].
  destruct (sh_files (i_shape I (negb sd)) k' ob' Hk2' Hob') as (Hkf' & n' & Hpn' & _).
  rewrite Hpn' in Hleaf. change (leaf [root_name (negb sd); n']) with n' in Hleaf. subst n'.
  exists k', ob'. repeat (split; [assumption|]).
  intros Eg. destruct (fo_mirror FO Hnd Eg) as (_ & _ & _ & _ & _ & _ & (k2 & ob2 & Ho2 & _ & _ & Hg2)).
  assert (k2 = k') by (apply ostr_k_inj; congruence). subst k2. exact Hg2.
Qed.

Lemma quiescent_transfer g w sd rel kd d :
  Inv g w -> quiescent w = true -> In (rel, (kd, d)) (rel_view w sd) -> In (rel, (kd, d)) (rel_view w (negb sd)).
Proof.
  intros I Hq Hin.
  destruct (view_file g w sd rel kd d I Hin) as (k & ob & n & Hk2 & Hn & Hl & Hp & -> & -> & ->).
  destruct (quiet_peer g w sd k ob n I Hq Hk2 Hn Hl Hp) as (k' & ob' & Hob' & Hl' & Hp' & Hkf' & <- & _).
  apply (file_in_view g w (negb sd) k' ob' n I Hob' Hl' Hp' Hkf').
Qed.

Theorem inv_quiescent_equal g w : Inv g w -> quiescent w = true ->
  forall rel kd d, In (rel, (kd, d)) (rel_view w false) <-> In (rel, (kd, d)) (rel_view w true).
Proof.
  intros I Hq rel kd d. split; intros H.
  - apply (quiescent_transfer g w false rel kd d I Hq H).
  - apply (quiescent_transfer g w true rel kd d I Hq H).
Qed.
